(* C09: subtree hashing composes to the whole-input hash for every valid decomposition. *)
From Coq Require Import NArith List Bool.
From V Require Import Base.Res Base.Word Base.MachInt gen.GenFormulas Spec.Compress Spec.Tree Spec.Blake3
  Model.Platform Model.RsChunk Model.RsHasher Proofs.FormulasP Proofs.IoP Proofs.HasherP Proofs.C02P Proofs.C09P Proofs.ExamplesP.
Import ListNotations.
Open Scope N_scope.

(* the two length helpers, as written in the source, on all of u64 *)
Theorem C09_left_subtree_len : forall n, 1024 < n -> n < 2 ^ 64 -> rs_left_subtree_len n = Ok (left_len n).
Proof. exact rs_left_subtree_len_spec. Qed.

Theorem C09_left_len_is_largest_pow2_below : forall n, 1024 < n ->
  exists a, left_len n = 1024 * 2 ^ a /\ 1024 * 2 ^ a < n <= 1024 * 2 ^ (a + 1).
Proof. exact Proofs.TreeP.left_len_spec. Qed.

Theorem C09_max_subtree_len : forall c, 0 < c -> c < 2 ^ 54 ->
  rs_max_subtree_len (c * 1024) = Ok (Some (1024 * 2 ^ tz 64 c)).
Proof. exact rs_max_subtree_len_spec. Qed.

Theorem C09_max_subtree_len_zero : rs_max_subtree_len 0 = Ok None.
Proof. exact rs_max_subtree_len_zero. Qed.

(* a subtree hasher: set_input_offset at any chunk-aligned offset, any update split of at most
   max_subtree_len bytes, finalize_non_root = the specification's subtree chaining value, which
   depends only on the bytes, the offset and the mode key *)
Theorem C09_set_input_offset : forall K F, length K = 8%nat -> forall c0, c0 < 2 ^ 54 ->
  set_input_offset (new_internal K F) (1024 * c0) = Ok (fresh K F c0).
Proof. intros K F _. exact (set_input_offset_fresh K F). Qed.

Theorem C09_subtree_cv_spec : forall p, PlatformOK p -> forall K F, length K = 8%nat -> forall c0 pieces,
  c0 < 2 ^ 54 -> 0 < len (concat pieces) -> len (concat pieces) <= 1024 * lim_of c0 -> len (concat pieces) < 2 ^ 64 ->
  exists h, updates p (fresh K F c0) pieces = Ok h /\
    finalize_non_root p h = Ok (chaining_value spec_c8 (subtree_output spec_c8 tree_height K F c0 (concat pieces))).
Proof. exact subtree_cv_spec. Qed.

(* every decomposition that respects left_subtree_len (joins) and max_subtree_len (leaves), with any
   nesting, yields the specification's subtree chaining value ... *)
Theorem C09_decomp_cv : forall p, PlatformOK p -> forall K F, length K = 8%nat -> forall c0 bs cv,
  Decomp p K F c0 bs cv -> len bs <= 1024 * 2 ^ 64 ->
  cv = chaining_value spec_c8 (subtree_output spec_c8 tree_height K F c0 bs).
Proof. exact decomp_cv. Qed.

(* ... and merging the two top-level subtrees gives the hash and the root output (extended output) *)
Theorem C09_decomp_root : forall p, PlatformOK p -> forall K F, length K = 8%nat -> forall l r cvl cvr,
  1024 < len (l ++ r) -> len (l ++ r) < 2 ^ 64 -> len l = left_len (len (l ++ r)) ->
  Decomp p K F 0 l cvl -> Decomp p K F (len l / 1024) r cvr ->
  merge_subtrees_root p K F cvl cvr = Ok (stream spec_c64 (subtree_output spec_c8 tree_height K F 0 (l ++ r)) 0 32) /\
  merge_subtrees_inner K F cvl cvr = subtree_output spec_c8 tree_height K F 0 (l ++ r).
Proof. exact decomp_root. Qed.

(* documented misuse panics *)
Theorem C09_misuse_unaligned_offset : forall K F, length K = 8%nat -> forall off, off mod 1024 <> 0 ->
  set_input_offset (new_internal K F) off = Panic 24.
Proof. intros K F _. exact (misuse_unaligned_offset K F). Qed.

Theorem C09_misuse_too_much_input : forall p, PlatformOK p -> forall K F, length K = 8%nat -> forall c0 h bs input,
  c0 < 2 ^ 54 -> c0 <> 0 -> InvS K F c0 h bs -> 1024 * lim_of c0 < len bs + len input ->
  hasher_update p h input = Panic 21.
Proof. intros p _ K F _. exact (misuse_too_much_input K F p). Qed.

Theorem C09_misuse_finalize_with_offset : forall p K F, length K = 8%nat -> forall c0 h bs,
  c0 < 2 ^ 54 -> c0 <> 0 -> InvS K F c0 h bs ->
  hasher_finalize p h = Panic 22 /\ hasher_finalize_output p h = Panic 22.
Proof. intros p K F _ c0 h bs _. exact (misuse_finalize_with_offset K F p c0 h bs). Qed.

Theorem C09_misuse_empty_subtree : forall p, PlatformOK p -> forall K F, length K = 8%nat -> forall c0,
  c0 < 2 ^ 54 -> finalize_non_root p (fresh K F c0) = Panic 25.
Proof. intros p _ K F _ c0 _. exact (misuse_empty_subtree K F p c0). Qed.

Example C09_nonvacuous :
  let p := sim_platform 4 16 in
  let a := repeat 1 2048 in let b := repeat 2 1000 in
  (ha <- updates p (fresh IV 0 0) [a] ;; cva <- finalize_non_root p ha ;;
   hb <- updates p (fresh IV 0 2) [b] ;; cvb <- finalize_non_root p hb ;;
   merge_subtrees_root p IV 0 cva cvb) = Ok (b3_hash (a ++ b)).
Proof.
  intros p a b.
  assert (P : PlatformOK p) by (apply sim_platform_ok; (reflexivity || (intro H; discriminate H))).
  destruct (decomp_leaf p P IV 0 eq_refl 0 [a]) as (ha & cva & Ua & Fa & Da);
    [reflexivity|reflexivity|lazy; discriminate|reflexivity|].
  destruct (decomp_leaf p P IV 0 eq_refl 2 [b]) as (hb & cvb & Ub & Fb & Db);
    [reflexivity|reflexivity|lazy; discriminate|reflexivity|].
  rewrite Ua. cbn [bind]. rewrite Fa. cbn [bind]. rewrite Ub. cbn [bind]. rewrite Fb. cbn [bind].
  cbn [concat] in Da, Db. rewrite app_nil_r in Da, Db.
  apply (C09_decomp_root p P IV 0 eq_refl a b cva cvb); [reflexivity|reflexivity|reflexivity|exact Da|exact Db].
Qed.

(* the functions of the modelled source are exactly the functions the model was written against
   (gen/GenApi.v is regenerated from /repo on every run; see Model/ApiSurface.v) *)
From V Require gen.GenApi Model.ApiSurface.
Theorem C09_api_hazmat : GenApi.api_hazmat = ApiSurface.expected_hazmat.
Proof. reflexivity. Qed.

Print Assumptions C09_api_hazmat.
Print Assumptions C09_left_subtree_len.
Print Assumptions C09_left_len_is_largest_pow2_below.
Print Assumptions C09_max_subtree_len.
Print Assumptions C09_max_subtree_len_zero.
Print Assumptions C09_set_input_offset.
Print Assumptions C09_subtree_cv_spec.
Print Assumptions C09_decomp_cv.
Print Assumptions C09_decomp_root.
Print Assumptions C09_misuse_unaligned_offset.
Print Assumptions C09_misuse_too_much_input.
Print Assumptions C09_misuse_finalize_with_offset.
Print Assumptions C09_misuse_empty_subtree.

(* the model against the source text: src/hazmat.rs.
   gen/GenHazmat.v is the text of `impl HasherExt for Hasher` (new_from_context_key, set_input_offset,
   finalize_non_root), Mode::key_words / flags_byte, merge_subtrees_inner / non_root / root / root_xof and
   hash_derive_key_context (src/hazmat.rs), translated statement by statement (tools/gen_coq.py gen_hazmat, regenerated
   from /repo on every run), together with platform::words_from_le_bytes_32 and the constructors Hasher::new /
   new_keyed / Default::default of src/lib.rs.  The asserts carry the models' Panic codes and must carry the source's
   messages ("hasher has already accepted input" 23, "offset .. must be a chunk boundary .." 24, "empty subtrees are
   never valid" 25).  `Platform::detect()` is the last parameter of every function that calls it; the functions called
   but not translated there are parameters, instantiated with the models' (m_parent_node_output = the specification's
   parent_output, m_Output_chaining_value, m_Output_root_hash: Props/C02.v C02_lib_src_loops_repr_def;
   m_hash_all_at_once = Model/RsWide.v hash_all_at_once); OutputReader::new is gen/GenXof.v's translation.  The models
   take (key words, flags) where the source takes a Mode: the theorems are stated at the key words and the flags byte
   the translated Mode methods compute, and those are tied to the machine's mode_init.  Each translated function
   EQUALS the model function on every argument, every fuel value, including the Panic results; hypotheses are type
   invariants (u8 fields, 32-byte keys) and the side conditions of Hasher::final_output's tie (Props/C02.v
   C02_lib_src_final_output). *)
From V Require Import gen.GenConsts gen.GenLibSmall gen.GenLibLoops gen.GenXof gen.GenHazmat Model.RsWide Model.RsXof
  Model.Machine Proofs.GenLibSmallP Proofs.GenLibLoopsP Proofs.GenXofP Proofs.GenHazmatP.

Theorem C09_hazmat_src_repr_def :
  mode_key hz_Mode_Hash = rs_IV /\
  (forall k, mode_key (hz_Mode_KeyedHash k) = words_of_bytes k) /\
  (forall k, mode_key (hz_Mode_DeriveKeyMaterial k) = words_of_bytes k) /\
  mode_flags hz_Mode_Hash = 0 /\
  (forall k, mode_flags (hz_Mode_KeyedHash k) = rs_flag_KEYED_HASH) /\
  (forall k, mode_flags (hz_Mode_DeriveKeyMaterial k) = rs_flag_DERIVE_KEY_MATERIAL) /\
  mode_ok hz_Mode_Hash /\
  (forall k, mode_ok (hz_Mode_KeyedHash k) = (length k = 32%nat)) /\
  (forall k, mode_ok (hz_Mode_DeriveKeyMaterial k) = (length k = 32%nat)) /\
  (forall ck, hz_mode_of MHash ck = hz_Mode_Hash) /\
  (forall k ck, hz_mode_of (MKeyed k) ck = hz_Mode_KeyedHash k) /\
  (forall c ck, hz_mode_of (MDerive c) ck = hz_Mode_DeriveKeyMaterial ck) /\
  (forall c ck, hz_mode_of (MDeriveK c) ck = hz_Mode_DeriveKeyMaterial ck) /\
  (forall p input key flags,
     m_hash_all_at_once p input key flags = GenLibLoopsP.res_map (lib_of_out p) (hash_all_at_once p input key flags)).
Proof. repeat split. Qed.
Print Assumptions C09_hazmat_src_repr_def.

Theorem C09_hazmat_src_words_from_le_bytes_32 : forall bytes, length bytes = 32%nat ->
  hz_words_from_le_bytes_32 bytes = words_of_bytes bytes.
Proof. exact hz_words_from_le_bytes_32_eq. Qed.
Print Assumptions C09_hazmat_src_words_from_le_bytes_32.

(* the constructors: Hasher::new, Default::default, Hasher::new_keyed, HasherExt::new_from_context_key *)
Theorem C09_hazmat_src_hasher_new : forall p,
  hz_Hasher_new p = lib_of_hasher p (new_internal rs_IV 0) /\
  hz_Hasher_Default_default p = lib_of_hasher p (new_internal rs_IV 0).
Proof. intros p. exact (conj (hz_Hasher_new_eq p) (hz_Hasher_default_eq p)). Qed.
Print Assumptions C09_hazmat_src_hasher_new.

Theorem C09_hazmat_src_hasher_new_keyed : forall key p, length key = 32%nat ->
  hz_Hasher_new_keyed key p = lib_of_hasher p (new_internal (words_of_bytes key) rs_flag_KEYED_HASH).
Proof. exact hz_Hasher_new_keyed_eq. Qed.
Print Assumptions C09_hazmat_src_hasher_new_keyed.

Theorem C09_hazmat_src_new_from_context_key : forall ck p, length ck = 32%nat ->
  hz_Hasher_new_from_context_key ck p = lib_of_hasher p (new_internal (words_of_bytes ck) rs_flag_DERIVE_KEY_MATERIAL).
Proof. exact hz_Hasher_new_from_context_key_eq. Qed.
Print Assumptions C09_hazmat_src_new_from_context_key.

Theorem C09_hazmat_src_set_input_offset : forall p h off, cs_blocks (h_cs h) < 2 ^ 8 -> cs_buf_len (h_cs h) < 2 ^ 8 ->
  hz_Hasher_set_input_offset (lib_of_hasher p h) off = GenLibLoopsP.res_map (lib_of_hasher p) (set_input_offset h off).
Proof. exact hz_Hasher_set_input_offset_eq. Qed.
Print Assumptions C09_hazmat_src_set_input_offset.

Theorem C09_hazmat_src_finalize_non_root : forall p fuel h, cs_blocks (h_cs h) < 2 ^ 8 -> cs_buf_len (h_cs h) < 2 ^ 8 ->
  (length (h_stack h) <= fuel)%nat -> (forall a, h_stack h = [a] -> cs_count (h_cs h) <> Ok 0) ->
  hz_Hasher_finalize_non_root m_parent_node_output m_Output_chaining_value fuel (lib_of_hasher p h)
  = finalize_non_root p h.
Proof. exact hz_Hasher_finalize_non_root_eq. Qed.
Print Assumptions C09_hazmat_src_finalize_non_root.

(* Mode::key_words / flags_byte; every mode of the machine is one of these *)
Theorem C09_hazmat_src_mode_key_words : forall mode, mode_ok mode -> hz_Mode_key_words mode = mode_key mode.
Proof. exact hz_Mode_key_words_eq. Qed.
Print Assumptions C09_hazmat_src_mode_key_words.

Theorem C09_hazmat_src_mode_flags_byte : forall mode, hz_Mode_flags_byte mode = mode_flags mode.
Proof. intros mode; destruct mode; reflexivity. Qed.
Print Assumptions C09_hazmat_src_mode_flags_byte.

Theorem C09_hazmat_src_mode_init : forall p m key flags, mode_init p m = Ok (key, flags) ->
  exists ck, match m with MDerive c | MDeriveK c => rs_hash_derive_key_context p c = Ok ck | _ => ck = [] end /\
             key = mode_key (hz_mode_of m ck) /\ flags = mode_flags (hz_mode_of m ck).
Proof. exact mode_init_hz. Qed.
Print Assumptions C09_hazmat_src_mode_init.

Theorem C09_hazmat_src_merge_subtrees_inner : forall l r mode p,
  hz_merge_subtrees_inner m_parent_node_output l r mode p
  = lib_of_out p (merge_subtrees_inner (hz_Mode_key_words mode) (hz_Mode_flags_byte mode) l r).
Proof. exact hz_merge_subtrees_inner_eq. Qed.
Print Assumptions C09_hazmat_src_merge_subtrees_inner.

(* the same with the TRANSLATED parent_node_output of gen/GenLibSmall.v, for 32-byte children *)
Theorem C09_hazmat_src_merge_subtrees_inner_src : forall l r mode p, length l = 32%nat -> length r = 32%nat ->
  hz_merge_subtrees_inner lib_parent_node_output l r mode p
  = lib_of_out p (merge_subtrees_inner (hz_Mode_key_words mode) (hz_Mode_flags_byte mode) l r).
Proof. exact hz_merge_subtrees_inner_src. Qed.
Print Assumptions C09_hazmat_src_merge_subtrees_inner_src.

Theorem C09_hazmat_src_merge_subtrees_non_root : forall l r mode p,
  hz_merge_subtrees_non_root m_parent_node_output m_Output_chaining_value l r mode p
  = merge_subtrees_non_root p (hz_Mode_key_words mode) (hz_Mode_flags_byte mode) l r.
Proof. exact hz_merge_subtrees_non_root_eq. Qed.
Print Assumptions C09_hazmat_src_merge_subtrees_non_root.

Theorem C09_hazmat_src_merge_subtrees_root : forall l r mode p,
  hz_merge_subtrees_root m_parent_node_output m_Output_root_hash l r mode p
  = merge_subtrees_root p (hz_Mode_key_words mode) (hz_Mode_flags_byte mode) l r.
Proof. exact hz_merge_subtrees_root_eq. Qed.
Print Assumptions C09_hazmat_src_merge_subtrees_root.

(* the machine's OpMergeXof adds reader_new (merge_subtrees_inner key flags l r) *)
Theorem C09_hazmat_src_merge_subtrees_root_xof : forall l r mode p,
  hz_merge_subtrees_root_xof m_parent_node_output l r mode p
  = lib_of_rd p (reader_new (merge_subtrees_inner (hz_Mode_key_words mode) (hz_Mode_flags_byte mode) l r)).
Proof. reflexivity. Qed.
Print Assumptions C09_hazmat_src_merge_subtrees_root_xof.

(* hash_derive_key_context: hash_all_at_once::<SerialJoin>(context.as_bytes(), IV, DERIVE_KEY_CONTEXT).root_hash().0 *)
Theorem C09_hazmat_src_hash_derive_key_context : forall p ctx,
  hz_hash_derive_key_context m_Output_root_hash (m_hash_all_at_once p) ctx = rs_hash_derive_key_context p ctx.
Proof. exact hz_hash_derive_key_context_eq. Qed.
Print Assumptions C09_hazmat_src_hash_derive_key_context.

(* non-vacuity: the translated functions compute, and agree with the model *)
Example C09_hazmat_src_nonvacuous :
  let p := sim_platform 4 16 in
  let k := repeat 7 32%nat in
  let h := new_internal (words_of_bytes k) rs_flag_KEYED_HASH in
  hasher_of_lib (hz_Hasher_new_keyed k p) = h /\
  GenLibLoopsP.res_map hasher_of_lib (hz_Hasher_set_input_offset (lib_of_hasher p h) 3072) = set_input_offset h 3072 /\
  hz_Hasher_set_input_offset (lib_of_hasher p h) 3073 = Panic 24 /\
  hz_Hasher_finalize_non_root m_parent_node_output m_Output_chaining_value 64 (lib_of_hasher p h) = Panic 25 /\
  hz_merge_subtrees_non_root m_parent_node_output m_Output_chaining_value (repeat 1 32%nat) (repeat 2 32%nat) (hz_Mode_KeyedHash k) p
    = merge_subtrees_non_root p (words_of_bytes k) rs_flag_KEYED_HASH (repeat 1 32%nat) (repeat 2 32%nat).
Proof. vm_compute. repeat split. Qed.
Print Assumptions C09_hazmat_src_nonvacuous.
