(* C11: reader, mmap and Write adapters hash exactly the bytes of their source.
   The reader is an oracle: any finite script of results.  `delivered` is what the reader yields (independent of the
   hasher); `updates` feeds pieces to Hasher::update. *)
From Coq Require Import NArith List Bool.
From V Require Import Base.Res Base.Word gen.GenConsts Spec.Tree Model.Platform Model.RsChunk Model.RsHasher
  Model.RsIo Proofs.IoP Proofs.HasherP Proofs.C02P.
Import ListNotations.
Open Scope N_scope.

(* update_reader = update with exactly the delivered pieces; Ok(total) at EOF, the
   error is returned otherwise; Interrupted never escapes (copy_result has no such case) *)
Theorem C11_copy_wide_spec : forall p fuel h data script total h',
  total + nlen data < 2 ^ 64 ->
  updates p h (fst (delivered fuel data script)) = Ok h' ->
  copy_wide fuel p h data script total =
  match snd (delivered fuel data script) with
  | EndEof => Ok (h', CopyOk (total + nlen (concat (fst (delivered fuel data script)))))
  | EndErr k => Ok (h', CopyErr k)
  | EndFuel => OutOfFuel
  end.
Proof. exact copy_wide_spec. Qed.

(* the delivered pieces are a prefix of the source, in order, without loss or duplication *)
Theorem C11_delivered_prefix : forall fuel data script,
  exists rest, data = concat (fst (delivered fuel data script)) ++ rest.
Proof. exact delivered_prefix. Qed.

Theorem C11_delivered_pieces : forall fuel data script,
  Forall (fun x => 0 < nlen x <= rs_COPY_BUF) (fst (delivered fuel data script)).
Proof. exact delivered_pieces. Qed.

(* the fuel update_reader passes is always enough *)
Theorem C11_copy_fuel_enough : forall data script, snd (delivered (copy_fuel data script) data script) <> EndFuel.
Proof. exact copy_fuel_enough. Qed.

Theorem C11_write_consumes_all : forall p h input h' n,
  hasher_write p h input = Ok (h', n) -> n = nlen input /\ hasher_update p h input = Ok h'.
Proof. exact hasher_write_consumes_all. Qed.

(* mapping decision for a regular file: map (all n bytes) iff n >= 16 KiB.  The source refuses to map more than
   isize::MAX = 2^63 - 1 bytes; n < 2^62 keeps clear of that and is not the sharp bound. *)
Theorem C11_mmap_decision_regular : forall n, n < 2 ^ 62 ->
  mmap_decision (if rs_seek_offset <=? n then Some (n - rs_seek_offset) else None) true =
  if rs_MIN_MMAP <=? n then Some n else None.
Proof. exact mmap_decision_regular. Qed.

(* together with C02: after update_reader the hasher has absorbed exactly the delivered prefix
   (so finalize / count describe it), whatever the script; Ok(total) at end of file, the error otherwise *)
Theorem C11_update_reader_refines : forall p, PlatformOK p -> forall K F, length K = 8%nat -> forall h bs data script,
  InvS K F 0 h bs -> len (bs ++ data) < 2 ^ 64 ->
  exists h' r, update_reader p h data script = Ok (h', r) /\
    InvS K F 0 h' (bs ++ concat (fst (delivered (copy_fuel data script) data script))) /\
    match snd (delivered (copy_fuel data script) data script) with
    | EndEof => r = CopyOk (nlen (concat (fst (delivered (copy_fuel data script) data script))))
    | EndErr k => r = CopyErr k
    | EndFuel => False
    end.
Proof. exact update_reader_refines. Qed.

Example C11_nonvacuous :
  let data := map N.of_nat (seq 0 300) in
  let script := [RDeliver 7; RInterrupted; RDeliver 100; RInterrupted; RError 5; RDeliver 9] in
  delivered (copy_fuel data script) data script = ([firstn 7 data; firstn 100 (skipn 7 data)], EndErr 5).
Proof. vm_compute. reflexivity. Qed.

(* the functions of the modelled source are exactly the functions the model was written against
   (gen/GenApi.v is regenerated from /repo on every run; see Model/ApiSurface.v) *)
From V Require gen.GenApi Model.ApiSurface.
Theorem C11_api_io : GenApi.api_io = ApiSurface.expected_io.
Proof. reflexivity. Qed.


(* the SOURCE TEXT of src/io.rs and of the reader / Write / mmap / rayon wrappers of src/lib.rs, translated
   statement by statement (gen/GenIo.v, regenerated on every run), is the model above.  The std / memmap2 calls are
   parameters of the translation, instantiated with: any reader that follows a script (scripted_reader: at most the
   requested bytes, at the front of the buffer); an operating-system oracle `os` for a file; Hasher::update = the
   model's hasher_update through the representation map.  res_map in the statements below is GenLibLoopsP.res_map. *)
From V Require Import Base.SInt gen.GenLibLoops gen.GenXof gen.GenIo Model.RsWideSched Model.RsHasherSched
  Proofs.GenLibLoopsP Proofs.GenTraitsP Proofs.GenIoP.

Theorem C11_src_min_mmap_size : io_MINIMUM_MMAP_SIZE = rs_MIN_MMAP.
Proof. reflexivity. Qed.

(* io::copy_wide, at every fuel, Panic / OutOfFuel included *)
Theorem C11_src_copy_wide : forall (Reader : Type) (view : Reader -> list N * list read_item)
    (read : Reader -> list N -> Reader * list N * io_result N) (ek : N -> list N),
  (forall k, ek k <> [73; 110; 116; 101; 114; 114; 117; 112; 116; 101; 100]) ->
  scripted_reader Reader view read ek ->
  forall p fuel r h,
  io_copy_wide Reader read m_Hasher_update fuel r (lib_of_hasher p h)
  = res_map (fun x => (lib_of_hasher p (fst x), io_of_copy ek (snd x)))
      (copy_wide fuel p h (fst (view r)) (snd (view r)) 0).
Proof. exact io_copy_wide_eq. Qed.

(* the script of Model/RsIo.v is such a reader *)
Theorem C11_src_script_is_reader : forall ek, scripted_reader (list N * list read_item) (fun st => st) (m_read ek) ek.
Proof. exact m_read_scripted. Qed.

(* io::maybe_mmap_file over the oracle: result and file cursor; the decision is mmap_decision; Ok(None) leaves the
   cursor of a fresh file at the start (seek failed / returned 0 / rewound) *)
Theorem C11_src_maybe_mmap_file : forall dbg o f, (dbg = true -> os_pos_ok o = true -> f_pos f = 0) ->
  m_maybe_mmap_file dbg o f = Ok (mmf_result o f).
Proof. exact io_maybe_mmap_file_eq. Qed.

Theorem C11_src_mmap_decision : forall o f,
  snd (mmf_result o f) =
  match mmap_decision (os_seek_end o) (os_mmap_ok o) with
  | Some len => IoOk (Some (firstn (N.to_nat len) (os_bytes o)))
  | None => match os_seek_end o, os_rewind_err o with
            | Some off, Some k => if (off =? 0) || negb (off <=? isize_max - rs_seek_offset) || negb (os_mmap_ok o)
                                  then (if off =? 0 then IoOk None else IoErr k) else IoOk None
            | _, _ => IoOk None
            end
  end.
Proof. exact mmf_result_decision. Qed.

Theorem C11_src_mmap_rewound : forall o f,
  f_pos f = 0 -> snd (mmf_result o f) = IoOk None -> f_pos (fst (mmf_result o f)) = 0.
Proof. exact mmf_result_rewound. Qed.

Theorem C11_src_mmap_regular : forall o f, nlen (os_bytes o) < 2 ^ 62 -> os_mmap_ok o = true ->
  os_seek_end o = (if rs_seek_offset <=? nlen (os_bytes o) then Some (nlen (os_bytes o) - rs_seek_offset) else None) ->
  snd (mmf_result o f) = if rs_MIN_MMAP <=? nlen (os_bytes o) then IoOk (Some (os_bytes o)) else IoOk None.
Proof. exact mmf_result_regular. Qed.

Theorem C11_src_update_reader : forall (Reader : Type) (view : Reader -> list N * list read_item)
    (read : Reader -> list N -> Reader * list N * io_result N) (ek : N -> list N),
  (forall k, ek k <> [73; 110; 116; 101; 114; 114; 117; 112; 116; 101; 100]) ->
  scripted_reader Reader view read ek ->
  forall p r h,
  io_Hasher_update_reader Reader read m_Hasher_update (copy_fuel (fst (view r)) (snd (view r))) (lib_of_hasher p h) r
  = res_map (fun x => (lib_of_hasher p (fst x), io_unit_of_copy ek (snd x)))
      (update_reader p h (fst (view r)) (snd (view r))).
Proof. intros Reader view read ek Hne Hread p r h. apply (io_Hasher_update_reader_fuel_eq Reader view read ek Hne Hread). Qed.

Theorem C11_src_write : forall p h input,
  io_Hasher_Write_write m_Hasher_update (lib_of_hasher p h) input
  = res_map (fun x => (lib_of_hasher p (fst x), IoOk (snd x))) (hasher_write p h input).
Proof. exact io_Hasher_Write_write_eq. Qed.

Theorem C11_src_flush : forall h, io_Hasher_Write_flush h = Ok (h, IoOk tt).
Proof. reflexivity. Qed.

Theorem C11_src_update_rayon_call : forall ext h input,
  io_Hasher_update_rayon ext h input = ext io_Join_RayonJoin h input.
Proof. exact io_Hasher_update_rayon_call. Qed.

Theorem C11_src_update_rayon : forall sch p h input,
  io_Hasher_update_rayon (m_Hasher_update_with_join sch) (lib_of_hasher p h) input
  = res_map (lib_of_hasher p) (hasher_update_sched p sch h input).
Proof. exact io_Hasher_update_rayon_eq. Qed.

(* mapped => update with the mapped bytes; not mapped => copy_wide from the (rewound) cursor; see mmap_outcome *)
Theorem C11_src_update_mmap : forall (Path : Type) (ek : N -> list N),
  (forall k, ek k <> [73; 110; 116; 101; 114; 114; 117; 112; 116; 101; 100]) ->
  forall dbg o (open : Path -> io_result file) p fuel h path,
  (forall f, open path = IoOk f -> dbg = true -> os_pos_ok o = true -> f_pos f = 0) ->
  io_Hasher_update_mmap Path file (option N) (list N) open dbg (m_seek o) (m_rewind o) None (fun _ n => Some n) (m_map o)
    (m_stream_position o) (fun m => m) m_Hasher_update (m_file_read ek o) fuel (lib_of_hasher p h) path
  = match open path with
    | IoOk f0 => mmap_outcome ek (hasher_update p) p fuel o h f0
    | IoErr k => Ok (lib_of_hasher p h, IoErr k)
    end.
Proof. exact io_Hasher_update_mmap_eq. Qed.

Theorem C11_src_update_mmap_rayon : forall (Path : Type) (ek : N -> list N),
  (forall k, ek k <> [73; 110; 116; 101; 114; 114; 117; 112; 116; 101; 100]) ->
  forall sch dbg o (open : Path -> io_result file) p fuel h path,
  (forall f, open path = IoOk f -> dbg = true -> os_pos_ok o = true -> f_pos f = 0) ->
  io_Hasher_update_mmap_rayon Path file (option N) (list N) open dbg (m_seek o) (m_rewind o) None (fun _ n => Some n) (m_map o)
    (m_stream_position o) (fun m => m) (m_Hasher_update_with_join sch) (m_file_read ek o) m_Hasher_update fuel
    (lib_of_hasher p h) path
  = match open path with
    | IoOk f0 => mmap_outcome ek (fun h m => hasher_update_sched p sch h m) p fuel o h f0
    | IoErr k => Ok (lib_of_hasher p h, IoErr k)
    end.
Proof. exact io_Hasher_update_mmap_rayon_eq. Qed.

Print Assumptions C11_api_io.
Print Assumptions C11_copy_wide_spec.
Print Assumptions C11_delivered_prefix.
Print Assumptions C11_delivered_pieces.
Print Assumptions C11_copy_fuel_enough.
Print Assumptions C11_write_consumes_all.
Print Assumptions C11_mmap_decision_regular.
Print Assumptions C11_update_reader_refines.
Print Assumptions C11_src_min_mmap_size.
Print Assumptions C11_src_copy_wide.
Print Assumptions C11_src_script_is_reader.
Print Assumptions C11_src_maybe_mmap_file.
Print Assumptions C11_src_mmap_decision.
Print Assumptions C11_src_mmap_rewound.
Print Assumptions C11_src_mmap_regular.
Print Assumptions C11_src_update_reader.
Print Assumptions C11_src_write.
Print Assumptions C11_src_flush.
Print Assumptions C11_src_update_rayon_call.
Print Assumptions C11_src_update_rayon.
Print Assumptions C11_src_update_mmap.
Print Assumptions C11_src_update_mmap_rayon.
