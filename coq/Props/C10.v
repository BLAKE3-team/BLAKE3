(* C10: reset() restores the initial state after any history; clones are independent. *)
From Coq Require Import NArith List Bool.
From V Require Import Base.Res Base.Word Spec.Compress Spec.Tree Spec.Blake3 Model.Platform Model.RsChunk
  Model.RsHasher Model.Machine Proofs.IoP Proofs.HasherP Proofs.C02P.
Import ListNotations.
Open Scope N_scope.

(* state equality: after reset the hasher IS the newly constructed one of the same key and flags,
   whatever was absorbed before, at any hazmat input offset c0 (so every later observation agrees) *)
Theorem C10_reset_is_new : forall K F c0 h bs, InvS K F c0 h bs -> hasher_reset h = new_internal K F.
Proof. exact reset_is_new. Qed.

(* every state reached by set_input_offset + updates satisfies the hypothesis *)
Theorem C10_reachable_with_offset : forall p, PlatformOK p -> forall K F, length K = 8%nat -> forall c0, c0 < 2 ^ 54 ->
  forall pieces h bs, InvS K F c0 h bs ->
  len (bs ++ concat pieces) <= 1024 * lim_of c0 -> len (bs ++ concat pieces) < 2 ^ 64 ->
  exists h', updates p h pieces = Ok h' /\ InvS K F c0 h' (bs ++ concat pieces).
Proof. exact InvS_updates. Qed.

Theorem C10_fresh_with_offset : forall p, PlatformOK p -> forall K F, length K = 8%nat -> forall c0, c0 < 2 ^ 54 ->
  InvS K F c0 (fresh K F c0) [].
Proof. intros p _ K F _ c0 _. apply InvS_fresh. Qed.

(* reset and clone inside call histories: the abstract machine resets instance i to the empty byte
   list and copies a byte list on clone; no operation on one instance changes another *)
Theorem C10_history_with_reset_and_clone : forall p, PlatformOK p -> forall K F, length K = 8%nat ->
  forall pn m ops hs rs vs abs obs,
  Forall2 (InvS K F 0) hs abs -> arun_h K F abs ops = Some obs ->
  run_ops p pn m K F (mkState hs rs vs) (map hop_op ops) [] = (obs, Ok tt).
Proof. exact history_refines. Qed.

Example C10_nonvacuous :
  let p := sim_platform 8 16 in
  exists h1 h2, set_input_offset (new_internal IV 0) 4096 = Ok h1 /\
                hasher_update p h1 (repeat 5 3000) = Ok h2 /\ hasher_reset h2 = new_internal IV 0 /\
                hasher_count (hasher_reset h2) = Ok 0.
Proof.
  intros p.
  assert (P : PlatformOK p) by (apply sim_platform_ok; (reflexivity || (intro H; discriminate H))).
  assert (I0 : InvS IV 0 4 (fresh IV 0 4) []) by (apply (C10_fresh_with_offset p P); reflexivity).
  assert (L1 : len ([] ++ repeat 5 3000) <= 1024 * lim_of 4) by (vm_compute; discriminate).
  assert (L2 : len ([] ++ repeat 5 3000) < 2 ^ 64) by (vm_compute; reflexivity).
  pose proof (InvS_update p P IV 0 eq_refl 4 eq_refl _ [] _ I0 L1 L2) as (h2 & U & I).
  exists (fresh IV 0 4), h2. split; [reflexivity|]. split; [exact U|].
  rewrite (C10_reset_is_new _ _ _ _ _ I). split; reflexivity.
Qed.

Print Assumptions C10_reset_is_new.
Print Assumptions C10_reachable_with_offset.
Print Assumptions C10_fresh_with_offset.
Print Assumptions C10_history_with_reset_and_clone.
