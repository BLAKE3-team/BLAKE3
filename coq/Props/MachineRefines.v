(* The two interpreters of the case language agree (end to end).

   Machine.run_case is the IMPLEMENTATION machine: the case language of tools/caselang.md
   interpreted over the executable models that mirror the Rust code (panics are `Panic code`).
   SpecMachine.spec_run_case is the SPECIFICATION machine: the same language interpreted with
   Spec/*.v only (one byte list + input offset per hasher, (root output, position) per reader);
   it returns None for the histories it does not cover.

   Whenever the specification machine accepts a history, the implementation machine produces
   exactly the same observations and does not panic, on every PlatformOK platform.

   Ops covered (= every op the specification machine interprets): new, update, write, finalize,
   finalize_xof, update_reader (scripted readers), count, clone, reset, set_input_offset, finalize_non_root, the one-shot functions,
   merge_subtrees_{non_root,root,root_xof}, hash_derive_key_context, the OutputReader ops
   (new, fill, read, position, set_position, seek, clone) and the RustCrypto trait ops
   (update, reset, finalize, finalize_reset, finalize_xof, finalize_xof_reset, KeyInit::new,
   Digest::new).  Not interpreted by the specification machine (it answers None, so the theorem
   says nothing about them): Debug, Zeroize. *)
From Coq Require Import NArith ZArith List Bool.
From V Require Import Base.Res Base.Word Spec.Compress Spec.Tree Spec.Blake3 Model.Platform Model.RsChunk
  Model.RsHasher Model.RsXof Model.RsIo Model.Machine Model.SpecMachine
  Proofs.XofP Proofs.C02P Proofs.MachineRefinesP Proofs.ExamplesP.
Import ListNotations.
Open Scope N_scope.

Theorem MR_mode_ok_def : forall m,
  mode_ok m = match m with
              | MHash => True
              | MKeyed k => length k = 32%nat
              | MDerive c | MDeriveK c => len c < 2 ^ 64
              end.
Proof. reflexivity. Qed.

Theorem MR_machine_refines_spec : forall p, PlatformOK p -> forall pname m ops obs,
  mode_ok m ->
  spec_run_case m ops = Some obs ->
  Machine.run_case p pname m ops = (obs, Ok tt).
Proof. exact machine_refines_spec. Qed.

(* the key words and flags of the implementation's hashers are those of the specification's mode *)
Theorem MR_mode_init : forall p, PlatformOK p -> forall m, mode_ok m ->
  mode_init p m = Ok (mode_key (spec_mode m), mode_flags (spec_mode m)).
Proof. exact mode_init_spec. Qed.

(* the simulation relation: hasher i has absorbed si_bytes as the subtree that starts at chunk si_off
   (InvS of C02/C09/C10), reader j is at position sr_pos of the stream of sr_out (Rd of C03), the saved
   chaining values are equal (and 32 bytes long) *)
Theorem MR_Sim_def : forall m ms ss,
  Sim m ms ss <->
  (Forall2 (fun h x => si_off x < 2 ^ 54 /\
                       InvS (mode_key (spec_mode m)) (mode_flags (spec_mode m)) (si_off x) h (si_bytes x))
           (st_hashers ms) (ss_h ss) /\
   Forall2 (fun r x => Rd r (sr_out x) (sr_pos x) /\ sr_pos x <= 2 ^ 64 - 1) (st_readers ms) (ss_r ss) /\
   st_vals ms = ss_v ss /\ Forall (fun v => length v = 32%nat) (ss_v ss)).
Proof. intros. reflexivity. Qed.

(* one step, for EVERY op: an accepted specification step is matched by the implementation step with
   the same observations, and the relation is kept *)
Theorem MR_step_refines_spec : forall p, PlatformOK p -> forall m, mode_ok m -> forall pname o ms ss ss' out,
  Sim m ms ss -> sstep m ss o = Some (ss', out) ->
  exists ms', step p pname m (mode_key (spec_mode m)) (mode_flags (spec_mode m)) ms o = Ok (ms', out) /\
              Sim m ms' ss'.
Proof. exact step_refines_spec. Qed.

(* any history from any pair of related states *)
Theorem MR_run_refines_spec : forall p, PlatformOK p -> forall m, mode_ok m -> forall pname ops ms ss obs,
  Sim m ms ss -> srun m ss ops = Some obs ->
  run_ops p pname m (mode_key (spec_mode m)) (mode_flags (spec_mode m)) ms ops [] = (obs, Ok tt).
Proof. exact run_refines_spec. Qed.

Theorem MR_no_panic : forall p, PlatformOK p -> forall pname m ops obs,
  mode_ok m -> spec_run_case m ops = Some obs -> snd (Machine.run_case p pname m ops) = Ok tt.
Proof. exact machine_no_panic. Qed.

Theorem MR_platform_independent : forall p1 p2, PlatformOK p1 -> PlatformOK p2 -> forall pn1 pn2 m ops obs,
  mode_ok m -> spec_run_case m ops = Some obs ->
  Machine.run_case p1 pn1 m ops = Machine.run_case p2 pn2 m ops.
Proof. exact machine_platform_independent. Qed.

(* non-vacuity: a keyed history over five hashers and five readers that uses offsets, subtree chaining
   values, merges, extended output, seeking and the trait methods is accepted by the specification
   machine and the implementation machine yields the same 21 observations *)
Definition MR_example_ops : list op :=
  [OpUpdate 0 (repeat 7 1500); OpNew; OpSetOffset 1 2048; OpUpdate 1 (repeat 9 700); OpNonRoot 1;
   OpNew; OpUpdate 2 (repeat 1 2048); OpNonRoot 2; OpMergeRoot (VRef 1) (VRef 0); OpMergeNonRoot (VRef 1) (VLit (repeat 5 32));
   OpFinalize 0; OpXof 0 70; OpReaderNew 0; OpFill 0 10; OpSeek 0 (SeekCurrent (-3)%Z); OpRead 0 5; OpPos 0;
   OpSeek 0 (SeekEnd 0%Z); OpSetPos 0 274877906940; OpFill 0 9; OpReaderClone 0;
   OpTKeyInit; OpTUpdate 3 [1; 2; 3]; OpTFinalizeReset 3; OpCount 3; OpOneShot [1; 2; 3]; OpContextKey [4; 5];
   OpClone 0; OpReset 0; OpCount 0; OpWrite 4 [1]; OpTXof 4 5; OpTXofReset 4 3; OpMergeXof (VRef 0) (VRef 1); OpFill 4 3].

Example MR_nonvacuous :
  let p := sim_platform 4 16 in
  let m := MKeyed (map N.of_nat (seq 0 32)) in
  mode_ok m /\
  exists obs, spec_run_case m MR_example_ops = Some obs /\
              Machine.run_case p [] m MR_example_ops = (obs, Ok tt) /\ length obs = 21%nat.
Proof.
  cbv zeta. split; [reflexivity|].
  destruct (option_image (@length _) (spec_run_case (MKeyed (map N.of_nat (seq 0 32))) MR_example_ops) 21%nat)
    as [obs [S L]]; [lazy; reflexivity|].
  exists obs. split; [exact S|]. split; [|exact L].
  apply MR_machine_refines_spec; [|reflexivity|exact S].
  apply sim_platform_ok; (reflexivity || (intro H; discriminate H)).
Qed.

(* the specification machine refuses what the implementation would panic on: finalize of a subtree
   hasher (a non-zero input offset) *)
Example MR_spec_refuses_misuse :
  spec_run_case MHash [OpSetOffset 0 1024; OpUpdate 0 [1]; OpFinalize 0] = None /\
  snd (Machine.run_case (sim_platform 4 16) [] MHash [OpSetOffset 0 1024; OpUpdate 0 [1]; OpFinalize 0]) = Panic 22.
Proof. split; vm_compute; reflexivity. Qed.

Print Assumptions MR_mode_ok_def.
Print Assumptions MR_machine_refines_spec.
Print Assumptions MR_mode_init.
Print Assumptions MR_Sim_def.
Print Assumptions MR_step_refines_spec.
Print Assumptions MR_run_refines_spec.
Print Assumptions MR_no_panic.
Print Assumptions MR_platform_independent.
Print Assumptions MR_nonvacuous.
Print Assumptions MR_spec_refuses_misuse.
