(* C18: instances used at the same time do not disturb each other; the only shared mutable state is the CPU-feature
   detection cache.  Three parts.  The writable global symbols that `nm` finds in the freshly built C library objects and
   in the blake3 rlib (generated into gen/GenGlobals.v by tools/props/C18.py before this file is compiled) are exactly
   the detection caches: a new writable static breaks these two statements.  In the process model of
   Model/Concurrency.v every interleaving shows each instance what it sees alone, and the cache goes from unknown to
   the detected value once.  The C cache as translated from c/blake3_dispatch.c only ever receives the value the call
   returns, and that value depends on the CPU's answers alone. *)
From Coq Require Import NArith List Bool Lia.
From V Require Import gen.GenGlobals gen.GenDispatch Base.Res Model.Concurrency Model.Dispatch Proofs.ConcurrencyP Proofs.DispatchP.
Import ListNotations.
Open Scope N_scope.

(* "g_cpu_features" *)
Theorem C18_globals_c_is_detection_cache : globals_c = [[103; 95; 99; 112; 117; 95; 102; 101; 97; 116; 117; 114; 101; 115]].
Proof. reflexivity. Qed.

(* blake3::platform::avx2_detected::has_avx2::STORAGE, blake3::platform::avx512_detected::has_avx512::STORAGE, blake3::platform::sse41_detected::has_sse41::STORAGE *)
Theorem C18_globals_rs_are_detection_caches : globals_rs =
  [[98; 108; 97; 107; 101; 51; 58; 58; 112; 108; 97; 116; 102; 111; 114; 109; 58; 58; 97; 118; 120; 50; 95; 100; 101; 116; 101; 99; 116; 101; 100; 58; 58; 104; 97; 115; 95; 97; 118; 120; 50; 58; 58; 83; 84; 79; 82; 65; 71; 69];
   [98; 108; 97; 107; 101; 51; 58; 58; 112; 108; 97; 116; 102; 111; 114; 109; 58; 58; 97; 118; 120; 53; 49; 50; 95; 100; 101; 116; 101; 99; 116; 101; 100; 58; 58; 104; 97; 115; 95; 97; 118; 120; 53; 49; 50; 58; 58; 83; 84; 79; 82; 65; 71; 69];
   [98; 108; 97; 107; 101; 51; 58; 58; 112; 108; 97; 116; 102; 111; 114; 109; 58; 58; 115; 115; 101; 52; 49; 95; 100; 101; 116; 101; 99; 116; 101; 100; 58; 58; 104; 97; 115; 95; 115; 115; 101; 52; 49; 58; 58; 83; 84; 79; 82; 65; 71; 69]].
Proof. reflexivity. Qed.

(* Model (Model/Concurrency.v): a process = a list of instance states + the detection cache; an
   operation acts on exactly one instance (through a function f of that instance's state only) and
   may store the constant detected feature set into the cache.  In ANY global sequence of
   operations -- i.e. any interleaving of the per-instance operation sequences, including the first
   operations that trigger detection -- instance i observes exactly what it observes when its own
   operations run alone. *)
Theorem C18_interleaving_projects : forall (S A O : Type) (f : A -> S -> res (S * O)) (features : N)
  evs (p p' : proc S) os i s,
  cache_ok features (cache S p) -> nth_error (insts S p) i = Some s ->
  run_seq S A O f features p evs = Ok (p', os) ->
  exists s', run_alone S A O f s (map snd (filter (fun x => Nat.eqb (fst x) i) evs)) = Ok (s', project O i os) /\
             nth_error (insts S p') i = Some s' /\ cache_ok features (cache S p').
Proof. exact interleaving_projects. Qed.

(* the detection cache is idempotent: unknown -> the detected value, and then never changes *)
Theorem C18_detection_idempotent : forall (S : Type) (features : N) (p : proc S),
  cache_ok features (cache S p) ->
  cache S (fst (detect S features p)) = Some features /\ snd (detect S features p) = features /\
  insts S (fst (detect S features p)) = insts S p.
Proof. exact detect_cache. Qed.

(* The C cache (the model's premise "an operation may store the CONSTANT detected value"):
   get_cpu_features, translated from c/blake3_dispatch.c into gen/GenDispatch.v c_dispatch_prog.
   Whatever the CPU answers (`taken`) and whatever the local held before, every value a first call
   stores to g_cpu_features is the complete value that call returns - no partial feature set is ever
   published - and that value is a function of the CPU's answers only, so concurrent first callers
   store the same value. *)
Theorem C18_c_cache_stores_are_final : forall taken f,
  Forall (eq (Some (snd (exec c_dispatch_prog taken f)))) (fst (exec c_dispatch_prog taken f)).
Proof. apply stores_are_final. vm_compute. reflexivity. Qed.

Theorem C18_c_cache_value_is_cpu_only : forall taken f1 f2,
  exec c_dispatch_prog taken f1 = exec c_dispatch_prog taken f2.
Proof. apply result_is_cpu_only. vm_compute. reflexivity. Qed.

(* non-vacuity: the program does store, exactly once, and a CPU answering yes to everything yields all seven features *)
Example C18_c_cache_nonvacuous :
  exec c_dispatch_prog (repeat true 16) 12345 = ([Some 127], 127) /\ stores_final c_dispatch_prog = true.
Proof. vm_compute. split; reflexivity. Qed.

Print Assumptions C18_globals_c_is_detection_cache.
Print Assumptions C18_c_cache_stores_are_final.
Print Assumptions C18_c_cache_value_is_cpu_only.
Print Assumptions C18_globals_rs_are_detection_caches.
Print Assumptions C18_interleaving_projects.
Print Assumptions C18_detection_idempotent.
