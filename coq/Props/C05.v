(* C05: every SIMD kernel ALGORITHM equals the portable compression function.  Models in Model/Kernels.v.
   Scope: the lane-parallel hashN / xofN kernels, the row-vectorised single-block kernel,
   the four load_counters variants, the unpack/permute transposes, and the
   hash_many / xof_many cascades of the SSE2, SSE4.1, AVX2 and AVX-512 back ends, as
   written in the Rust-intrinsics and C-intrinsics sources.  The assembly files implement the
   same algorithms and are tied to these models by correspondence only (DESIGN.md, C05).
   Domain: cv/key of 8 words, inputs of one common length that is a multiple of 64
   (`uniform`), counter + number of lanes/inputs/blocks within u64. *)
From Coq Require Import NArith ZArith List Bool Arith.
From V Require Import Base.Res Base.Word Base.MachInt gen.GenConsts Model.Portable Model.Platform
  Model.Kernels Proofs.TransposeP Proofs.KernelsP Proofs.KernelsCascadeP Proofs.KernelsRowsP Proofs.KernelsXofP
  Proofs.KernelsPlatformP Proofs.BlendP.
Import ListNotations.
Open Scope N_scope.

(* lane_lift: any function built from lane-wise add/xor/rot, read at lane i, is the scalar
   function of the lane-i inputs *)
Theorem C05_lane_lift : forall n i, (i < n)%nat -> forall (env : nat -> vec) (e : wexpr),
  (forall k, length (env k) = n) ->
  length (eval_vec env e) = n /\ nth i (eval_vec env e) 0 = eval_word (fun k => nth i (env k) 0) e.
Proof. exact lane_lift. Qed.
Print Assumptions C05_lane_lift.

(* the SIMD round (112 statements, source order), read at lane i, is the portable round *)
Theorem C05_vround_lane : forall n i, (i < n)%nat -> forall (v msg : list vec) r,
  (r < 7)%nat -> length v = 16%nat -> length msg = 16%nat -> Forall (wf n) v -> Forall (wf n) msg ->
  Forall (wf n) (vround v msg r) /\ length (vround v msg r) = 16%nat /\
  lane i (vround v msg r) = Portable.round (lane i v) (lane i msg) r.
Proof. exact vround_lane. Qed.
Print Assumptions C05_vround_lane.

(* transposes, polymorphic in the lane contents: row j of the result is column j *)
Theorem C05_transpose_4x4 : forall A (d : A) (M : list (list A)),
  length M = 4%nat -> Forall (fun r => length r = 4%nat) M ->
  transpose_vecs_128 d M = map (fun j => map (fun row => nth j row d) M) (seq 0 4).
Proof. exact @transpose_vecs_128_ok. Qed.
Print Assumptions C05_transpose_4x4.
Theorem C05_transpose_8x8 : forall A (d : A) (M : list (list A)),
  length M = 8%nat -> Forall (fun r => length r = 8%nat) M ->
  transpose_vecs_256 d M = map (fun j => map (fun row => nth j row d) M) (seq 0 8).
Proof. exact @transpose_vecs_256_ok. Qed.
Print Assumptions C05_transpose_8x8.
Theorem C05_transpose_16x16 : forall A (d : A) (M : list (list A)),
  length M = 16%nat -> Forall (fun r => length r = 16%nat) M ->
  transpose_vecs_512 d M = map (fun j => map (fun row => nth j row d) M) (seq 0 16).
Proof. exact @transpose_vecs_512_ok. Qed.
Print Assumptions C05_transpose_16x16.

(* load_counters: lane i holds (counter_low, counter_high) of counter + i (or of counter) *)
Definition C05_lc_stmt (n : nat) (lc : N -> bool -> res (vec * vec)) : Prop :=
  forall counter incr, counter + N.of_nat n <= 2 ^ 64 ->
    exists clo chi, lc counter incr = Ok (clo, chi) /\ length clo = n /\ length chi = n /\
      forall i, (i < n)%nat ->
        nth i clo 0 = ctr_lo (if incr then counter + N.of_nat i else counter) /\
        nth i chi 0 = ctr_hi (if incr then counter + N.of_nat i else counter).
Theorem C05_load_counters_rust : forall n, C05_lc_stmt n (load_counters_rs n).
Proof. exact load_counters_rs_ok. Qed.
Print Assumptions C05_load_counters_rust.
Theorem C05_load_counters_signed_compare : forall n, N.of_nat n <= 4294967296 -> C05_lc_stmt n (load_counters_cmp n).
Proof. exact load_counters_cmp_ok. Qed.
Print Assumptions C05_load_counters_signed_compare.
Theorem C05_load_counters_andnot : forall n, N.of_nat n <= 2147483648 -> C05_lc_stmt n (load_counters_andnot n).
Proof. exact load_counters_andnot_ok. Qed.
Print Assumptions C05_load_counters_andnot.
Theorem C05_load_counters_64bit : forall n, C05_lc_stmt n (load_counters_64 n).
Proof. exact load_counters_64_ok. Qed.
Print Assumptions C05_load_counters_64bit.

(* hashN: N inputs of `blocks` blocks = Portable.hash1 per input, counters counter + i *)
Definition C05_hashN_stmt (n : nat) (hN : hashN_fn) : Prop :=
  forall chunk blocks key counter incr fl fs fe,
    length chunk = n -> length key = 8%nat ->
    (forall i, In i chunk -> length i = (blocks * 64)%nat) ->
    counter + N.of_nat n <= 2 ^ 64 ->
    hN chunk blocks key counter incr fl fs fe = Ok (hm_spec chunk key counter incr fl fs fe).
(* hm_spec is the value of Portable.hash_many_go *)
Theorem C05_hm_spec_is_portable : forall inputs key c incr fl fs fe,
  (forall i, In i inputs -> Nat.modulo (length i) 64 = 0%nat) -> c + N.of_nat (length inputs) < 2 ^ 64 ->
  hash_many_go inputs key c incr fl fs fe = Ok (hm_spec inputs key c incr fl fs fe).
Proof. exact hash_many_go_spec. Qed.
Print Assumptions C05_hm_spec_is_portable.
Theorem C05_hash4_rust : C05_hashN_stmt 4 hash4_rs. Proof. exact hash4_rs_ok. Qed.
Print Assumptions C05_hash4_rust.
Theorem C05_hash8_rust : C05_hashN_stmt 8 hash8_rs. Proof. exact hash8_rs_ok. Qed.
Print Assumptions C05_hash8_rust.
Theorem C05_hash4_c : C05_hashN_stmt 4 hash4_c. Proof. exact hash4_c_ok. Qed.
Print Assumptions C05_hash4_c.
Theorem C05_hash8_c : C05_hashN_stmt 8 hash8_c. Proof. exact hash8_c_ok. Qed.
Print Assumptions C05_hash8_c.
Theorem C05_hash4_avx512 : C05_hashN_stmt 4 hash4_avx512. Proof. exact hash4_avx512_ok. Qed.
Print Assumptions C05_hash4_avx512.
Theorem C05_hash8_avx512 : C05_hashN_stmt 8 hash8_avx512. Proof. exact hash8_avx512_ok. Qed.
Print Assumptions C05_hash8_avx512.
Theorem C05_hash16_avx512 : C05_hashN_stmt 16 hash16_avx512. Proof. exact hash16_avx512_ok. Qed.
Print Assumptions C05_hash16_avx512.

(* hash_many cascades = Portable.hash_many, any number of inputs *)
Definition C05_dom (inputs : list (list N)) (key : list N) (ctr : N) : Prop :=
  length key = 8%nat /\
  (forall i, In i inputs -> length i = (Nat.div (length (hd [] inputs)) 64 * 64)%nat) /\
  ctr + N.of_nat (length inputs) < 2 ^ 64.
Theorem C05_hash_many_sse2 : forall inputs key ctr incr fl fs fe cap, C05_dom inputs key ctr ->
  hash_many_rs4 (load_counters_rs 4) compress_in_place_rows inputs key ctr incr fl fs fe cap =
  hash_many inputs key ctr incr fl fs fe cap.
Proof. exact hash_many_sse2_ok. Qed.
Print Assumptions C05_hash_many_sse2.
Theorem C05_hash_many_sse41 : forall inputs key ctr incr fl fs fe cap, C05_dom inputs key ctr ->
  hash_many_rs4 (load_counters_rs 4) compress_in_place_rows inputs key ctr incr fl fs fe cap =
  hash_many inputs key ctr incr fl fs fe cap.
Proof. exact hash_many_sse41_ok. Qed.
Print Assumptions C05_hash_many_sse41.
Theorem C05_hash_many_avx2 : forall inputs key ctr incr fl fs fe cap, C05_dom inputs key ctr ->
  hash_many_rs8 (load_counters_rs 8) (load_counters_rs 4) compress_in_place_rows inputs key ctr incr fl fs fe cap =
  hash_many inputs key ctr incr fl fs fe cap.
Proof. exact hash_many_avx2_ok. Qed.
Print Assumptions C05_hash_many_avx2.
Theorem C05_hash_many_avx512 : forall inputs key ctr incr fl fs fe cap, C05_dom inputs key ctr ->
  N.of_nat (length inputs) <= cap ->
  ffi_hash_many (hash_many_c16 compress_in_place_rows) inputs key ctr incr fl fs fe cap =
  hash_many inputs key ctr incr fl fs fe cap.
Proof. exact hash_many_avx512_ok. Qed.
Print Assumptions C05_hash_many_avx512.
Theorem C05_hash_many_sse41_c : forall inputs key ctr incr fl fs fe cap, C05_dom inputs key ctr ->
  N.of_nat (length inputs) <= cap ->
  ffi_hash_many (hash_many_c4 (load_counters_cmp 4) compress_in_place_rows) inputs key ctr incr fl fs fe cap =
  hash_many inputs key ctr incr fl fs fe cap.
Proof. exact hash_many_sse41_c_ok. Qed.
Print Assumptions C05_hash_many_sse41_c.
Theorem C05_hash_many_avx2_c : forall inputs key ctr incr fl fs fe cap, C05_dom inputs key ctr ->
  N.of_nat (length inputs) <= cap ->
  ffi_hash_many (hash_many_c8 (load_counters_cmp 8) (load_counters_cmp 4) compress_in_place_rows)
                inputs key ctr incr fl fs fe cap =
  hash_many inputs key ctr incr fl fs fe cap.
Proof. exact hash_many_avx2_c_ok. Qed.
Print Assumptions C05_hash_many_avx2_c.
(* the FFI wrappers' bound check is an unconditional assert! (portable: debug_assert!) *)
Theorem C05_ffi_hash_many_short_out : forall f inputs key ctr incr fl fs fe cap,
  cap < N.of_nat (length inputs) -> ffi_hash_many f inputs key ctr incr fl fs fe cap = Panic 101.
Proof. exact ffi_hash_many_short. Qed.
Print Assumptions C05_ffi_hash_many_short_out.

Theorem C05_compress_in_place_rows : forall cv block bl ctr fl, length cv = 8%nat ->
  compress_in_place_rows cv block bl ctr fl = compress_in_place cv block bl ctr fl.
Proof. exact compress_in_place_rows_ok. Qed.
Print Assumptions C05_compress_in_place_rows.
Theorem C05_compress_xof_rows : forall cv block bl ctr fl, length cv = 8%nat ->
  compress_xof_rows cv block bl ctr fl = compress_xof cv block bl ctr fl.
Proof. exact compress_xof_rows_ok. Qed.
Print Assumptions C05_compress_xof_rows.
(* the shuffle sequence between rounds is MSG_PERMUTATION in the diagonal layout *)
Theorem C05_msg_shuffle_is_permutation : forall x, length x = 16%nat ->
  msg_next (layout x) = layout (Spec.Compress.permute x).
Proof. exact msg_next_layout. Qed.
Print Assumptions C05_msg_shuffle_is_permutation.

(* xof_many: blake3_xof_many_avx512 = the generic loop *)
Theorem C05_xof_many_avx512 : forall cv block bl ctr fl n, length cv = 8%nat -> ctr + n < 2 ^ 64 ->
  xof_many_avx512 compress_xof_rows cv block bl ctr fl n = portable_xof_many cv block bl ctr fl n.
Proof. exact (xof_many_avx512_ok compress_xof_rows cx_ok_rows). Qed.
Print Assumptions C05_xof_many_avx512.

Theorem C05_platform_sse2 : PlatformOK sse2_platform. Proof. exact sse2_platform_ok. Qed.
Print Assumptions C05_platform_sse2.
Theorem C05_platform_sse41 : PlatformOK sse41_platform. Proof. exact sse41_platform_ok. Qed.
Print Assumptions C05_platform_sse41.
Theorem C05_platform_avx2 : PlatformOK avx2_platform. Proof. exact avx2_platform_ok. Qed.
Print Assumptions C05_platform_avx2.
Theorem C05_platform_avx512 : PlatformOK avx512_platform. Proof. exact avx512_platform_ok. Qed.
Print Assumptions C05_platform_avx512.
Theorem C05_platform_sse41_ffi : PlatformOK sse41_ffi_platform. Proof. exact sse41_ffi_platform_ok. Qed.
Print Assumptions C05_platform_sse41_ffi.
Theorem C05_platform_avx2_ffi : PlatformOK avx2_ffi_platform. Proof. exact avx2_ffi_platform_ok. Qed.
Print Assumptions C05_platform_avx2_ffi.
(* rust_sse2.rs: the emulation of _mm_blend_epi16 ((mask & b) | andnot(mask, a) with the cmpeq16 mask) is the
   lane selection of the SSE4.1 instruction, for the two immediates the code uses and registers of 32-bit lanes *)
Theorem C05_sse2_blend_is_lane_select : forall a b imm, (imm = 0xCC \/ imm = 0xC0) -> lanes32 a -> lanes32 b ->
  blend_epi16_sse2 a b imm = blend_epi16 0 a b imm /\ lanes32 (blend_epi16 0 a b imm).
Proof. intros a b imm Hi Ha Hb. split; [apply blend_sse2_is_lane_select; assumption|apply blend_lanes32; assumption]. Qed.
Print Assumptions C05_sse2_blend_is_lane_select.

(* inside the argument types the platform records run the vector kernels, not the guard's
   portable branch *)
Theorem C05_guard_identity_hash_many : forall extra k inputs key ctr incr fl fs fe cap,
  cv_ok key = true -> inputs_ok inputs = true -> extra inputs cap = true ->
  guard_hm extra k inputs key ctr incr fl fs fe cap = k inputs key ctr incr fl fs fe cap.
Proof. exact guard_hm_in. Qed.
Print Assumptions C05_guard_identity_hash_many.

(* non-vacuity: the AVX2 model on 9 one-block inputs (one hash8 batch, then the SSE4.1
   remainder path), counters crossing 2^32, really computes and agrees with portable *)
Definition ex_input (k : nat) : list N := map (fun i => N.of_nat ((i * 7 + k * 13 + i * i) mod 256)) (seq 0 64).
Definition ex_inputs : list (list N) := map ex_input (seq 0 9).
Definition ex_key : list N := [1; 2; 3; 4; 5; 6; 7; 4000000000].
Example C05_avx2_nine_inputs :
  hash_many_rs8 (load_counters_rs 8) (load_counters_rs 4) compress_in_place_rows
                ex_inputs ex_key 4294967290 true 5 1 2 9 =
  hash_many ex_inputs ex_key 4294967290 true 5 1 2 9 /\
  is_ok (hash_many ex_inputs ex_key 4294967290 true 5 1 2 9) = true /\
  p_hash_many avx2_platform ex_inputs ex_key 4294967290 true 5 1 2 9 =
  hash_many_rs8 (load_counters_rs 8) (load_counters_rs 4) compress_in_place_rows
                ex_inputs ex_key 4294967290 true 5 1 2 9.
Proof.
  assert (L : forall i, In i ex_inputs -> length i = 64%nat).
  { intros i Hi. apply in_map_iff in Hi. destruct Hi as (k & <- & _).
    unfold ex_input. rewrite map_length. reflexivity. }
  split; [|split].
  - apply C05_hash_many_avx2. split; [reflexivity|]. split; [exact L|reflexivity].
  - unfold hash_many. rewrite C05_hm_spec_is_portable; [reflexivity| |reflexivity].
    intros i Hi. rewrite (L i Hi). reflexivity.
  - apply C05_guard_identity_hash_many; vm_compute; reflexivity.
Qed.
Example C05_avx512_xof_35_blocks :
  xof_many_avx512 compress_xof_rows ex_key (ex_input 3) 64 4294967290 11 35 =
  portable_xof_many ex_key (ex_input 3) 64 4294967290 11 35.
Proof. apply C05_xof_many_avx512; reflexivity. Qed.

(* load_counters as TRANSLATED from the sources.  gen/GenCounters.v is regenerated on every run
   (tools/gen_coq.py gen_counters) from the text of every load_counters* function of
   c/blake3_sse2.c, c/blake3_sse41.c, c/blake3_avx2.c, c/blake3_avx512.c, src/rust_sse2.rs,
   src/rust_sse41.rs, src/rust_avx2.rs, as terms over the intrinsic semantics of
   Model/Intrinsics.v.  For each: (model) it equals the hand-written model of Model/Kernels.v
   that the kernels above are built on, and (spec) it satisfies the counter statement
   C05_lc_stmt.  The counter is universally quantified; only the lane count is concrete. *)
From V Require Import Model.Intrinsics gen.GenCounters Proofs.CountersP.

Theorem C05_counters_c_sse2_model : forall counter incr,
  Ok (c_sse2_load_counters counter incr) = load_counters_cmp 4 counter incr.
Proof. exact c_sse2_load_counters_model. Qed.
Print Assumptions C05_counters_c_sse2_model.
Theorem C05_counters_c_sse2 : C05_lc_stmt 4 (fun c i => Ok (c_sse2_load_counters c i)).
Proof. exact c_sse2_load_counters_ok. Qed.
Print Assumptions C05_counters_c_sse2.

Theorem C05_counters_c_sse41_model : forall counter incr,
  Ok (c_sse41_load_counters counter incr) = load_counters_cmp 4 counter incr.
Proof. exact c_sse41_load_counters_model. Qed.
Print Assumptions C05_counters_c_sse41_model.
Theorem C05_counters_c_sse41 : C05_lc_stmt 4 (fun c i => Ok (c_sse41_load_counters c i)).
Proof. exact c_sse41_load_counters_ok. Qed.
Print Assumptions C05_counters_c_sse41.

Theorem C05_counters_c_avx2_model : forall counter incr,
  Ok (c_avx2_load_counters counter incr) = load_counters_cmp 8 counter incr.
Proof. exact c_avx2_load_counters_model. Qed.
Print Assumptions C05_counters_c_avx2_model.
Theorem C05_counters_c_avx2 : C05_lc_stmt 8 (fun c i => Ok (c_avx2_load_counters c i)).
Proof. exact c_avx2_load_counters_ok. Qed.
Print Assumptions C05_counters_c_avx2.

Theorem C05_counters_c_avx512_4_model : forall counter incr, counter < 2 ^ 64 ->
  Ok (c_avx512_load_counters4 counter incr) = load_counters_64 4 counter incr.
Proof. exact c_avx512_load_counters4_model. Qed.
Print Assumptions C05_counters_c_avx512_4_model.
Theorem C05_counters_c_avx512_4 : C05_lc_stmt 4 (fun c i => Ok (c_avx512_load_counters4 c i)).
Proof. exact c_avx512_load_counters4_ok. Qed.
Print Assumptions C05_counters_c_avx512_4.

Theorem C05_counters_c_avx512_8_model : forall counter incr, counter < 2 ^ 64 ->
  Ok (c_avx512_load_counters8 counter incr) = load_counters_64 8 counter incr.
Proof. exact c_avx512_load_counters8_model. Qed.
Print Assumptions C05_counters_c_avx512_8_model.
Theorem C05_counters_c_avx512_8 : C05_lc_stmt 8 (fun c i => Ok (c_avx512_load_counters8 c i)).
Proof. exact c_avx512_load_counters8_ok. Qed.
Print Assumptions C05_counters_c_avx512_8.

Theorem C05_counters_c_avx512_16_model : forall counter incr,
  Ok (c_avx512_load_counters16 counter incr) = load_counters_andnot 16 counter incr.
Proof. exact c_avx512_load_counters16_model. Qed.
Print Assumptions C05_counters_c_avx512_16_model.
Theorem C05_counters_c_avx512_16 : C05_lc_stmt 16 (fun c i => Ok (c_avx512_load_counters16 c i)).
Proof. exact c_avx512_load_counters16_ok. Qed.
Print Assumptions C05_counters_c_avx512_16.

(* Rust: equality with the model includes the debug-build overflow panic of `counter + (mask & i)` *)
Theorem C05_counters_rs_sse2_model : forall counter incr,
  rs_sse2_load_counters counter incr = load_counters_rs 4 counter incr.
Proof. exact rs_sse2_load_counters_model. Qed.
Print Assumptions C05_counters_rs_sse2_model.
Theorem C05_counters_rs_sse2 : C05_lc_stmt 4 rs_sse2_load_counters.
Proof. exact rs_sse2_load_counters_ok. Qed.
Print Assumptions C05_counters_rs_sse2.

Theorem C05_counters_rs_sse41_model : forall counter incr,
  rs_sse41_load_counters counter incr = load_counters_rs 4 counter incr.
Proof. exact rs_sse41_load_counters_model. Qed.
Print Assumptions C05_counters_rs_sse41_model.
Theorem C05_counters_rs_sse41 : C05_lc_stmt 4 rs_sse41_load_counters.
Proof. exact rs_sse41_load_counters_ok. Qed.
Print Assumptions C05_counters_rs_sse41.

Theorem C05_counters_rs_avx2_model : forall counter incr,
  rs_avx2_load_counters counter incr = load_counters_rs 8 counter incr.
Proof. exact rs_avx2_load_counters_model. Qed.
Print Assumptions C05_counters_rs_avx2_model.
Theorem C05_counters_rs_avx2 : C05_lc_stmt 8 rs_avx2_load_counters.
Proof. exact rs_avx2_load_counters_ok. Qed.
Print Assumptions C05_counters_rs_avx2.

(* The portable compression function itself: TRANSLATED source against the hand-written model.
   gen/GenPortable.v is regenerated from the repository on every run by tools/gen_coq.py
   (gen_portable): src/portable.rs fn g / round / compress_pre / compress_in_place / compress_xof,
   the two byte<->word conversions of src/platform.rs they call, and c/blake3_portable.c rotr32 /
   g / round_fn / compress_pre / blake3_compress_in_place_portable / blake3_compress_xof_portable
   (with counter_low / counter_high of c/blake3_impl.h), statement by statement: order, array
   indices and rotation constants are the source's.  Each translated function equals the function
   of Model/Portable.v that every other proof builds on, for ALL words (state and message of 16
   words, chaining value of 8, block of 64 bytes, any counter / block_len / flags).
   Primitives taken as given (Base/Word.v, Base/Arr.v): u32 wrapping_add / C uint32_t `+` = add32,
   `^` = xor32, rotate_right = rotr32, u32::from_le_bytes / load32 = little-endian load,
   to_le_bytes / store32 = bytes_of_word, array read / write / slice. *)
From V Require Import Base.Arr gen.GenPortable Proofs.GenPortableP.

(* fn g works in place on state[a], state[b], state[c], state[d]; the model's g maps four words to
   four words: the translated statements equal the model's results written back at a, b, c, d *)
Theorem C05_portable_rs_g : forall s a b c d x y,
  (a < length s)%nat -> (b < length s)%nat -> (c < length s)%nat -> (d < length s)%nat ->
  a <> b -> a <> c -> a <> d -> b <> c -> b <> d -> c <> d ->
  rs_g s a b c d x y =
  (let '(a', b', c', d') := Portable.g (arr_get s a) (arr_get s b) (arr_get s c) (arr_get s d) x y in
   arr_set (arr_set (arr_set (arr_set s a a') b b') c c') d d').
Proof. intros. apply rs_g_eq; assumption. Qed.
Print Assumptions C05_portable_rs_g.
Theorem C05_portable_rs_round : forall s msg r, length s = 16%nat ->
  rs_round s msg r = Portable.round s msg r.
Proof. exact rs_round_eq. Qed.
Print Assumptions C05_portable_rs_round.
Theorem C05_portable_rs_words_from_le_bytes_64 : forall bytes, length bytes = 64%nat ->
  rs_words_from_le_bytes_64 bytes = words_of_bytes bytes.
Proof. exact rs_words_from_le_bytes_64_eq. Qed.
Print Assumptions C05_portable_rs_words_from_le_bytes_64.
Theorem C05_portable_rs_le_bytes_from_words_64 : forall words, length words = 16%nat ->
  rs_le_bytes_from_words_64 words = bytes_of_words words.
Proof. exact rs_le_bytes_from_words_64_eq. Qed.
Print Assumptions C05_portable_rs_le_bytes_from_words_64.
Theorem C05_portable_rs_compress_pre : forall cv block block_len counter flags,
  length cv = 8%nat -> length block = 64%nat ->
  rs_compress_pre cv block block_len counter flags = Portable.compress_pre cv block block_len counter flags.
Proof. exact rs_compress_pre_eq. Qed.
Print Assumptions C05_portable_rs_compress_pre.
Theorem C05_portable_rs_compress_in_place : forall cv block block_len counter flags,
  length cv = 8%nat -> length block = 64%nat ->
  rs_compress_in_place cv block block_len counter flags = Portable.compress_in_place cv block block_len counter flags.
Proof. exact rs_compress_in_place_eq. Qed.
Print Assumptions C05_portable_rs_compress_in_place.
Theorem C05_portable_rs_compress_xof : forall cv block block_len counter flags,
  length cv = 8%nat -> length block = 64%nat ->
  rs_compress_xof cv block block_len counter flags = Portable.compress_xof cv block block_len counter flags.
Proof. exact rs_compress_xof_eq. Qed.
Print Assumptions C05_portable_rs_compress_xof.

(* c/blake3_portable.c.  rotr32 is translated with C's shift rules (a shift by the full width is an
   error): for the amounts 1..31 it is the rotation; g calls it with 16, 12, 8, 7 *)
Theorem C05_portable_c_rotr32 : forall w c, 0 < c -> c < 32 -> c_rotr32 w c = Ok (rotr32 w c).
Proof. exact c_rotr32_ok. Qed.
Print Assumptions C05_portable_c_rotr32.
Theorem C05_portable_c_g : forall s a b c d x y,
  (a < length s)%nat -> (b < length s)%nat -> (c < length s)%nat -> (d < length s)%nat ->
  a <> b -> a <> c -> a <> d -> b <> c -> b <> d -> c <> d ->
  c_g s a b c d x y =
  (let '(a', b', c', d') := Portable.g (arr_get s a) (arr_get s b) (arr_get s c) (arr_get s d) x y in
   arr_set (arr_set (arr_set (arr_set s a a') b b') c c') d d').
Proof. intros. rewrite c_g_rs_g. apply rs_g_eq; assumption. Qed.
Print Assumptions C05_portable_c_g.
Theorem C05_portable_c_round_fn : forall s msg r, length s = 16%nat ->
  c_round_fn s msg r = Portable.round s msg r.
Proof. exact c_round_fn_eq. Qed.
Print Assumptions C05_portable_c_round_fn.
(* `state` is an out-parameter (an uninitialised local of the callers): any previous contents *)
Theorem C05_portable_c_compress_pre : forall state cv block block_len counter flags,
  length state = 16%nat -> length cv = 8%nat -> length block = 64%nat ->
  c_compress_pre state cv block block_len counter flags = Portable.compress_pre cv block block_len counter flags.
Proof. exact c_compress_pre_eq. Qed.
Print Assumptions C05_portable_c_compress_pre.
Theorem C05_portable_c_compress_in_place : forall cv block block_len counter flags,
  length cv = 8%nat -> length block = 64%nat ->
  c_blake3_compress_in_place_portable cv block block_len counter flags =
  Portable.compress_in_place cv block block_len counter flags.
Proof. exact c_compress_in_place_eq. Qed.
Print Assumptions C05_portable_c_compress_in_place.
(* the 64 output bytes go to the caller's buffer `out`, whatever it held *)
Theorem C05_portable_c_compress_xof : forall cv block block_len counter flags out,
  length cv = 8%nat -> length block = 64%nat -> length out = 64%nat ->
  c_blake3_compress_xof_portable cv block block_len counter flags out =
  Portable.compress_xof cv block block_len counter flags.
Proof. exact c_compress_xof_eq. Qed.
Print Assumptions C05_portable_c_compress_xof.


(* The vector round and the register transposes as TRANSLATED from the sources.  gen/GenRounds.v is
   regenerated on every run (tools/gen_coq.py gen_kernel_rounds) from the text of
     fn round + add, xor, rot16, rot12, rot8, rot7, fn transpose_vecs (+ interleave128)
        of src/rust_sse2.rs, src/rust_sse41.rs, src/rust_avx2.rs,
     round_fn + addv, xorv, rot16, rot12, rot8, rot7, transpose_vecs
        of c/blake3_sse2.c, c/blake3_sse41.c, c/blake3_avx2.c,
     round_fn4/8/16 + add_*, xor_*, rot*_128/256/512, transpose_vecs_128/256/512 (+ unpack_lo_128, unpack_hi_128)
        of c/blake3_avx512.c,
   statement by statement (112 statements per round, in source order, every index from the text), as terms over
   the intrinsic semantics of Model/Intrinsics.v.  Each translated round equals `vround`, each translated transpose
   equals `transpose_vecs_128/256/512` -- the hand-written models that C05_vround_lane, C05_transpose_*,
   C05_hash* above are about.  Registers, message vectors and the round number are variables.
   The Rust files (rot = srli/slli/or) and blake3_avx512.c (rot = ror_epi32): for all lists.
   blake3_sse2.c (rot16 = shufflelo/shufflehi 0xB1, others srli/slli/XOR), blake3_sse41.c and blake3_avx2.c
   (rot16, rot8 = shuffle_epi8 with a constant): for registers of 32-bit lanes, C05_reg.
   Also translated (further down): transpose_msg_vecs* and one iteration of the `for block` loop of hashN. *)
From V Require Import gen.GenRounds Proofs.RoundsP.

Definition C05_reg (n : nat) (x : vec) : Prop := length x = n /\ Forall (fun w => w < 2 ^ 32) x.

Theorem C05_round_rs_sse2_round : forall v m r, rs_sse2_round v m r = vround v m r.
Proof. exact rs_sse2_round_ok. Qed.
Print Assumptions C05_round_rs_sse2_round.
Theorem C05_round_rs_sse41_round : forall v m r, rs_sse41_round v m r = vround v m r.
Proof. exact rs_sse41_round_ok. Qed.
Print Assumptions C05_round_rs_sse41_round.
Theorem C05_round_rs_avx2_round : forall v m r, rs_avx2_round v m r = vround v m r.
Proof. exact rs_avx2_round_ok. Qed.
Print Assumptions C05_round_rs_avx2_round.
Theorem C05_round_c_avx512_round_fn4 : forall v m r, c_avx512_round_fn4 v m r = vround v m r.
Proof. exact c_avx512_round_fn4_ok. Qed.
Print Assumptions C05_round_c_avx512_round_fn4.
Theorem C05_round_c_avx512_round_fn8 : forall v m r, c_avx512_round_fn8 v m r = vround v m r.
Proof. exact c_avx512_round_fn8_ok. Qed.
Print Assumptions C05_round_c_avx512_round_fn8.
Theorem C05_round_c_avx512_round_fn16 : forall v m r, c_avx512_round_fn16 v m r = vround v m r.
Proof. exact c_avx512_round_fn16_ok. Qed.
Print Assumptions C05_round_c_avx512_round_fn16.

Theorem C05_round_c_sse2_round_fn : forall v m r, Forall (C05_reg 4) v -> Forall (C05_reg 4) m ->
  c_sse2_round_fn v m r = vround v m r.
Proof. exact c_sse2_round_fn_ok. Qed.
Print Assumptions C05_round_c_sse2_round_fn.
(* its rotations: rot16 is a pair of 16-bit shuffles (shufflelo / shufflehi 0xB1), rot12, rot8, rot7 are shift pairs
   joined by XOR: the lane-wise rotr on lanes below 2^32 *)
Theorem C05_rots_c_sse2 : forall x, C05_reg 4 x ->
  c_sse2_rot16 x = vrot x 16 /\ c_sse2_rot12 x = vrot x 12 /\ c_sse2_rot8 x = vrot x 8 /\ c_sse2_rot7 x = vrot x 7.
Proof. exact c_sse2_rots_ok. Qed.
Print Assumptions C05_rots_c_sse2.
Theorem C05_round_c_sse41_round_fn : forall v m r, Forall (C05_reg 4) v -> Forall (C05_reg 4) m ->
  c_sse41_round_fn v m r = vround v m r.
Proof. exact c_sse41_round_fn_ok. Qed.
Print Assumptions C05_round_c_sse41_round_fn.
(* its rotations: rot16, rot8 are byte shuffles (_mm_shuffle_epi8), rot12, rot7 shift pairs joined by XOR *)
Theorem C05_rots_c_sse41 : forall x, C05_reg 4 x ->
  c_sse41_rot16 x = vrot x 16 /\ c_sse41_rot12 x = vrot x 12 /\ c_sse41_rot8 x = vrot x 8 /\ c_sse41_rot7 x = vrot x 7.
Proof. exact c_sse41_rots_ok. Qed.
Print Assumptions C05_rots_c_sse41.
Theorem C05_round_c_avx2_round_fn : forall v m r, Forall (C05_reg 8) v -> Forall (C05_reg 8) m ->
  c_avx2_round_fn v m r = vround v m r.
Proof. exact c_avx2_round_fn_ok. Qed.
Print Assumptions C05_round_c_avx2_round_fn.
(* its rotations: rot16, rot8 are byte shuffles (_mm256_shuffle_epi8); rot12, rot7 are shift pairs joined by OR, which
   are the lane-wise rotr on every list *)
Theorem C05_rots_c_avx2 : forall x, C05_reg 8 x ->
  c_avx2_rot16 x = vrot x 16 /\ c_avx2_rot12 x = vrot x 12 /\ c_avx2_rot8 x = vrot x 8 /\ c_avx2_rot7 x = vrot x 7.
Proof. exact c_avx2_rots_ok. Qed.
Print Assumptions C05_rots_c_avx2.

(* the model round maps 16 registers to 16 registers, so the equalities above chain over the seven rounds *)
Theorem C05_vround_reg : forall n v m r, length v = 16%nat -> length m = 16%nat -> (r < 7)%nat ->
  Forall (C05_reg n) v -> Forall (C05_reg n) m -> Forall (C05_reg n) (vround v m r).
Proof. exact vround_reg. Qed.
Print Assumptions C05_vround_reg.

(* the transposes: the translated unpack / permute sequences are the model sequences *)
Theorem C05_rs_sse2_transpose_vecs : forall vecs, rs_sse2_transpose_vecs vecs = transpose_vecs_128 0 vecs.
Proof. exact rs_sse2_transpose_vecs_ok. Qed.
Print Assumptions C05_rs_sse2_transpose_vecs.
Theorem C05_rs_sse41_transpose_vecs : forall vecs, rs_sse41_transpose_vecs vecs = transpose_vecs_128 0 vecs.
Proof. exact rs_sse41_transpose_vecs_ok. Qed.
Print Assumptions C05_rs_sse41_transpose_vecs.
Theorem C05_rs_avx2_transpose_vecs : forall vecs, rs_avx2_transpose_vecs vecs = transpose_vecs_256 0 vecs.
Proof. exact rs_avx2_transpose_vecs_ok. Qed.
Print Assumptions C05_rs_avx2_transpose_vecs.
Theorem C05_c_sse2_transpose_vecs : forall vecs, c_sse2_transpose_vecs vecs = transpose_vecs_128 0 vecs.
Proof. exact c_sse2_transpose_vecs_ok. Qed.
Print Assumptions C05_c_sse2_transpose_vecs.
Theorem C05_c_sse41_transpose_vecs : forall vecs, c_sse41_transpose_vecs vecs = transpose_vecs_128 0 vecs.
Proof. exact c_sse41_transpose_vecs_ok. Qed.
Print Assumptions C05_c_sse41_transpose_vecs.
Theorem C05_c_avx2_transpose_vecs : forall vecs, c_avx2_transpose_vecs vecs = transpose_vecs_256 0 vecs.
Proof. exact c_avx2_transpose_vecs_ok. Qed.
Print Assumptions C05_c_avx2_transpose_vecs.
Theorem C05_c_avx512_transpose_vecs_128 : forall vecs, c_avx512_transpose_vecs_128 vecs = transpose_vecs_128 0 vecs.
Proof. exact c_avx512_transpose_vecs_128_ok. Qed.
Print Assumptions C05_c_avx512_transpose_vecs_128.
Theorem C05_c_avx512_transpose_vecs_256 : forall vecs, c_avx512_transpose_vecs_256 vecs = transpose_vecs_256 0 vecs.
Proof. exact c_avx512_transpose_vecs_256_ok. Qed.
Print Assumptions C05_c_avx512_transpose_vecs_256.
Theorem C05_c_avx512_transpose_vecs_512 : forall vecs, c_avx512_transpose_vecs_512 vecs = transpose_vecs_512 0 vecs.
Proof. exact c_avx512_transpose_vecs_512_ok. Qed.
Print Assumptions C05_c_avx512_transpose_vecs_512.

(* transpose_msg_vecs*: the 16 unaligned loads (a pointer `&inputs[i][off]` / `inputs[i].add(off)` is the pair
   (i-th input, offset), _mm*_loadu_si* reads 16/32/64 bytes little-endian) and the transposes of the n x n squares,
   translated, equal the model transpose_msg_vecs4/8/16 (lane i holds block i's words) *)
Theorem C05_rs_sse2_transpose_msg_vecs : forall inputs off, rs_sse2_transpose_msg_vecs inputs off = transpose_msg_vecs4 inputs off.
Proof. exact rs_sse2_transpose_msg_vecs_ok. Qed.
Print Assumptions C05_rs_sse2_transpose_msg_vecs.
Theorem C05_rs_sse41_transpose_msg_vecs : forall inputs off, rs_sse41_transpose_msg_vecs inputs off = transpose_msg_vecs4 inputs off.
Proof. exact rs_sse41_transpose_msg_vecs_ok. Qed.
Print Assumptions C05_rs_sse41_transpose_msg_vecs.
Theorem C05_rs_avx2_transpose_msg_vecs : forall inputs off, rs_avx2_transpose_msg_vecs inputs off = transpose_msg_vecs8 inputs off.
Proof. exact rs_avx2_transpose_msg_vecs_ok. Qed.
Print Assumptions C05_rs_avx2_transpose_msg_vecs.
Theorem C05_c_sse2_transpose_msg_vecs : forall inputs off, c_sse2_transpose_msg_vecs inputs off = transpose_msg_vecs4 inputs off.
Proof. exact c_sse2_transpose_msg_vecs_ok. Qed.
Print Assumptions C05_c_sse2_transpose_msg_vecs.
Theorem C05_c_sse41_transpose_msg_vecs : forall inputs off, c_sse41_transpose_msg_vecs inputs off = transpose_msg_vecs4 inputs off.
Proof. exact c_sse41_transpose_msg_vecs_ok. Qed.
Print Assumptions C05_c_sse41_transpose_msg_vecs.
Theorem C05_c_avx2_transpose_msg_vecs : forall inputs off, c_avx2_transpose_msg_vecs inputs off = transpose_msg_vecs8 inputs off.
Proof. exact c_avx2_transpose_msg_vecs_ok. Qed.
Print Assumptions C05_c_avx2_transpose_msg_vecs.
Theorem C05_c_avx512_transpose_msg_vecs4 : forall inputs off, c_avx512_transpose_msg_vecs4 inputs off = transpose_msg_vecs4 inputs off.
Proof. exact c_avx512_transpose_msg_vecs4_ok. Qed.
Print Assumptions C05_c_avx512_transpose_msg_vecs4.
Theorem C05_c_avx512_transpose_msg_vecs8 : forall inputs off, c_avx512_transpose_msg_vecs8 inputs off = transpose_msg_vecs8 inputs off.
Proof. exact c_avx512_transpose_msg_vecs8_ok. Qed.
Print Assumptions C05_c_avx512_transpose_msg_vecs8.
Theorem C05_c_avx512_transpose_msg_vecs16 : forall inputs off, c_avx512_transpose_msg_vecs16 inputs off = transpose_msg_vecs16 inputs off.
Proof. exact c_avx512_transpose_msg_vecs16_ok. Qed.
Print Assumptions C05_c_avx512_transpose_msg_vecs16.

(* one iteration of the `for block` loop of hash4 / hash8 / hash16 (set1 of the block length and flags, the message
   vectors of block number `block`, the 16-vector state h_vecs ++ IV[0..3] ++ counters ++ len ++ flags, seven calls of
   the round, the eight feed-forward xors), translated from the loop body, equals the model `vcompress` that
   hashN_loop iterates.  `block_flags` is a parameter here: the `if block + 1 == blocks { block_flags |= flags_end }`
   before these statements and the `block_flags = flags` after them are translated with the whole functions
   (gen/GenKern2.v: C05_src_k2_* at the end of this file). *)
Theorem C05_block_rs_sse2_hash4 : forall h clo chi bf inputs block, length h = 8%nat -> bf < 2 ^ 32 ->
  rs_sse2_hash4_block h clo chi bf inputs block =
  vcompress 4 h (transpose_msg_vecs4 inputs (block * 64)) clo chi rs_BLOCK_LEN bf.
Proof. exact rs_sse2_hash4_block_ok. Qed.
Print Assumptions C05_block_rs_sse2_hash4.
Theorem C05_block_rs_sse41_hash4 : forall h clo chi bf inputs block, length h = 8%nat -> bf < 2 ^ 32 ->
  rs_sse41_hash4_block h clo chi bf inputs block =
  vcompress 4 h (transpose_msg_vecs4 inputs (block * 64)) clo chi rs_BLOCK_LEN bf.
Proof. exact rs_sse41_hash4_block_ok. Qed.
Print Assumptions C05_block_rs_sse41_hash4.
Theorem C05_block_rs_avx2_hash8 : forall h clo chi bf inputs block, length h = 8%nat -> bf < 2 ^ 32 ->
  rs_avx2_hash8_block h clo chi bf inputs block =
  vcompress 8 h (transpose_msg_vecs8 inputs (block * 64)) clo chi rs_BLOCK_LEN bf.
Proof. exact rs_avx2_hash8_block_ok. Qed.
Print Assumptions C05_block_rs_avx2_hash8.
Theorem C05_block_c_avx512_blake3_hash4_avx512 : forall h clo chi bf inputs block, length h = 8%nat -> bf < 2 ^ 32 ->
  c_avx512_blake3_hash4_avx512_block h clo chi bf inputs block =
  vcompress 4 h (transpose_msg_vecs4 inputs (block * 64)) clo chi rs_BLOCK_LEN bf.
Proof. exact c_avx512_blake3_hash4_avx512_block_ok. Qed.
Print Assumptions C05_block_c_avx512_blake3_hash4_avx512.
Theorem C05_block_c_avx512_blake3_hash8_avx512 : forall h clo chi bf inputs block, length h = 8%nat -> bf < 2 ^ 32 ->
  c_avx512_blake3_hash8_avx512_block h clo chi bf inputs block =
  vcompress 8 h (transpose_msg_vecs8 inputs (block * 64)) clo chi rs_BLOCK_LEN bf.
Proof. exact c_avx512_blake3_hash8_avx512_block_ok. Qed.
Print Assumptions C05_block_c_avx512_blake3_hash8_avx512.
Theorem C05_block_c_avx512_blake3_hash16_avx512 : forall h clo chi bf inputs block, length h = 8%nat -> bf < 2 ^ 32 ->
  c_avx512_blake3_hash16_avx512_block h clo chi bf inputs block =
  vcompress 16 h (transpose_msg_vecs16 inputs (block * 64)) clo chi rs_BLOCK_LEN bf.
Proof. exact c_avx512_blake3_hash16_avx512_block_ok. Qed.
Print Assumptions C05_block_c_avx512_blake3_hash16_avx512.
(* blake3_sse2.c, blake3_sse41.c, blake3_avx2.c: for registers of 32-bit lanes and inputs that are byte strings
   holding the block *)
Theorem C05_block_c_sse2_blake3_hash4_sse2 : forall h clo chi bf inputs block,
  length h = 8%nat -> Forall (C05_reg 4) h -> C05_reg 4 clo -> C05_reg 4 chi -> bf < 2 ^ 32 ->
  (forall j, (j < 4)%nat -> (block * 64 + 64 <= length (inp inputs j))%nat) ->
  (forall j, (j < 4)%nat -> Forall (fun b => b < 256) (inp inputs j)) ->
  c_sse2_blake3_hash4_sse2_block h clo chi bf inputs block =
  vcompress 4 h (transpose_msg_vecs4 inputs (block * 64)) clo chi rs_BLOCK_LEN bf.
Proof. exact c_sse2_blake3_hash4_sse2_block_ok. Qed.
Print Assumptions C05_block_c_sse2_blake3_hash4_sse2.
Theorem C05_block_c_sse41_blake3_hash4_sse41 : forall h clo chi bf inputs block,
  length h = 8%nat -> Forall (C05_reg 4) h -> C05_reg 4 clo -> C05_reg 4 chi -> bf < 2 ^ 32 ->
  (forall j, (j < 4)%nat -> (block * 64 + 64 <= length (inp inputs j))%nat) ->
  (forall j, (j < 4)%nat -> Forall (fun b => b < 256) (inp inputs j)) ->
  c_sse41_blake3_hash4_sse41_block h clo chi bf inputs block =
  vcompress 4 h (transpose_msg_vecs4 inputs (block * 64)) clo chi rs_BLOCK_LEN bf.
Proof. exact c_sse41_blake3_hash4_sse41_block_ok. Qed.
Print Assumptions C05_block_c_sse41_blake3_hash4_sse41.
Theorem C05_block_c_avx2_blake3_hash8_avx2 : forall h clo chi bf inputs block,
  length h = 8%nat -> Forall (C05_reg 8) h -> C05_reg 8 clo -> C05_reg 8 chi -> bf < 2 ^ 32 ->
  (forall j, (j < 8)%nat -> (block * 64 + 64 <= length (inp inputs j))%nat) ->
  (forall j, (j < 8)%nat -> Forall (fun b => b < 256) (inp inputs j)) ->
  c_avx2_blake3_hash8_avx2_block h clo chi bf inputs block =
  vcompress 8 h (transpose_msg_vecs8 inputs (block * 64)) clo chi rs_BLOCK_LEN bf.
Proof. exact c_avx2_blake3_hash8_avx2_block_ok. Qed.
Print Assumptions C05_block_c_avx2_blake3_hash8_avx2.

(* The row-vectorised single-block compression, TRANSLATED from the sources (gen/GenRows.v, tools/gen_coq.py
   gen_kernel_rows): g1, g2, diagonalize, undiagonalize, compress_pre (the seven rounds with their message shuffles,
   every immediate from the text), compress_in_place and compress_xof of src/rust_sse41.rs, src/rust_sse2.rs,
   c/blake3_sse2.c, c/blake3_sse41.c and c/blake3_avx512.c, as terms over the intrinsic semantics of Model/Intrinsics.v
   (_mm_shuffle_epi32, _mm_shuffle_ps between the two casts, _mm_blend_epi16 on 16-bit elements, the unpacks,
   _mm_set_epi16 / _mm_set1_epi16 / _mm_cmpeq_epi16 of the SSE2 blend emulation, _mm_loadu_si128 / _mm_storeu_si128 on
   the little-endian memory image of cv, transmute of four registers to 64 bytes).  Each translated function equals the
   hand-written model of Model/Kernels.v section 7 that C05_compress_in_place_rows / C05_compress_xof_rows above are
   about, hence the portable compression.  cv, block, counter, block_len, flags and all registers are variables.
   Domain C05_row_dom: cv is 8 words below 2^32, block is 64 bytes, block_len and flags (u8 / uint8_t in the sources)
   are below 2^32.  g1 / g2 of the Rust files and of blake3_avx512.c: on all lists; of blake3_sse2.c / blake3_sse41.c
   (byte / 16-bit shuffles, shift pairs joined by XOR): on registers of four 32-bit lanes. *)
From V Require Import gen.GenRows Proofs.RowsP.

Definition C05_row_dom (cv block : list N) (bl fl : N) : Prop :=
  length cv = 8%nat /\ Forall (fun w => w < 2 ^ 32) cv /\ length block = 64%nat /\ Forall (fun b => b < 256) block /\
  bl < 2 ^ 32 /\ fl < 2 ^ 32.

(* the intrinsics with the two blend immediates of the sources: lane selection, on registers of 32-bit lanes *)
Theorem C05_mm_blend_epi16_0xCC : forall a b, C05_reg 4 a -> C05_reg 4 b -> mm_blend_epi16 a b 0xCC%Z = blend_epi16 0 a b 0xCC.
Proof. exact blend_cc_ok. Qed.
Print Assumptions C05_mm_blend_epi16_0xCC.
Theorem C05_mm_blend_epi16_0xC0 : forall a b, C05_reg 4 a -> C05_reg 4 b -> mm_blend_epi16 a b 0xC0%Z = blend_epi16 0 a b 0xC0.
Proof. exact blend_c0_ok. Qed.
Print Assumptions C05_mm_blend_epi16_0xC0.
(* the model compress_pre is the statement sequence of the sources (rows and message registers loaded, then
   flat_pre: seven rounds in source order) *)
Theorem C05_compress_pre_rows_flat : forall B (fin : vec -> vec -> vec -> vec -> B) cv block bl ctr fl,
  (let '(a, b, c, d) := compress_pre_rows cv block bl ctr fl in fin a b c d) = flat_compress_pre fin cv block bl ctr fl.
Proof. exact @compress_pre_rows_flat. Qed.
Print Assumptions C05_compress_pre_rows_flat.

Theorem C05_rs_sse41_g1 : forall a b c d m, rs_sse41_g1 a b c d m = g1r a b c d m.
Proof. exact rs_sse41_g1_ok. Qed.
Print Assumptions C05_rs_sse41_g1.
Theorem C05_rs_sse41_g2 : forall a b c d m, rs_sse41_g2 a b c d m = g2r a b c d m.
Proof. exact rs_sse41_g2_ok. Qed.
Print Assumptions C05_rs_sse41_g2.
Theorem C05_rs_sse41_diagonalize : forall a b c, rs_sse41_diagonalize a b c = diagonalize a b c.
Proof. exact rs_sse41_diagonalize_ok. Qed.
Print Assumptions C05_rs_sse41_diagonalize.
Theorem C05_rs_sse41_undiagonalize : forall a b c, rs_sse41_undiagonalize a b c = undiagonalize a b c.
Proof. exact rs_sse41_undiagonalize_ok. Qed.
Print Assumptions C05_rs_sse41_undiagonalize.
Theorem C05_rs_sse41_compress_pre : forall cv block bl ctr fl, C05_row_dom cv block bl fl ->
  rs_sse41_compress_pre cv block bl ctr fl = Ok (compress_pre_rows cv block bl ctr fl).
Proof. exact rs_sse41_compress_pre_ok. Qed.
Print Assumptions C05_rs_sse41_compress_pre.
Theorem C05_rs_sse41_compress_in_place : forall cv block bl ctr fl, C05_row_dom cv block bl fl ->
  rs_sse41_compress_in_place cv block bl ctr fl = Ok (compress_in_place_rows cv block bl ctr fl).
Proof. exact rs_sse41_compress_in_place_ok. Qed.
Print Assumptions C05_rs_sse41_compress_in_place.
Theorem C05_rs_sse41_compress_xof : forall cv block bl ctr fl, C05_row_dom cv block bl fl ->
  rs_sse41_compress_xof cv block bl ctr fl = Ok (compress_xof_rows cv block bl ctr fl).
Proof. exact rs_sse41_compress_xof_ok. Qed.
Print Assumptions C05_rs_sse41_compress_xof.
Theorem C05_rs_sse41_compress_in_place_portable : forall cv block bl ctr fl, C05_row_dom cv block bl fl ->
  rs_sse41_compress_in_place cv block bl ctr fl = Ok (compress_in_place cv block bl ctr fl).
Proof. exact rs_sse41_compress_in_place_portable. Qed.
Print Assumptions C05_rs_sse41_compress_in_place_portable.
Theorem C05_rs_sse41_compress_xof_portable : forall cv block bl ctr fl, C05_row_dom cv block bl fl ->
  rs_sse41_compress_xof cv block bl ctr fl = Ok (compress_xof cv block bl ctr fl).
Proof. exact rs_sse41_compress_xof_portable. Qed.
Print Assumptions C05_rs_sse41_compress_xof_portable.

(* src/rust_sse2.rs (blend_epi16: _mm_blend_epi16 emulated with and / andnot / or under a cmpeq_epi16 mask) *)
Theorem C05_rs_sse2_g1 : forall a b c d m, rs_sse2_g1 a b c d m = g1r a b c d m.
Proof. exact rs_sse2_g1_ok. Qed.
Print Assumptions C05_rs_sse2_g1.
Theorem C05_rs_sse2_g2 : forall a b c d m, rs_sse2_g2 a b c d m = g2r a b c d m.
Proof. exact rs_sse2_g2_ok. Qed.
Print Assumptions C05_rs_sse2_g2.
Theorem C05_rs_sse2_diagonalize : forall a b c, rs_sse2_diagonalize a b c = diagonalize a b c.
Proof. exact rs_sse2_diagonalize_ok. Qed.
Print Assumptions C05_rs_sse2_diagonalize.
Theorem C05_rs_sse2_undiagonalize : forall a b c, rs_sse2_undiagonalize a b c = undiagonalize a b c.
Proof. exact rs_sse2_undiagonalize_ok. Qed.
Print Assumptions C05_rs_sse2_undiagonalize.
Theorem C05_rs_sse2_blend_epi16_0xCC : forall a b, C05_reg 4 a -> C05_reg 4 b -> rs_sse2_blend_epi16 a b 0xCC%Z = blend_epi16 0 a b 0xCC.
Proof. exact rs_sse2_blend_cc_ok. Qed.
Print Assumptions C05_rs_sse2_blend_epi16_0xCC.
Theorem C05_rs_sse2_blend_epi16_0xC0 : forall a b, C05_reg 4 a -> C05_reg 4 b -> rs_sse2_blend_epi16 a b 0xC0%Z = blend_epi16 0 a b 0xC0.
Proof. exact rs_sse2_blend_c0_ok. Qed.
Print Assumptions C05_rs_sse2_blend_epi16_0xC0.
Theorem C05_rs_sse2_compress_pre : forall cv block bl ctr fl, C05_row_dom cv block bl fl ->
  rs_sse2_compress_pre cv block bl ctr fl = Ok (compress_pre_rows cv block bl ctr fl).
Proof. exact rs_sse2_compress_pre_ok. Qed.
Print Assumptions C05_rs_sse2_compress_pre.
Theorem C05_rs_sse2_compress_in_place : forall cv block bl ctr fl, C05_row_dom cv block bl fl ->
  rs_sse2_compress_in_place cv block bl ctr fl = Ok (compress_in_place_rows cv block bl ctr fl).
Proof. exact rs_sse2_compress_in_place_ok. Qed.
Print Assumptions C05_rs_sse2_compress_in_place.
Theorem C05_rs_sse2_compress_xof : forall cv block bl ctr fl, C05_row_dom cv block bl fl ->
  rs_sse2_compress_xof cv block bl ctr fl = Ok (compress_xof_rows cv block bl ctr fl).
Proof. exact rs_sse2_compress_xof_ok. Qed.
Print Assumptions C05_rs_sse2_compress_xof.
Theorem C05_rs_sse2_compress_in_place_portable : forall cv block bl ctr fl, C05_row_dom cv block bl fl ->
  rs_sse2_compress_in_place cv block bl ctr fl = Ok (compress_in_place cv block bl ctr fl).
Proof. exact rs_sse2_compress_in_place_portable. Qed.
Print Assumptions C05_rs_sse2_compress_in_place_portable.
Theorem C05_rs_sse2_compress_xof_portable : forall cv block bl ctr fl, C05_row_dom cv block bl fl ->
  rs_sse2_compress_xof cv block bl ctr fl = Ok (compress_xof cv block bl ctr fl).
Proof. exact rs_sse2_compress_xof_portable. Qed.
Print Assumptions C05_rs_sse2_compress_xof_portable.

(* c/blake3_avx512.c (the 128-bit compress_pre; rotations by _mm_ror_epi32) *)
Theorem C05_c_avx512_g1 : forall a b c d m, c_avx512_g1 a b c d m = g1r a b c d m.
Proof. exact c_avx512_g1_ok. Qed.
Print Assumptions C05_c_avx512_g1.
Theorem C05_c_avx512_g2 : forall a b c d m, c_avx512_g2 a b c d m = g2r a b c d m.
Proof. exact c_avx512_g2_ok. Qed.
Print Assumptions C05_c_avx512_g2.
Theorem C05_c_avx512_diagonalize : forall a b c, c_avx512_diagonalize a b c = diagonalize a b c.
Proof. exact c_avx512_diagonalize_ok. Qed.
Print Assumptions C05_c_avx512_diagonalize.
Theorem C05_c_avx512_undiagonalize : forall a b c, c_avx512_undiagonalize a b c = undiagonalize a b c.
Proof. exact c_avx512_undiagonalize_ok. Qed.
Print Assumptions C05_c_avx512_undiagonalize.
Theorem C05_c_avx512_compress_pre : forall cv block bl ctr fl, C05_row_dom cv block bl fl ->
  c_avx512_compress_pre cv block bl ctr fl = compress_pre_rows cv block bl ctr fl.
Proof. exact c_avx512_compress_pre_ok. Qed.
Print Assumptions C05_c_avx512_compress_pre.
Theorem C05_c_avx512_blake3_compress_in_place_avx512 : forall cv block bl ctr fl, C05_row_dom cv block bl fl ->
  c_avx512_blake3_compress_in_place_avx512 cv block bl ctr fl = compress_in_place_rows cv block bl ctr fl.
Proof. exact c_avx512_blake3_compress_in_place_avx512_ok. Qed.
Print Assumptions C05_c_avx512_blake3_compress_in_place_avx512.
(* `out`: the 64 bytes the caller passes; all of them are overwritten *)
Theorem C05_c_avx512_blake3_compress_xof_avx512 : forall cv block bl ctr fl out, C05_row_dom cv block bl fl -> length out = 64%nat ->
  c_avx512_blake3_compress_xof_avx512 cv block bl ctr fl out = compress_xof_rows cv block bl ctr fl.
Proof. exact c_avx512_blake3_compress_xof_avx512_ok. Qed.
Print Assumptions C05_c_avx512_blake3_compress_xof_avx512.
Theorem C05_c_avx512_blake3_compress_in_place_avx512_portable : forall cv block bl ctr fl, C05_row_dom cv block bl fl ->
  c_avx512_blake3_compress_in_place_avx512 cv block bl ctr fl = compress_in_place cv block bl ctr fl.
Proof. exact c_avx512_compress_in_place_portable. Qed.
Print Assumptions C05_c_avx512_blake3_compress_in_place_avx512_portable.
Theorem C05_c_avx512_blake3_compress_xof_avx512_portable : forall cv block bl ctr fl out, C05_row_dom cv block bl fl -> length out = 64%nat ->
  c_avx512_blake3_compress_xof_avx512 cv block bl ctr fl out = compress_xof cv block bl ctr fl.
Proof. exact c_avx512_compress_xof_portable. Qed.
Print Assumptions C05_c_avx512_blake3_compress_xof_avx512_portable.

Theorem C05_c_sse41_g1 : forall a b c d m, C05_reg 4 a -> C05_reg 4 b -> C05_reg 4 c -> C05_reg 4 d -> C05_reg 4 m ->
  c_sse41_g1 a b c d m = g1r a b c d m.
Proof. exact c_sse41_g1_ok. Qed.
Print Assumptions C05_c_sse41_g1.
Theorem C05_c_sse41_g2 : forall a b c d m, C05_reg 4 a -> C05_reg 4 b -> C05_reg 4 c -> C05_reg 4 d -> C05_reg 4 m ->
  c_sse41_g2 a b c d m = g2r a b c d m.
Proof. exact c_sse41_g2_ok. Qed.
Print Assumptions C05_c_sse41_g2.
Theorem C05_c_sse41_diagonalize : forall a b c, c_sse41_diagonalize a b c = diagonalize a b c.
Proof. exact c_sse41_diagonalize_ok. Qed.
Print Assumptions C05_c_sse41_diagonalize.
Theorem C05_c_sse41_undiagonalize : forall a b c, c_sse41_undiagonalize a b c = undiagonalize a b c.
Proof. exact c_sse41_undiagonalize_ok. Qed.
Print Assumptions C05_c_sse41_undiagonalize.
Theorem C05_c_sse41_compress_pre : forall cv block bl ctr fl, C05_row_dom cv block bl fl ->
  c_sse41_compress_pre cv block bl ctr fl = compress_pre_rows cv block bl ctr fl.
Proof. exact c_sse41_compress_pre_ok. Qed.
Print Assumptions C05_c_sse41_compress_pre.
Theorem C05_c_sse41_blake3_compress_in_place_sse41 : forall cv block bl ctr fl, C05_row_dom cv block bl fl ->
  c_sse41_blake3_compress_in_place_sse41 cv block bl ctr fl = compress_in_place_rows cv block bl ctr fl.
Proof. exact c_sse41_blake3_compress_in_place_sse41_ok. Qed.
Print Assumptions C05_c_sse41_blake3_compress_in_place_sse41.
(* `out`: the 64 bytes the caller passes; all of them are overwritten *)
Theorem C05_c_sse41_blake3_compress_xof_sse41 : forall cv block bl ctr fl out, C05_row_dom cv block bl fl -> length out = 64%nat ->
  c_sse41_blake3_compress_xof_sse41 cv block bl ctr fl out = compress_xof_rows cv block bl ctr fl.
Proof. exact c_sse41_blake3_compress_xof_sse41_ok. Qed.
Print Assumptions C05_c_sse41_blake3_compress_xof_sse41.
Theorem C05_c_sse41_blake3_compress_in_place_sse41_portable : forall cv block bl ctr fl, C05_row_dom cv block bl fl ->
  c_sse41_blake3_compress_in_place_sse41 cv block bl ctr fl = compress_in_place cv block bl ctr fl.
Proof. exact c_sse41_compress_in_place_portable. Qed.
Print Assumptions C05_c_sse41_blake3_compress_in_place_sse41_portable.
Theorem C05_c_sse41_blake3_compress_xof_sse41_portable : forall cv block bl ctr fl out, C05_row_dom cv block bl fl -> length out = 64%nat ->
  c_sse41_blake3_compress_xof_sse41 cv block bl ctr fl out = compress_xof cv block bl ctr fl.
Proof. exact c_sse41_compress_xof_portable. Qed.
Print Assumptions C05_c_sse41_blake3_compress_xof_sse41_portable.

(* c/blake3_sse2.c (blend_epi16 as in rust_sse2.rs; the int16_t parameter receives (int16_t)0xCC) *)
Theorem C05_c_sse2_g1 : forall a b c d m, C05_reg 4 a -> C05_reg 4 b -> C05_reg 4 c -> C05_reg 4 d -> C05_reg 4 m ->
  c_sse2_g1 a b c d m = g1r a b c d m.
Proof. exact c_sse2_g1_ok. Qed.
Print Assumptions C05_c_sse2_g1.
Theorem C05_c_sse2_g2 : forall a b c d m, C05_reg 4 a -> C05_reg 4 b -> C05_reg 4 c -> C05_reg 4 d -> C05_reg 4 m ->
  c_sse2_g2 a b c d m = g2r a b c d m.
Proof. exact c_sse2_g2_ok. Qed.
Print Assumptions C05_c_sse2_g2.
Theorem C05_c_sse2_diagonalize : forall a b c, c_sse2_diagonalize a b c = diagonalize a b c.
Proof. exact c_sse2_diagonalize_ok. Qed.
Print Assumptions C05_c_sse2_diagonalize.
Theorem C05_c_sse2_undiagonalize : forall a b c, c_sse2_undiagonalize a b c = undiagonalize a b c.
Proof. exact c_sse2_undiagonalize_ok. Qed.
Print Assumptions C05_c_sse2_undiagonalize.
Theorem C05_c_sse2_blend_epi16_0xCC : forall a b, C05_reg 4 a -> C05_reg 4 b -> c_sse2_blend_epi16 a b (cast_s 16 0xCC%Z) = blend_epi16 0 a b 0xCC.
Proof. exact c_sse2_blend_cc_ok. Qed.
Print Assumptions C05_c_sse2_blend_epi16_0xCC.
Theorem C05_c_sse2_blend_epi16_0xC0 : forall a b, C05_reg 4 a -> C05_reg 4 b -> c_sse2_blend_epi16 a b (cast_s 16 0xC0%Z) = blend_epi16 0 a b 0xC0.
Proof. exact c_sse2_blend_c0_ok. Qed.
Print Assumptions C05_c_sse2_blend_epi16_0xC0.
Theorem C05_c_sse2_compress_pre : forall cv block bl ctr fl, C05_row_dom cv block bl fl ->
  c_sse2_compress_pre cv block bl ctr fl = compress_pre_rows cv block bl ctr fl.
Proof. exact c_sse2_compress_pre_ok. Qed.
Print Assumptions C05_c_sse2_compress_pre.
Theorem C05_c_sse2_blake3_compress_in_place_sse2 : forall cv block bl ctr fl, C05_row_dom cv block bl fl ->
  c_sse2_blake3_compress_in_place_sse2 cv block bl ctr fl = compress_in_place_rows cv block bl ctr fl.
Proof. exact c_sse2_blake3_compress_in_place_sse2_ok. Qed.
Print Assumptions C05_c_sse2_blake3_compress_in_place_sse2.
(* `out`: the 64 bytes the caller passes; all of them are overwritten *)
Theorem C05_c_sse2_blake3_compress_xof_sse2 : forall cv block bl ctr fl out, C05_row_dom cv block bl fl -> length out = 64%nat ->
  c_sse2_blake3_compress_xof_sse2 cv block bl ctr fl out = compress_xof_rows cv block bl ctr fl.
Proof. exact c_sse2_blake3_compress_xof_sse2_ok. Qed.
Print Assumptions C05_c_sse2_blake3_compress_xof_sse2.
Theorem C05_c_sse2_blake3_compress_in_place_sse2_portable : forall cv block bl ctr fl, C05_row_dom cv block bl fl ->
  c_sse2_blake3_compress_in_place_sse2 cv block bl ctr fl = compress_in_place cv block bl ctr fl.
Proof. exact c_sse2_compress_in_place_portable. Qed.
Print Assumptions C05_c_sse2_blake3_compress_in_place_sse2_portable.
Theorem C05_c_sse2_blake3_compress_xof_sse2_portable : forall cv block bl ctr fl out, C05_row_dom cv block bl fl -> length out = 64%nat ->
  c_sse2_blake3_compress_xof_sse2 cv block bl ctr fl out = compress_xof cv block bl ctr fl.
Proof. exact c_sse2_compress_xof_portable. Qed.
Print Assumptions C05_c_sse2_blake3_compress_xof_sse2_portable.

(* hash1 / hash_many outside the compression: the block loops with the block_flags bookkeeping and the
   per-input loop with the counter increment, translated statement by statement (gen/GenCascades.v; representation
   in the header comment of that generator in tools/gen_coq.py), against the models.  `fuel` is the fuel of the
   translated `while` loops: the statements hold at EVERY fuel above the loop's iteration count. *)
From V Require Import gen.GenCascades Proofs.CascadesP.

(* src/portable.rs hash1::<N> (N = input.len()) *)
Theorem C05_src_rs_portable_hash1 : forall fuel input key ctr flags fs fe,
  length key = 8%nat -> (length input / 64 < fuel)%nat ->
  src_rs_portable_hash1 fuel (N.of_nat (length input)) input key ctr flags fs fe = Portable.hash1 input key ctr flags fs fe.
Proof. exact src_rs_portable_hash1_ok. Qed.
Print Assumptions C05_src_rs_portable_hash1.
(* src/portable.rs hash_many::<N>: out.len() = 32 * cap, every input has N = n bytes *)
Theorem C05_src_rs_portable_hash_many : forall fuel n inputs key counter incr flags fs fe cap,
  length key = 8%nat -> (n / 64 < fuel)%nat -> Forall (fun i => length i = n) inputs -> N.of_nat (length inputs) * 32 < 2 ^ 64 ->
  src_rs_portable_hash_many fuel (N.of_nat n) inputs key counter incr flags fs fe (32 * cap)
  = Portable.hash_many inputs key counter incr flags fs fe cap.
Proof. exact src_rs_portable_hash_many_ok. Qed.
Print Assumptions C05_src_rs_portable_hash_many.
(* c/blake3_portable.c hash_one_portable: `out` is the 32 bytes the caller passes, all overwritten *)
Theorem C05_src_c_portable_hash_one_portable : forall fuel input blocks key ctr flags fs fe out,
  length key = 8%nat -> length out = 32%nat -> length input = (blocks * 64)%nat -> (blocks < fuel)%nat -> N.of_nat blocks < 2 ^ 64 ->
  src_c_portable_hash_one_portable fuel input (N.of_nat blocks) key ctr flags fs fe out = Portable.hash1 input key ctr flags fs fe.
Proof. exact src_c_portable_hash_one_portable_ok. Qed.
Print Assumptions C05_src_c_portable_hash_one_portable.
(* hash1 of src/rust_sse2.rs / src/rust_sse41.rs over ANY compress_in_place `cip` (okc cip = the callee returning
   Ok (cip ..)): the one-input kernel hash1_rs cip of the cascades *)
Theorem C05_src_rs_sse2_hash1 : forall cip fuel input blocks key ctr flags fs fe, (length input / 64 < fuel)%nat ->
  src_rs_sse2_hash1 (okc cip) fuel (N.of_nat (length input)) input key ctr flags fs fe = hash1_rs cip input blocks key ctr flags fs fe.
Proof. exact src_rs_sse2_hash1_ok. Qed.
Print Assumptions C05_src_rs_sse2_hash1.
Theorem C05_src_rs_sse41_hash1 : forall cip fuel input blocks key ctr flags fs fe, (length input / 64 < fuel)%nat ->
  src_rs_sse41_hash1 (okc cip) fuel (N.of_nat (length input)) input key ctr flags fs fe = hash1_rs cip input blocks key ctr flags fs fe.
Proof. exact src_rs_sse41_hash1_ok. Qed.
Print Assumptions C05_src_rs_sse41_hash1.
(* hash_one_sse2 / hash_one_sse41 / hash_one_avx512 over any compress_in_place that keeps cv at 8 words *)
Theorem C05_src_c_sse2_hash_one_sse2 : forall (cip : cip_fn) fuel input blocks key ctr flags fs fe out,
  length key = 8%nat -> (blocks < fuel)%nat -> N.of_nat blocks < 2 ^ 64 -> (64 * blocks <= length input)%nat ->
  length (hash_one_go cip blocks key input ctr flags (N.lor flags fs) fe) = 8%nat ->
  src_c_sse2_hash_one_sse2 cip fuel input (N.of_nat blocks) key ctr flags fs fe out = hash_one_c cip input blocks key ctr flags fs fe.
Proof. intros; apply src_c_sse2_hash_one_sse2_ok; assumption. Qed.
Print Assumptions C05_src_c_sse2_hash_one_sse2.
Theorem C05_src_c_sse41_hash_one_sse41 : forall (cip : cip_fn) fuel input blocks key ctr flags fs fe out,
  length key = 8%nat -> (blocks < fuel)%nat -> N.of_nat blocks < 2 ^ 64 -> (64 * blocks <= length input)%nat ->
  length (hash_one_go cip blocks key input ctr flags (N.lor flags fs) fe) = 8%nat ->
  src_c_sse41_hash_one_sse41 cip fuel input (N.of_nat blocks) key ctr flags fs fe out = hash_one_c cip input blocks key ctr flags fs fe.
Proof. intros; apply src_c_sse41_hash_one_sse41_ok; assumption. Qed.
Print Assumptions C05_src_c_sse41_hash_one_sse41.
Theorem C05_src_c_avx512_hash_one_avx512 : forall (cip : cip_fn) fuel input blocks key ctr flags fs fe out,
  length key = 8%nat -> (blocks < fuel)%nat -> N.of_nat blocks < 2 ^ 64 -> (64 * blocks <= length input)%nat ->
  length (hash_one_go cip blocks key input ctr flags (N.lor flags fs) fe) = 8%nat ->
  src_c_avx512_hash_one_avx512 cip fuel input (N.of_nat blocks) key ctr flags fs fe out = hash_one_c cip input blocks key ctr flags fs fe.
Proof. intros; apply src_c_avx512_hash_one_avx512_ok; assumption. Qed.
Print Assumptions C05_src_c_avx512_hash_one_avx512.
(* the `while inputs.len() >= DEGREE && out.len() >= DEGREE * OUT_LEN` loop of hash_many of src/rust_sse41.rs /
   src/rust_sse2.rs (hash4 = any hN; slice advance, counter += DEGREE, out advance) is batch_while 4 of the cascade
   model hash_many_rs4: out.len() = 32 * cap, blocks = N / BLOCK_LEN, acc = what was written before the loop *)
Theorem C05_src_rs_sse41_hash_many_loop1 : forall hN ext fuel gN inputs key counter incr flags fs fe cap acc, (length inputs < fuel)%nat ->
  src_rs_sse41_hash_many_loop1 hN ext fuel gN inputs key counter incr flags fs fe (32 * cap) acc =
  ('(outs, st) <- batch_while fuel 4 hN cadd_rs true inputs (N.to_nat (gN / 64)) key counter incr flags fs fe cap ;;
   let '(rest, c', cap') := st in Ok (rest, c', 32 * cap', acc ++ outs)).
Proof. exact src_rs_sse41_hash_many_loop1_ok. Qed.
Print Assumptions C05_src_rs_sse41_hash_many_loop1.
Theorem C05_src_rs_sse2_hash_many_loop1 : forall hN ext fuel gN inputs key counter incr flags fs fe cap acc, (length inputs < fuel)%nat ->
  src_rs_sse2_hash_many_loop1 hN ext fuel gN inputs key counter incr flags fs fe (32 * cap) acc =
  ('(outs, st) <- batch_while fuel 4 hN cadd_rs true inputs (N.to_nat (gN / 64)) key counter incr flags fs fe cap ;;
   let '(rest, c', cap') := st in Ok (rest, c', 32 * cap', acc ++ outs)).
Proof. exact src_rs_sse2_hash_many_loop1_ok. Qed.
Print Assumptions C05_src_rs_sse2_hash_many_loop1.
(* the `while (num_inputs >= 16)` loop of blake3_hash_many_avx512 (c/blake3_avx512.c; hash16 = any h16; `inputs += 16`,
   `num_inputs -= 16`, `counter += 16`) is batch_while 16 of the cascade model hash_many_c16 *)
Theorem C05_src_c_avx512_blake3_hash_many_avx512_loop1 : forall h16 h8 h4 ext fuel inputs blocks key counter incr flags fs fe out acc,
  (length inputs < fuel)%nat -> N.of_nat (length inputs) < 2 ^ 64 ->
  (p <- src_c_avx512_blake3_hash_many_avx512_loop1 h16 h8 h4 ext fuel inputs (N.of_nat (length inputs)) blocks key counter incr flags fs fe out acc ;;
   let '(i, n, c, _, w) := p in Ok (i, n, c, w)) =
  ('(outs, st) <- batch_while fuel 16 h16 cadd_c false inputs (N.to_nat blocks) key counter incr flags fs fe 0 ;;
   let '(rest, c', _) := st in Ok (rest, N.of_nat (length rest), c', acc ++ outs)).
Proof. exact src_c_avx512_blake3_hash_many_avx512_loop1_written. Qed.
Print Assumptions C05_src_c_avx512_blake3_hash_many_avx512_loop1.

(* the WHOLE hash_many / blake3_hash_many_* functions as translated (gen/GenCascades.v), against the cascade
   models of Model/Kernels.v (Proofs/CascadesP2.v).  The N-way kernels are the model's hashN_gen .. / hash16_avx512 ..,
   compress_in_place is any `cip` (C: one that keeps the cv 8 words long, cip_len8; it holds of
   compress_in_place_rows and of Portable.compress_in_place: cip_len8_rows, cip_len8_portable).  Each equation
   compares the two results whatever they are (Ok value or Panic code), at EVERY fuel above the stated bound. *)
From V Require Import Proofs.CascadesP2.

(* src/rust_sse2.rs / src/rust_sse41.rs hash_many::<N>: every input has N = n bytes, out.len() = 32 * cap *)
Theorem C05_src_rs_sse2_hash_many : forall lc4 cip fuel n inputs key counter incr flags fs fe cap,
  (length inputs < fuel)%nat -> (n / 64 < fuel)%nat -> Forall (fun i => length i = n) inputs ->
  N.of_nat (length inputs) * 32 < 2 ^ 64 ->
  src_rs_sse2_hash_many (hashN_gen 4 transpose_msg_vecs4 lc4 store4) (okc cip) fuel (N.of_nat n) inputs key counter incr flags fs fe (32 * cap)
  = hash_many_rs4 lc4 cip inputs key counter incr flags fs fe cap.
Proof. exact src_rs_sse2_hash_many_ok. Qed.
Print Assumptions C05_src_rs_sse2_hash_many.
Theorem C05_src_rs_sse41_hash_many : forall lc4 cip fuel n inputs key counter incr flags fs fe cap,
  (length inputs < fuel)%nat -> (n / 64 < fuel)%nat -> Forall (fun i => length i = n) inputs ->
  N.of_nat (length inputs) * 32 < 2 ^ 64 ->
  src_rs_sse41_hash_many (hashN_gen 4 transpose_msg_vecs4 lc4 store4) (okc cip) fuel (N.of_nat n) inputs key counter incr flags fs fe (32 * cap)
  = hash_many_rs4 lc4 cip inputs key counter incr flags fs fe cap.
Proof. exact src_rs_sse41_hash_many_ok. Qed.
Print Assumptions C05_src_rs_sse41_hash_many.
(* src/rust_avx2.rs hash_many::<N>; `crate::sse41::hash_many` is the translated src_rs_sse41_hash_many *)
Theorem C05_src_rs_avx2_hash_many : forall lc8 lc4 cip fuel n inputs key counter incr flags fs fe cap,
  (length inputs < fuel)%nat -> (n / 64 < fuel)%nat -> Forall (fun i => length i = n) inputs ->
  N.of_nat (length inputs) * 32 < 2 ^ 64 ->
  src_rs_avx2_hash_many (hashN_gen 8 transpose_msg_vecs8 lc8 store8)
    (src_rs_sse41_hash_many (hashN_gen 4 transpose_msg_vecs4 lc4 store4) (okc cip) fuel)
    fuel (N.of_nat n) inputs key counter incr flags fs fe (32 * cap)
  = hash_many_rs8 lc8 lc4 cip inputs key counter incr flags fs fe cap.
Proof. exact src_rs_avx2_hash_many_ok. Qed.
Print Assumptions C05_src_rs_avx2_hash_many.

(* c/blake3_sse2.c / c/blake3_sse41.c blake3_hash_many_*: num_inputs = the number of input pointers, every input has at
   least 64 * blocks bytes (long_enough), `out` is any pointer (only written through) *)
Theorem C05_src_c_sse2_blake3_hash_many_sse2 : forall lc4 (cip : cip_fn) fuel inputs bn key counter incr flags fs fe out,
  cip_len8 cip -> length key = 8%nat -> N.of_nat bn < 2 ^ 64 ->
  (length inputs + bn < fuel)%nat -> N.of_nat (length inputs) < 2 ^ 64 -> Forall (long_enough bn) inputs ->
  src_c_sse2_blake3_hash_many_sse2 (hashN_gen 4 transpose_msg_vecs4 lc4 store4) cip fuel inputs (N.of_nat (length inputs))
    (N.of_nat bn) key counter incr flags fs fe out
  = hash_many_c4 lc4 cip inputs bn key counter incr flags fs fe.
Proof. intros; apply src_c_sse2_blake3_hash_many_sse2_ok; assumption. Qed.
Print Assumptions C05_src_c_sse2_blake3_hash_many_sse2.
Theorem C05_src_c_sse41_blake3_hash_many_sse41 : forall lc4 (cip : cip_fn) fuel inputs bn key counter incr flags fs fe out,
  cip_len8 cip -> length key = 8%nat -> N.of_nat bn < 2 ^ 64 ->
  (length inputs + bn < fuel)%nat -> N.of_nat (length inputs) < 2 ^ 64 -> Forall (long_enough bn) inputs ->
  src_c_sse41_blake3_hash_many_sse41 (hashN_gen 4 transpose_msg_vecs4 lc4 store4) cip fuel inputs (N.of_nat (length inputs))
    (N.of_nat bn) key counter incr flags fs fe out
  = hash_many_c4 lc4 cip inputs bn key counter incr flags fs fe.
Proof. intros; apply src_c_sse41_blake3_hash_many_sse41_ok; assumption. Qed.
Print Assumptions C05_src_c_sse41_blake3_hash_many_sse41.
(* c/blake3_avx2.c blake3_hash_many_avx2; `blake3_hash_many_sse41` is the translated function *)
Theorem C05_src_c_avx2_blake3_hash_many_avx2 : forall lc8 lc4 (cip : cip_fn) fuel inputs bn key counter incr flags fs fe out,
  cip_len8 cip -> length key = 8%nat -> N.of_nat bn < 2 ^ 64 ->
  (length inputs + bn < fuel)%nat -> N.of_nat (length inputs) < 2 ^ 64 -> Forall (long_enough bn) inputs ->
  src_c_avx2_blake3_hash_many_avx2 (hashN_gen 8 transpose_msg_vecs8 lc8 store8)
    (src_c_sse41_blake3_hash_many_sse41 (hashN_gen 4 transpose_msg_vecs4 lc4 store4) cip fuel)
    fuel inputs (N.of_nat (length inputs)) (N.of_nat bn) key counter incr flags fs fe out
  = hash_many_c8 lc8 lc4 cip inputs bn key counter incr flags fs fe.
Proof. intros; apply src_c_avx2_blake3_hash_many_avx2_ok; assumption. Qed.
Print Assumptions C05_src_c_avx2_blake3_hash_many_avx2.
(* c/blake3_avx512.c blake3_hash_many_avx512: 16, 8, 4, 1 *)
Theorem C05_src_c_avx512_blake3_hash_many_avx512 : forall (cip : cip_fn) fuel inputs bn key counter incr flags fs fe out,
  cip_len8 cip -> length key = 8%nat -> N.of_nat bn < 2 ^ 64 ->
  (length inputs + bn < fuel)%nat -> N.of_nat (length inputs) < 2 ^ 64 -> Forall (long_enough bn) inputs ->
  src_c_avx512_blake3_hash_many_avx512 hash16_avx512 hash8_avx512 hash4_avx512 cip fuel inputs (N.of_nat (length inputs))
    (N.of_nat bn) key counter incr flags fs fe out
  = hash_many_c16 cip inputs bn key counter incr flags fs fe.
Proof. intros; apply src_c_avx512_blake3_hash_many_avx512_ok; assumption. Qed.
Print Assumptions C05_src_c_avx512_blake3_hash_many_avx512.

(* c/blake3_portable.c blake3_hash_many_portable: every input has exactly blocks * 64 bytes, `out` has room for
   num_inputs * 32 bytes.  In general it is the one-at-a-time loop over Portable.hash1 with the WRAPPING uint64_t counter;
   it is Portable.hash_many (whose counter += 1 is overflow-checked, Panic 1001, and which has the debug assertion 1101
   on the capacity) when the counter stays below 2^64 and num_inputs <= cap. *)
Theorem C05_src_c_portable_blake3_hash_many_portable_single : forall fuel inputs bn key counter incr flags fs fe out,
  length key = 8%nat -> N.of_nat bn < 2 ^ 64 ->
  (length inputs + bn < fuel)%nat -> N.of_nat (length inputs) < 2 ^ 64 -> Forall (exact_len bn) inputs ->
  (32 * length inputs <= length out)%nat ->
  src_c_portable_blake3_hash_many_portable fuel inputs (N.of_nat (length inputs)) (N.of_nat bn) key counter incr flags fs fe out
  = single_loop portable_hash1 cadd_c false inputs bn key counter incr flags fs fe 0.
Proof. exact src_c_portable_blake3_hash_many_portable_single. Qed.
Print Assumptions C05_src_c_portable_blake3_hash_many_portable_single.
Theorem C05_src_c_portable_blake3_hash_many_portable : forall fuel inputs bn key counter incr flags fs fe out cap,
  length key = 8%nat -> N.of_nat bn < 2 ^ 64 ->
  (length inputs + bn < fuel)%nat -> N.of_nat (length inputs) < 2 ^ 64 -> Forall (exact_len bn) inputs ->
  (32 * length inputs <= length out)%nat -> N.of_nat (length inputs) <= cap ->
  (incr = true -> counter + N.of_nat (length inputs) < 2 ^ 64) ->
  src_c_portable_blake3_hash_many_portable fuel inputs (N.of_nat (length inputs)) (N.of_nat bn) key counter incr flags fs fe out
  = Portable.hash_many inputs key counter incr flags fs fe cap.
Proof. exact src_c_portable_blake3_hash_many_portable_ok. Qed.
Print Assumptions C05_src_c_portable_blake3_hash_many_portable.

From Coq Require Import Lia.
(* non-vacuity: the side conditions of the whole-function theorems hold of 21 inputs of 2 blocks, an 8-word key,
   fuel 30, compress_in_place_rows, a 21 * 32-byte `out` *)
Example C05_src_hash_many_side_conditions_inhabited :
  let inputs := repeat (repeat 0 128%nat) 21 in
  cip_len8 compress_in_place_rows /\ length (repeat 0 8%nat) = 8%nat /\ N.of_nat 2 < 2 ^ 64 /\
  (length inputs + 2 < 30)%nat /\ (length inputs < 30)%nat /\ (128 / 64 < 30)%nat /\
  N.of_nat (length inputs) < 2 ^ 64 /\ N.of_nat (length inputs) * 32 < 2 ^ 64 /\
  Forall (long_enough 2) inputs /\ Forall (exact_len 2) inputs /\ Forall (fun i => length i = 128%nat) inputs /\
  (32 * length inputs <= length (repeat 0 672%nat))%nat.
Proof.
  cbv zeta. rewrite !repeat_length.
  assert (F : forall P : list N -> Prop, P (repeat 0 128%nat) -> Forall P (repeat (repeat 0 128%nat) 21)).
  { intros P HP. apply Forall_forall. intros x Hx. apply repeat_spec in Hx. subst x. exact HP. }
  repeat split; try exact cip_len8_rows; try (apply F; unfold long_enough, exact_len; rewrite repeat_length); try lia;
    try reflexivity; try (apply Nat.div_lt_upper_bound; lia).
Qed.

(* the trailing `for (&input, output) in inputs.iter().zip(out.chunks_exact_mut(OUT_LEN))` of rust_sse2.rs / rust_sse41.rs:
   single_loop over hash1_rs, stopping when `out` is exhausted (chunks = out.len() / OUT_LEN) *)
Theorem C05_src_rs_sse2_hash_many_loop2 : forall hN cip fuel n blocks inputs chunks key counter incr flags fs fe acc,
  (n / 64 < fuel)%nat -> Forall (fun i => length i = n) inputs ->
  ('(counter, out_w) <- src_rs_sse2_hash_many_loop2 hN (okc cip) fuel (N.of_nat n) inputs chunks key counter incr flags fs fe acc ;; Ok out_w)
  = (r <- single_loop (hash1_rs cip) cadd_rs true inputs blocks key counter incr flags fs fe chunks ;; Ok (acc ++ r)).
Proof. exact src_rs_sse2_hash_many_loop2_ok. Qed.
Print Assumptions C05_src_rs_sse2_hash_many_loop2.
Theorem C05_src_rs_sse41_hash_many_loop2 : forall hN cip fuel n blocks inputs chunks key counter incr flags fs fe acc,
  (n / 64 < fuel)%nat -> Forall (fun i => length i = n) inputs ->
  ('(counter, out_w) <- src_rs_sse41_hash_many_loop2 hN (okc cip) fuel (N.of_nat n) inputs chunks key counter incr flags fs fe acc ;; Ok out_w)
  = (r <- single_loop (hash1_rs cip) cadd_rs true inputs blocks key counter incr flags fs fe chunks ;; Ok (acc ++ r)).
Proof. exact src_rs_sse41_hash_many_loop2_ok. Qed.
Print Assumptions C05_src_rs_sse41_hash_many_loop2.
(* the degree-8 loop of rust_avx2.rs *)
Theorem C05_src_rs_avx2_hash_many_loop1 : forall hN ext fuel gN inputs key counter incr flags fs fe cap acc, (length inputs < fuel)%nat ->
  src_rs_avx2_hash_many_loop1 hN ext fuel gN inputs key counter incr flags fs fe (32 * cap) acc =
  ('(outs, st) <- batch_while fuel 8 hN cadd_rs true inputs (N.to_nat (gN / 64)) key counter incr flags fs fe cap ;;
   let '(rest, c', cap') := st in Ok (rest, c', 32 * cap', acc ++ outs)).
Proof. exact src_rs_avx2_hash_many_loop1_ok. Qed.
Print Assumptions C05_src_rs_avx2_hash_many_loop1.
(* the `while (num_inputs >= DEGREE)` loops of the C files: batch_while DEGREE, wrapping counter, no capacity test;
   out' = where the `out` pointer stands afterwards *)
Theorem C05_src_c_sse2_blake3_hash_many_sse2_loop1 : forall hN ext fuel inputs blocks key counter incr flags fs fe out acc,
  (length inputs < fuel)%nat -> N.of_nat (length inputs) < 2 ^ 64 ->
  exists out', src_c_sse2_blake3_hash_many_sse2_loop1 hN ext fuel inputs (N.of_nat (length inputs)) blocks key counter incr flags fs fe out acc =
    ('(outs, st) <- batch_while fuel 4 hN cadd_c false inputs (N.to_nat blocks) key counter incr flags fs fe 0 ;;
     let '(rest, c', _) := st in Ok (rest, N.of_nat (length rest), c', out', acc ++ outs)).
Proof. exact src_c_sse2_blake3_hash_many_sse2_loop1_ok. Qed.
Print Assumptions C05_src_c_sse2_blake3_hash_many_sse2_loop1.
Theorem C05_src_c_sse41_blake3_hash_many_sse41_loop1 : forall hN ext fuel inputs blocks key counter incr flags fs fe out acc,
  (length inputs < fuel)%nat -> N.of_nat (length inputs) < 2 ^ 64 ->
  exists out', src_c_sse41_blake3_hash_many_sse41_loop1 hN ext fuel inputs (N.of_nat (length inputs)) blocks key counter incr flags fs fe out acc =
    ('(outs, st) <- batch_while fuel 4 hN cadd_c false inputs (N.to_nat blocks) key counter incr flags fs fe 0 ;;
     let '(rest, c', _) := st in Ok (rest, N.of_nat (length rest), c', out', acc ++ outs)).
Proof. exact src_c_sse41_blake3_hash_many_sse41_loop1_ok. Qed.
Print Assumptions C05_src_c_sse41_blake3_hash_many_sse41_loop1.
Theorem C05_src_c_avx2_blake3_hash_many_avx2_loop1 : forall hN ext fuel inputs blocks key counter incr flags fs fe out acc,
  (length inputs < fuel)%nat -> N.of_nat (length inputs) < 2 ^ 64 ->
  exists out', src_c_avx2_blake3_hash_many_avx2_loop1 hN ext fuel inputs (N.of_nat (length inputs)) blocks key counter incr flags fs fe out acc =
    ('(outs, st) <- batch_while fuel 8 hN cadd_c false inputs (N.to_nat blocks) key counter incr flags fs fe 0 ;;
     let '(rest, c', _) := st in Ok (rest, N.of_nat (length rest), c', out', acc ++ outs)).
Proof. exact src_c_avx2_blake3_hash_many_avx2_loop1_ok. Qed.
Print Assumptions C05_src_c_avx2_blake3_hash_many_avx2_loop1.
Theorem C05_src_c_avx512_blake3_hash_many_avx512_loop2 : forall h16 h8 h4 ext fuel inputs blocks key counter incr flags fs fe out acc,
  (length inputs < fuel)%nat -> N.of_nat (length inputs) < 2 ^ 64 ->
  exists out', src_c_avx512_blake3_hash_many_avx512_loop2 h16 h8 h4 ext fuel inputs (N.of_nat (length inputs)) blocks key counter incr flags fs fe out acc =
    ('(outs, st) <- batch_while fuel 8 h8 cadd_c false inputs (N.to_nat blocks) key counter incr flags fs fe 0 ;;
     let '(rest, c', _) := st in Ok (rest, N.of_nat (length rest), c', out', acc ++ outs)).
Proof. exact src_c_avx512_blake3_hash_many_avx512_loop2_ok. Qed.
Print Assumptions C05_src_c_avx512_blake3_hash_many_avx512_loop2.
Theorem C05_src_c_avx512_blake3_hash_many_avx512_loop3 : forall h16 h8 h4 ext fuel inputs blocks key counter incr flags fs fe out acc,
  (length inputs < fuel)%nat -> N.of_nat (length inputs) < 2 ^ 64 ->
  exists out', src_c_avx512_blake3_hash_many_avx512_loop3 h16 h8 h4 ext fuel inputs (N.of_nat (length inputs)) blocks key counter incr flags fs fe out acc =
    ('(outs, st) <- batch_while fuel 4 h4 cadd_c false inputs (N.to_nat blocks) key counter incr flags fs fe 0 ;;
     let '(rest, c', _) := st in Ok (rest, N.of_nat (length rest), c', out', acc ++ outs)).
Proof. exact src_c_avx512_blake3_hash_many_avx512_loop3_ok. Qed.
Print Assumptions C05_src_c_avx512_blake3_hash_many_avx512_loop3.
(* the trailing `while (num_inputs > 0)` loops of the C files: single_loop over hash_one_c, wrapping counter; fuel above
   num_inputs + blocks because the inner hash_one_* block loop runs on the same (decreasing) fuel *)
Theorem C05_src_c_sse2_blake3_hash_many_sse2_loop2 : forall hN (cip : cip_fn) bn key flags fs fe, cip_len8 cip -> length key = 8%nat ->
  N.of_nat bn < 2 ^ 64 -> forall inputs fuel counter incr out acc,
  (length inputs + bn < fuel)%nat -> N.of_nat (length inputs) < 2 ^ 64 -> Forall (long_enough bn) inputs ->
  ('(inputs, num_inputs, counter, out, out_w) <-
      src_c_sse2_blake3_hash_many_sse2_loop2 hN cip fuel inputs (N.of_nat (length inputs)) (N.of_nat bn) key counter incr flags fs fe out acc ;; Ok out_w)
  = (r <- single_loop (hash_one_c cip) cadd_c false inputs bn key counter incr flags fs fe 0 ;; Ok (acc ++ r)).
Proof. intros; apply src_c_sse2_blake3_hash_many_sse2_loop2_ok; assumption. Qed.
Print Assumptions C05_src_c_sse2_blake3_hash_many_sse2_loop2.
Theorem C05_src_c_sse41_blake3_hash_many_sse41_loop2 : forall hN (cip : cip_fn) bn key flags fs fe, cip_len8 cip -> length key = 8%nat ->
  N.of_nat bn < 2 ^ 64 -> forall inputs fuel counter incr out acc,
  (length inputs + bn < fuel)%nat -> N.of_nat (length inputs) < 2 ^ 64 -> Forall (long_enough bn) inputs ->
  ('(inputs, num_inputs, counter, out, out_w) <-
      src_c_sse41_blake3_hash_many_sse41_loop2 hN cip fuel inputs (N.of_nat (length inputs)) (N.of_nat bn) key counter incr flags fs fe out acc ;; Ok out_w)
  = (r <- single_loop (hash_one_c cip) cadd_c false inputs bn key counter incr flags fs fe 0 ;; Ok (acc ++ r)).
Proof. intros; apply src_c_sse41_blake3_hash_many_sse41_loop2_ok; assumption. Qed.
Print Assumptions C05_src_c_sse41_blake3_hash_many_sse41_loop2.
Theorem C05_src_c_avx512_blake3_hash_many_avx512_loop4 : forall h16 h8 h4 (cip : cip_fn) bn key flags fs fe, cip_len8 cip -> length key = 8%nat ->
  N.of_nat bn < 2 ^ 64 -> forall inputs fuel counter incr out acc,
  (length inputs + bn < fuel)%nat -> N.of_nat (length inputs) < 2 ^ 64 -> Forall (long_enough bn) inputs ->
  ('(inputs, num_inputs, counter, out, out_w) <-
      src_c_avx512_blake3_hash_many_avx512_loop4 h16 h8 h4 cip fuel inputs (N.of_nat (length inputs)) (N.of_nat bn) key counter incr flags fs fe out acc ;; Ok out_w)
  = (r <- single_loop (hash_one_c cip) cadd_c false inputs bn key counter incr flags fs fe 0 ;; Ok (acc ++ r)).
Proof. intros; apply src_c_avx512_blake3_hash_many_avx512_loop4_ok; assumption. Qed.
Print Assumptions C05_src_c_avx512_blake3_hash_many_avx512_loop4.

From V Require Import Model.Intrinsics gen.GenKern2 Proofs.RoundsP Proofs.GenKern2P.
(* The whole hash4 / hash8 / hash16 of src/rust_sse2.rs, src/rust_sse41.rs, src/rust_avx2.rs and c/blake3_avx512.c, translated
   statement by statement (key broadcast, load_counters, block_flags bookkeeping, `for block` loop, final transposes,
   every store to `out`): the final contents of `out` are the concatenated CVs of the kernel model, for every key of 8
   32-bit words (W x := x < 2^32), inputs of blocks*64 bytes, u8 flags, counter + lanes within u64, `out` of lanes*32 bytes *)
Theorem C05_src_k2_rs_sse2_hash4 : forall inputs blocks key counter incr flags fs fe out,
  length key = 8%nat -> Forall W key ->
  (forall j, (j < 4)%nat -> length (inp inputs j) = (blocks * 64)%nat) ->
  counter + 4 <= 2 ^ 64 -> flags < 256 -> fs < 256 -> fe < 256 -> length out = 128%nat ->
  k2_rs_sse2_hash4 inputs blocks key counter incr flags fs fe out =
  (outs <- hash4_rs inputs blocks key counter incr flags fs fe ;; Ok (concat outs)).
Proof. exact k2_rs_sse2_hash4_ok. Qed.
Print Assumptions C05_src_k2_rs_sse2_hash4.
(* ... hence (this and the other `_portable` statements below) Portable.hash1 of each input, with the counters
   counter + i (hm_spec) *)
Theorem C05_src_k2_rs_sse2_hash4_portable : forall inputs blocks key counter incr flags fs fe out,
  length inputs = 4%nat -> length key = 8%nat -> Forall W key ->
  (forall i, In i inputs -> length i = (blocks * 64)%nat) ->
  counter + 4 <= 2 ^ 64 -> flags < 256 -> fs < 256 -> fe < 256 -> length out = 128%nat ->
  k2_rs_sse2_hash4 inputs blocks key counter incr flags fs fe out =
  Ok (concat (hm_spec inputs key counter incr flags fs fe)).
Proof. exact k2_rs_sse2_hash4_spec. Qed.
Print Assumptions C05_src_k2_rs_sse2_hash4_portable.
Theorem C05_src_k2_rs_sse41_hash4 : forall inputs blocks key counter incr flags fs fe out,
  length key = 8%nat -> Forall W key ->
  (forall j, (j < 4)%nat -> length (inp inputs j) = (blocks * 64)%nat) ->
  counter + 4 <= 2 ^ 64 -> flags < 256 -> fs < 256 -> fe < 256 -> length out = 128%nat ->
  k2_rs_sse41_hash4 inputs blocks key counter incr flags fs fe out =
  (outs <- hash4_rs inputs blocks key counter incr flags fs fe ;; Ok (concat outs)).
Proof. exact k2_rs_sse41_hash4_ok. Qed.
Print Assumptions C05_src_k2_rs_sse41_hash4.
Theorem C05_src_k2_rs_sse41_hash4_portable : forall inputs blocks key counter incr flags fs fe out,
  length inputs = 4%nat -> length key = 8%nat -> Forall W key ->
  (forall i, In i inputs -> length i = (blocks * 64)%nat) ->
  counter + 4 <= 2 ^ 64 -> flags < 256 -> fs < 256 -> fe < 256 -> length out = 128%nat ->
  k2_rs_sse41_hash4 inputs blocks key counter incr flags fs fe out =
  Ok (concat (hm_spec inputs key counter incr flags fs fe)).
Proof. exact k2_rs_sse41_hash4_spec. Qed.
Print Assumptions C05_src_k2_rs_sse41_hash4_portable.
Theorem C05_src_k2_rs_avx2_hash8 : forall inputs blocks key counter incr flags fs fe out,
  length key = 8%nat -> Forall W key ->
  (forall j, (j < 8)%nat -> length (inp inputs j) = (blocks * 64)%nat) ->
  counter + 8 <= 2 ^ 64 -> flags < 256 -> fs < 256 -> fe < 256 -> length out = 256%nat ->
  k2_rs_avx2_hash8 inputs blocks key counter incr flags fs fe out =
  (outs <- hash8_rs inputs blocks key counter incr flags fs fe ;; Ok (concat outs)).
Proof. exact k2_rs_avx2_hash8_ok. Qed.
Print Assumptions C05_src_k2_rs_avx2_hash8.
Theorem C05_src_k2_rs_avx2_hash8_portable : forall inputs blocks key counter incr flags fs fe out,
  length inputs = 8%nat -> length key = 8%nat -> Forall W key ->
  (forall i, In i inputs -> length i = (blocks * 64)%nat) ->
  counter + 8 <= 2 ^ 64 -> flags < 256 -> fs < 256 -> fe < 256 -> length out = 256%nat ->
  k2_rs_avx2_hash8 inputs blocks key counter incr flags fs fe out =
  Ok (concat (hm_spec inputs key counter incr flags fs fe)).
Proof. exact k2_rs_avx2_hash8_spec. Qed.
Print Assumptions C05_src_k2_rs_avx2_hash8_portable.
Theorem C05_src_k2_c_avx512_blake3_hash4_avx512 : forall inputs blocks key counter incr flags fs fe out,
  length key = 8%nat -> Forall W key ->
  (forall j, (j < 4)%nat -> length (inp inputs j) = (blocks * 64)%nat) ->
  counter + 4 <= 2 ^ 64 -> flags < 256 -> fs < 256 -> fe < 256 -> length out = 128%nat ->
  Ok (k2_c_avx512_blake3_hash4_avx512 inputs blocks key counter incr flags fs fe out) =
  (outs <- hash4_avx512 inputs blocks key counter incr flags fs fe ;; Ok (concat outs)).
Proof. exact k2_c_avx512_blake3_hash4_avx512_ok. Qed.
Print Assumptions C05_src_k2_c_avx512_blake3_hash4_avx512.
Theorem C05_src_k2_c_avx512_blake3_hash4_avx512_portable : forall inputs blocks key counter incr flags fs fe out,
  length inputs = 4%nat -> length key = 8%nat -> Forall W key ->
  (forall i, In i inputs -> length i = (blocks * 64)%nat) ->
  counter + 4 <= 2 ^ 64 -> flags < 256 -> fs < 256 -> fe < 256 -> length out = 128%nat ->
  Ok (k2_c_avx512_blake3_hash4_avx512 inputs blocks key counter incr flags fs fe out) =
  Ok (concat (hm_spec inputs key counter incr flags fs fe)).
Proof. exact k2_c_avx512_blake3_hash4_avx512_spec. Qed.
Print Assumptions C05_src_k2_c_avx512_blake3_hash4_avx512_portable.
Theorem C05_src_k2_c_avx512_blake3_hash8_avx512 : forall inputs blocks key counter incr flags fs fe out,
  length key = 8%nat -> Forall W key ->
  (forall j, (j < 8)%nat -> length (inp inputs j) = (blocks * 64)%nat) ->
  counter + 8 <= 2 ^ 64 -> flags < 256 -> fs < 256 -> fe < 256 -> length out = 256%nat ->
  Ok (k2_c_avx512_blake3_hash8_avx512 inputs blocks key counter incr flags fs fe out) =
  (outs <- hash8_avx512 inputs blocks key counter incr flags fs fe ;; Ok (concat outs)).
Proof. exact k2_c_avx512_blake3_hash8_avx512_ok. Qed.
Print Assumptions C05_src_k2_c_avx512_blake3_hash8_avx512.
Theorem C05_src_k2_c_avx512_blake3_hash8_avx512_portable : forall inputs blocks key counter incr flags fs fe out,
  length inputs = 8%nat -> length key = 8%nat -> Forall W key ->
  (forall i, In i inputs -> length i = (blocks * 64)%nat) ->
  counter + 8 <= 2 ^ 64 -> flags < 256 -> fs < 256 -> fe < 256 -> length out = 256%nat ->
  Ok (k2_c_avx512_blake3_hash8_avx512 inputs blocks key counter incr flags fs fe out) =
  Ok (concat (hm_spec inputs key counter incr flags fs fe)).
Proof. exact k2_c_avx512_blake3_hash8_avx512_spec. Qed.
Print Assumptions C05_src_k2_c_avx512_blake3_hash8_avx512_portable.
Theorem C05_src_k2_c_avx512_blake3_hash16_avx512 : forall inputs blocks key counter incr flags fs fe out,
  length key = 8%nat -> Forall W key ->
  (forall j, (j < 16)%nat -> length (inp inputs j) = (blocks * 64)%nat) ->
  counter + 16 <= 2 ^ 64 -> flags < 256 -> fs < 256 -> fe < 256 -> length out = 512%nat ->
  Ok (k2_c_avx512_blake3_hash16_avx512 inputs blocks key counter incr flags fs fe out) =
  (outs <- hash16_avx512 inputs blocks key counter incr flags fs fe ;; Ok (concat outs)).
Proof. exact k2_c_avx512_blake3_hash16_avx512_ok. Qed.
Print Assumptions C05_src_k2_c_avx512_blake3_hash16_avx512.
Theorem C05_src_k2_c_avx512_blake3_hash16_avx512_portable : forall inputs blocks key counter incr flags fs fe out,
  length inputs = 16%nat -> length key = 8%nat -> Forall W key ->
  (forall i, In i inputs -> length i = (blocks * 64)%nat) ->
  counter + 16 <= 2 ^ 64 -> flags < 256 -> fs < 256 -> fe < 256 -> length out = 512%nat ->
  Ok (k2_c_avx512_blake3_hash16_avx512 inputs blocks key counter incr flags fs fe out) =
  Ok (concat (hm_spec inputs key counter incr flags fs fe)).
Proof. exact k2_c_avx512_blake3_hash16_avx512_spec. Qed.
Print Assumptions C05_src_k2_c_avx512_blake3_hash16_avx512_portable.

(* the three C hashN functions whose per-block theorem needs 32-bit lanes (Proofs/GenKern2P2.v: loop invariant
   "8 vectors of n lanes, every lane below 2^32"): translated whole function = the kernel model hash4_c / hash8_c *)
From V Require Import Proofs.GenKern2P2.
Theorem C05_src_c_sse2_blake3_hash4_sse2 : forall inputs blocks key counter incr flags fs fe out,
  length key = 8%nat -> Forall W key ->
  (forall j, (j < 4)%nat -> length (inp inputs j) = (blocks * 64)%nat) ->
  (forall j, (j < 4)%nat -> Forall (fun b => b < 256) (inp inputs j)) ->
  counter + 4 <= 2 ^ 64 -> flags < 256 -> fs < 256 -> fe < 256 -> length out = 128%nat ->
  Ok (k2_c_sse2_blake3_hash4_sse2 inputs blocks key counter incr flags fs fe out) =
  (outs <- hash4_c inputs blocks key counter incr flags fs fe ;; Ok (concat outs)).
Proof. exact k2_c_sse2_blake3_hash4_sse2_ok. Qed.
Theorem C05_src_c_sse41_blake3_hash4_sse41 : forall inputs blocks key counter incr flags fs fe out,
  length key = 8%nat -> Forall W key ->
  (forall j, (j < 4)%nat -> length (inp inputs j) = (blocks * 64)%nat) ->
  (forall j, (j < 4)%nat -> Forall (fun b => b < 256) (inp inputs j)) ->
  counter + 4 <= 2 ^ 64 -> flags < 256 -> fs < 256 -> fe < 256 -> length out = 128%nat ->
  Ok (k2_c_sse41_blake3_hash4_sse41 inputs blocks key counter incr flags fs fe out) =
  (outs <- hash4_c inputs blocks key counter incr flags fs fe ;; Ok (concat outs)).
Proof. exact k2_c_sse41_blake3_hash4_sse41_ok. Qed.
Theorem C05_src_c_avx2_blake3_hash8_avx2 : forall inputs blocks key counter incr flags fs fe out,
  length key = 8%nat -> Forall W key ->
  (forall j, (j < 8)%nat -> length (inp inputs j) = (blocks * 64)%nat) ->
  (forall j, (j < 8)%nat -> Forall (fun b => b < 256) (inp inputs j)) ->
  counter + 8 <= 2 ^ 64 -> flags < 256 -> fs < 256 -> fe < 256 -> length out = 256%nat ->
  Ok (k2_c_avx2_blake3_hash8_avx2 inputs blocks key counter incr flags fs fe out) =
  (outs <- hash8_c inputs blocks key counter incr flags fs fe ;; Ok (concat outs)).
Proof. exact k2_c_avx2_blake3_hash8_avx2_ok. Qed.
Print Assumptions C05_src_c_sse2_blake3_hash4_sse2.
Print Assumptions C05_src_c_sse41_blake3_hash4_sse41.
Print Assumptions C05_src_c_avx2_blake3_hash8_avx2.
