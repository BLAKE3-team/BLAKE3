(* C08: multithreaded hashing is deterministic under every schedule.
   Model (Model/Concurrency.v): at a split of compress_subtree_wide the left half writes its CVs into
   slots [0, degree) of the node's cv_array and the right half into slots [degree, degree + right_n);
   a schedule is ANY interleaving of the two halves' write events (left-first, right-first and every
   concurrent interleaving); the parent layer then reads the first left_n + right_n slots.
   The thread runtime (rayon, TBB, the hardware memory model) is trusted, not modelled; it is exercised by
   tools/props/C08.py. *)
From Coq Require Import NArith List Bool.
From V Require Import Base.Res Spec.Tree Model.Platform Model.RsWide Model.RsHasher Model.Concurrency Model.RsWideSched Model.RsHasherSched Proofs.ConcurrencyP Proofs.WideSchedP.
Import ListNotations.
Open Scope N_scope.

(* the halves never write the same slot (left_n <= degree is asserted by the code and proved in C01) *)
Theorem C08_halves_disjoint : forall degree lcvs rcvs, (length lcvs <= degree)%nat ->
  disjoint (slots (events_from 0 lcvs)) (slots (events_from degree rcvs)).
Proof. exact halves_disjoint. Qed.

(* disjoint write sets: every interleaving leaves the same memory as left-then-right *)
Theorem C08_interleave_irrelevant : forall l r m, Interleave l r m -> disjoint (slots l) (slots r) ->
  forall mem, apply_writes mem m = apply_writes mem (l ++ r).
Proof. exact interleave_irrelevant. Qed.

(* whatever the schedule, the parent layer of the node sees exactly left ++ right *)
Theorem C08_split_node_schedule_independent : forall cap degree lcvs rcvs m,
  length lcvs = degree -> (degree + length rcvs <= cap)%nat ->
  Interleave (events_from 0 lcvs) (events_from degree rcvs) m ->
  split_node cap degree lcvs rcvs m = lcvs ++ rcvs.
Proof. exact split_node_schedule_independent. Qed.

(* left-first (SerialJoin) and right-first are schedules *)
Theorem C08_serial_is_a_schedule : forall (l r : list wr), Interleave l r (l ++ r) /\ Interleave l r (r ++ l).
Proof. intros l r. split; [apply interleave_left_first|apply interleave_right_first]. Qed.

(* the whole recursion: compress_subtree_wide::<J> with ANY schedule tree (an arbitrary
   interleaving of the two halves' writes at every split node, recursively) returns exactly what
   the serial recursion returns - value, panic code or fuel - for every platform whose degree
   fits its arrays, every input, key, counter, flags and capacity *)
Theorem C08_wide_schedule_independent : forall p, p_degree p <= p_max_degree p ->
  forall fuel s input key ctr flags cap,
  compress_subtree_wide_sched fuel p s input key ctr flags cap = compress_subtree_wide fuel p input key ctr flags cap.
Proof. exact wide_sched_eq. Qed.

Theorem C08_to_parent_node_schedule_independent : forall p, p_degree p <= p_max_degree p ->
  forall s input key ctr flags,
  compress_subtree_to_parent_node_sched p s input key ctr flags = compress_subtree_to_parent_node p input key ctr flags.
Proof. exact to_parent_node_sched_eq. Qed.

Theorem C08_hash_all_at_once_schedule_independent : forall p, p_degree p <= p_max_degree p ->
  forall s input key flags,
  hash_all_at_once_sched p s input key flags = hash_all_at_once p input key flags.
Proof. exact hash_all_at_once_sched_eq. Qed.

(* Hasher::update_with_join::<J> (update_rayon, update_mmap_rayon, scripted join): one update under
   any family of schedule trees is Hasher::update; so is any history of such updates *)
Theorem C08_hasher_update_schedule_independent : forall p, p_degree p <= p_max_degree p ->
  forall sch h input, hasher_update_sched p sch h input = hasher_update p h input.
Proof. exact hasher_update_sched_eq. Qed.

Theorem C08_update_history_schedule_independent : forall p, p_degree p <= p_max_degree p ->
  forall pieces h, updates_sched p h pieces = updates_serial p h (map snd pieces).
Proof. exact updates_sched_eq. Qed.

(* the schedules quantified over are ALL interleavings: every interleaving is a weave, every weave an interleaving *)
Theorem C08_weave_complete : forall (l r m : list wr), Interleave l r m <-> exists order, m = weave order l r.
Proof. intros l r m. split; [apply interleave_is_weave|intros [o ->]; apply weave_interleave]. Qed.

Example C08_nonvacuous :
  let l := [[1]; [2]] in let r := [[3]] in
  split_node 8 2 l r [(2%nat, [3]); (0%nat, [1]); (1%nat, [2])] = [[1]; [2]; [3]] /\
  Interleave (events_from 0 l) (events_from 2 r) [(2%nat, [3]); (0%nat, [1]); (1%nat, [2])].
Proof. split; [reflexivity|]. cbn. apply IL_right. apply IL_left. apply IL_left. constructor. Qed.

(* the functions of the modelled source are exactly the functions the model was written against
   (gen/GenApi.v is regenerated from /repo on every run; see Model/ApiSurface.v) *)
From V Require gen.GenApi Model.ApiSurface.
Theorem C08_api_join : GenApi.api_join = ApiSurface.expected_join.
Proof. reflexivity. Qed.

Print Assumptions C08_api_join.
Print Assumptions C08_halves_disjoint.
Print Assumptions C08_interleave_irrelevant.
Print Assumptions C08_split_node_schedule_independent.
Print Assumptions C08_serial_is_a_schedule.
Print Assumptions C08_wide_schedule_independent.
Print Assumptions C08_to_parent_node_schedule_independent.
Print Assumptions C08_hash_all_at_once_schedule_independent.
Print Assumptions C08_weave_complete.
Print Assumptions C08_hasher_update_schedule_independent.
Print Assumptions C08_update_history_schedule_independent.
