(* C15: the reference implementation and the published test vectors agree with the
   specification.  The test vectors are evaluated in the kernel (Proofs/TestVectorsP.v); C15_ref_src_*, at the end,
   are the functions of reference_impl.rs translated from the source text (gen/GenRefImpl.v, gen/GenRefImplLoops.v)
   against the model.
   Model: Model/RefImpl.v mirrors reference_impl/reference_impl.rs; `Ok` is the
   no-panic claim: every index, slice, `+=`/`-` overflow check and debug_assert of the
   reference implementation is an `assert!` of the model (the CV stack never needs
   more than its 54 entries).  Spec: Spec/{Compress,Tree,Blake3}.v (from the paper). *)
From Coq Require Import NArith List Bool.
From V Require Import Base.Res Base.Word gen.GenConsts gen.GenTestVectors
  Spec.Compress Spec.Tree Spec.Blake3 Model.RefImpl
  Model.Platform Model.RsWide
  Proofs.RefCompressP Proofs.RefImplP Proofs.TVCommon Proofs.TestVectorsP Proofs.C15P.
From V Require Import Base.Arr gen.GenRefImpl Proofs.GenRefImplP.
From V Require Import Base.MachInt Base.Arr2 gen.GenRefImplLoops Proofs.GenRefImplLoopsP.
Import ListNotations.
Open Scope N_scope.

(* the repository's constants of the reference implementation are the paper's *)
Theorem C15_ref_constants :
  ref_IV = IV /\ ref_MSG_PERMUTATION = MSG_PERMUTATION /\
  ref_flag_CHUNK_START = CHUNK_START /\ ref_flag_CHUNK_END = CHUNK_END /\ ref_flag_PARENT = PARENT /\
  ref_flag_ROOT = ROOT /\ ref_flag_KEYED_HASH = KEYED_HASH /\
  ref_flag_DERIVE_KEY_CONTEXT = DERIVE_KEY_CONTEXT /\ ref_flag_DERIVE_KEY_MATERIAL = DERIVE_KEY_MATERIAL /\
  ref_OUT_LEN = 32 /\ ref_KEY_LEN = 32 /\ ref_BLOCK_LEN = 64 /\ ref_CHUNK_LEN = 1024 /\ ref_stack_len = 54.
Proof. repeat split; reflexivity. Qed.

(* compress: all arguments (block as 16 words = the little-endian words of 64 bytes) *)
Theorem C15_ref_compress_is_spec : forall cv block ctr bl fl,
  length cv = 8%nat -> length block = 64%nat ->
  (bw <- ref_words_from_le_bytes block 16 ;; ref_compress cv bw ctr bl fl)
  = Ok (compress cv block bl ctr fl).
Proof. exact ref_compress_is_spec. Qed.

Theorem C15_ref_compress_words_is_spec : forall cv bw block ctr bl fl,
  length cv = 8%nat -> length bw = 16%nat -> words_of_bytes block = bw ->
  ref_compress cv bw ctr bl fl = Ok (compress cv block bl ctr fl).
Proof. exact ref_compress_words_is_spec. Qed.

(* the refinement: every mode, every update split, every output length.
   ref_mode_ok: keys are 32 bytes (values below 256), context strings below 2^64 bytes.
   ref_spec_mode: RHash -> Hash, RKeyed k -> KeyedHash k,
                  RDerive c -> DeriveKeyMaterial (b3_hash_mode DeriveKeyContext c). *)
Theorem C15_ref_refines : forall m pieces out_len,
  ref_mode_ok m -> len (concat pieces) < 2 ^ 64 -> out_len < 2 ^ 64 ->
  ref_run m pieces out_len = Ok (b3_xof_mode (ref_spec_mode m) (concat pieces) 0 (N.to_nat out_len)).
Proof. exact ref_refines. Qed.

Theorem C15_ref_hash : forall pieces, len (concat pieces) < 2 ^ 64 ->
  ref_run RHash pieces 32 = Ok (b3_hash (concat pieces)).
Proof. exact ref_hash_spec. Qed.

Theorem C15_ref_keyed_hash : forall key pieces,
  length key = 32%nat -> Forall (fun b => b < 256) key -> len (concat pieces) < 2 ^ 64 ->
  ref_run (RKeyed key) pieces 32 = Ok (b3_keyed_hash key (concat pieces)).
Proof. exact ref_keyed_hash_spec. Qed.

Theorem C15_ref_derive_key : forall context pieces,
  len context < 2 ^ 64 -> len (concat pieces) < 2 ^ 64 ->
  ref_run (RDerive context) pieces 32 = Ok (b3_derive_key context (concat pieces)).
Proof. exact ref_derive_key_spec. Qed.

(* the published test vectors against the specification.
   paint n = the input pattern of test_vectors/src/lib.rs (byte i = i mod 251) *)
Theorem C15_paint_is_the_pattern : forall n,
  paint n = map (fun i => N.of_nat i mod 251) (seq 0 (N.to_nat n)).
Proof. exact paint_spec. Qed.

Theorem C15_test_vectors_shape :
  length tv_cases = 35%nat /\
  map (fun c => fst (fst (fst c))) tv_cases =
    [0; 1; 2; 3; 4; 5; 6; 7; 8; 63; 64; 65; 127; 128; 129; 1023; 1024; 1025; 2048; 2049; 3072; 3073;
     4096; 4097; 5120; 5121; 6144; 6145; 7168; 7169; 8192; 8193; 16384; 31744; 102400] /\
  forallb (fun c => let '(_, h, k, d) := c in
             Nat.eqb (length h) 131 && Nat.eqb (length k) 131 && Nat.eqb (length d) 131) tv_cases = true /\
  length tv_key = 32%nat.
Proof. exact tv_shape. Qed.

Theorem C15_test_vectors_ok : forallb check_case tv_cases = true.
Proof. exact test_vectors_ok. Qed.

Theorem C15_test_vectors_spec : forall n h k d, In (n, h, k, d) tv_cases ->
  b3_xof_mode Hash (paint n) 0 131 = h /\
  b3_xof_mode (KeyedHash tv_key) (paint n) 0 131 = k /\
  stream spec_c64 (root_output spec_c8 (DeriveKeyMaterial (b3_hash_mode DeriveKeyContext tv_context)) (paint n)) 0 131 = d.
Proof. exact test_vectors_spec. Qed.

Theorem C15_test_vectors_default_len : forall n h k d, In (n, h, k, d) tv_cases ->
  b3_hash (paint n) = firstn 32 h /\ b3_keyed_hash tv_key (paint n) = firstn 32 k /\
  b3_derive_key tv_context (paint n) = firstn 32 d.
Proof. exact test_vectors_default_len. Qed.

(* both halves: the reference implementation reproduces every vector, for every update split *)
Theorem C15_ref_reproduces_test_vectors : forall n h k d pieces,
  In (n, h, k, d) tv_cases -> concat pieces = paint n ->
  ref_run RHash pieces 131 = Ok h /\
  ref_run (RKeyed tv_key) pieces 131 = Ok k /\
  ref_run (RDerive tv_context) pieces 131 = Ok d.
Proof. exact ref_reproduces_test_vectors. Qed.

(* all agree: reference implementation = spec = model of the optimized Rust crate (C01) *)
Theorem C15_ref_agrees_with_rust_hash : forall p pieces, PlatformOK p -> len (concat pieces) < 2 ^ 64 ->
  ref_run RHash pieces 32 = rs_hash p (concat pieces).
Proof. exact ref_agrees_with_rust_hash. Qed.

Theorem C15_ref_agrees_with_rust_keyed_hash : forall p key pieces, PlatformOK p ->
  length key = 32%nat -> Forall (fun b => b < 256) key -> len (concat pieces) < 2 ^ 64 ->
  ref_run (RKeyed key) pieces 32 = rs_keyed_hash p key (concat pieces).
Proof. exact ref_agrees_with_rust_keyed_hash. Qed.

Theorem C15_ref_agrees_with_rust_derive_key : forall p context pieces, PlatformOK p ->
  len context < 2 ^ 64 -> len (concat pieces) < 2 ^ 64 ->
  ref_run (RDerive context) pieces 32 = rs_derive_key p context (concat pieces).
Proof. exact ref_agrees_with_rust_derive_key. Qed.

(* non-vacuity: the hypotheses are satisfiable and the model really runs *)
Example C15_nonvacuous :
  let pieces := [paint 1000; []; paint 3000; paint 1] in
  ref_mode_ok (RKeyed tv_key) /\ ref_mode_ok (RDerive tv_context) /\
  len (concat pieces) < 2 ^ 64 /\ len (concat pieces) = 4001 /\
  ref_run (RKeyed tv_key) pieces 70 = Ok (b3_xof_mode (KeyedHash tv_key) (concat pieces) 0 70) /\
  is_ok (ref_run (RDerive tv_context) pieces 131) = true /\
  tv_cases <> [] /\
  (* the stack bound is a real constraint of the model: a 55th push panics *)
  is_panic (ref_push_stack (mkRH (rcs_new ref_IV 0 0) ref_IV (repeat ref_zero_cv 54) 54 0) ref_zero_cv) = true.
Proof.
  cbv zeta.
  assert (L : len (concat [paint 1000; []; paint 3000; paint 1]) < 2 ^ 64) by (vm_compute; reflexivity).
  split; [exact tv_key_ok|]. split; [exact tv_context_ok|].
  split; [exact L|]. split; [vm_compute; reflexivity|].
  split; [exact (C15_ref_refines (RKeyed tv_key) _ 70 tv_key_ok L eq_refl)|].
  split; [rewrite (C15_ref_refines (RDerive tv_context) _ 131 tv_context_ok L eq_refl); reflexivity|].
  split; [discriminate|vm_compute; reflexivity].
Qed.

Print Assumptions C15_ref_constants.
Print Assumptions C15_ref_compress_is_spec.
Print Assumptions C15_ref_compress_words_is_spec.
Print Assumptions C15_ref_refines.
Print Assumptions C15_ref_hash.
Print Assumptions C15_ref_keyed_hash.
Print Assumptions C15_ref_derive_key.
Print Assumptions C15_paint_is_the_pattern.
Print Assumptions C15_test_vectors_shape.
Print Assumptions C15_test_vectors_ok.
Print Assumptions C15_test_vectors_spec.
Print Assumptions C15_test_vectors_default_len.
Print Assumptions C15_ref_reproduces_test_vectors.
Print Assumptions C15_ref_agrees_with_rust_hash.
Print Assumptions C15_ref_agrees_with_rust_keyed_hash.
Print Assumptions C15_ref_agrees_with_rust_derive_key.
Print Assumptions C15_nonvacuous.

(* the model against the source text.
   gen/GenRefImpl.v is reference_impl/reference_impl.rs translated statement by statement (tools/gen_coq.py
   gen_refimpl: order of statements, indices, rotation amounts, loop bounds, call arguments are the source's;
   arrays are lists with Base/Arr.v's arr_get / arr_set, integer expressions go through Base/MachInt.v).
   Each translated function equals the function of Model/RefImpl.v the theorems above are about, for all
   arguments: array lengths are the declared types, u8 fields are below 256, nothing else is assumed. *)
Theorem C15_ref_src_g : forall state a b c d mx my,
  refsrc_g state a b c d mx my = ref_g state a b c d mx my.
Proof. exact refsrc_g_eq. Qed.
Print Assumptions C15_ref_src_g.

Theorem C15_ref_src_round : forall state m, refsrc_round state m = ref_round state m.
Proof. exact refsrc_round_eq. Qed.
Print Assumptions C15_ref_src_round.

(* the model's Ok: the index m[MSG_PERMUTATION[i]] is in bounds *)
Theorem C15_ref_src_permute : forall m, length m = 16%nat -> ref_permute m = Ok (refsrc_permute m).
Proof. exact refsrc_permute_eq. Qed.
Print Assumptions C15_ref_src_permute.

Theorem C15_ref_src_permute_is_spec : forall m, length m = 16%nat -> refsrc_permute m = Compress.permute m.
Proof. exact refsrc_permute_is_spec. Qed.
Print Assumptions C15_ref_src_permute_is_spec.

Theorem C15_ref_src_compress : forall chaining_value block_words counter block_len flags,
  length chaining_value = 8%nat -> length block_words = 16%nat ->
  ref_compress chaining_value block_words counter block_len flags =
  Ok (refsrc_compress chaining_value block_words counter block_len flags).
Proof. exact refsrc_compress_eq. Qed.
Print Assumptions C15_ref_src_compress.

(* hence the translated source computes the specification's compression function *)
Theorem C15_ref_src_compress_is_spec : forall cv block ctr bl fl,
  length cv = 8%nat -> length block = 64%nat ->
  refsrc_compress cv (words_of_bytes block) ctr bl fl = compress cv block bl ctr fl.
Proof. exact refsrc_compress_is_spec. Qed.
Print Assumptions C15_ref_src_compress_is_spec.

Theorem C15_ref_src_first_8_words : forall w, refsrc_first_8_words w = ref_first_8_words w.
Proof. exact refsrc_first_8_words_eq. Qed.
Print Assumptions C15_ref_src_first_8_words.

(* any number of words; the model takes `words` as its length, its assert 1600 is the source's debug_assert_eq! *)
Theorem C15_ref_src_words_from_little_endian_bytes : forall bytes words,
  ref_words_from_le_bytes bytes (length words) =
  if refsrc_words_from_little_endian_bytes_debug_assert bytes words
  then Ok (refsrc_words_from_little_endian_bytes bytes words) else Panic 1600.
Proof. exact refsrc_words_from_le_bytes_model. Qed.
Print Assumptions C15_ref_src_words_from_little_endian_bytes.

Theorem C15_ref_src_words_from_little_endian_bytes_value : forall bytes words,
  length bytes = (4 * length words)%nat ->
  refsrc_words_from_little_endian_bytes bytes words = words_of_bytes bytes.
Proof. exact refsrc_words_from_le_bytes_eq. Qed.
Print Assumptions C15_ref_src_words_from_little_endian_bytes_value.

(* struct Output / struct ChunkState as translated (records, fields in the source's order) -> the model's *)
Theorem C15_ref_src_records : forall a b c d e f,
  ro_of_src (refsrc_Output_mk a b c d e) = mkRO a b c d e /\
  rcs_of_src (refsrc_ChunkState_mk a c b d e f) = mkRCS a c b d e f.
Proof. intros. split; reflexivity. Qed.
Print Assumptions C15_ref_src_records.

Theorem C15_ref_src_output_chaining_value : forall o,
  length (refsrc_Output_input_chaining_value o) = 8%nat -> length (refsrc_Output_block_words o) = 16%nat ->
  ro_chaining_value (ro_of_src o) = Ok (refsrc_Output_chaining_value o).
Proof. exact refsrc_Output_chaining_value_eq. Qed.
Print Assumptions C15_ref_src_output_chaining_value.

(* blocks_compressed and block_len are u8 *)
Theorem C15_ref_src_chunk_state_len : forall c,
  refsrc_ChunkState_blocks_compressed c < 256 -> refsrc_ChunkState_block_len c < 256 ->
  refsrc_ChunkState_len c = Ok (rcs_len (rcs_of_src c)).
Proof. exact refsrc_ChunkState_len_eq. Qed.
Print Assumptions C15_ref_src_chunk_state_len.

Theorem C15_ref_src_chunk_state_start_flag : forall c,
  refsrc_ChunkState_start_flag c = Ok (rcs_start_flag (rcs_of_src c)).
Proof. exact refsrc_ChunkState_start_flag_eq. Qed.
Print Assumptions C15_ref_src_chunk_state_start_flag.

Theorem C15_ref_src_parent_output : forall left_child_cv right_child_cv key_words flags,
  length left_child_cv = 8%nat -> length right_child_cv = 8%nat ->
  ro_of_src (refsrc_parent_output left_child_cv right_child_cv key_words flags) =
  ref_parent_output left_child_cv right_child_cv key_words flags.
Proof. exact refsrc_parent_output_eq. Qed.
Print Assumptions C15_ref_src_parent_output.

Theorem C15_ref_src_parent_cv : forall left_child_cv right_child_cv key_words flags,
  length left_child_cv = 8%nat -> length right_child_cv = 8%nat -> length key_words = 8%nat ->
  ref_parent_cv left_child_cv right_child_cv key_words flags =
  Ok (refsrc_parent_cv left_child_cv right_child_cv key_words flags).
Proof. exact refsrc_parent_cv_eq. Qed.
Print Assumptions C15_ref_src_parent_cv.

(* the rest of reference_impl.rs against the model and the specification.
   gen/GenRefImplLoops.v (tools/gen_coq.py gen_refimpl_loops) is Output::root_output_bytes, ChunkState::new /
   update / output and the whole `impl Hasher` translated statement by statement: `while` loops are Fixpoints on
   explicit fuel (OutOfFuel when it runs out), `for .. in chunks_mut(n)` recurses over the part of the slice not
   visited yet, `[[u32; 8]; 54]` is a list of lists with the bounds asserts of the source (Base/Arr2.v).
   Records of the translation are mapped to the model's by ro_of_src / rcs_of_src / rh_of_src; results are compared
   through res_map; wt_out / wt_cs / wt_h are the declared types (array lengths, u8 fields below 256).
   The three simple loops equal the model's loops for EVERY fuel (OutOfFuel / Panic results included).  Where the
   model is shaped differently (it gives every inner loop its own fuel - 320 in add_chunk_chaining_value,
   S (length input) in ChunkState::update, S (out_len / 64) in root_output_bytes - and recurses on the counter in
   finalize, while the translation threads one fuel through all loops) the statements are: equal with enough fuel
   (explicit bound), and with ANY fuel OutOfFuel or equal (fuel_approx). *)
Theorem C15_ref_src_representation :
  (forall cs kw st sl fl, rh_of_src (refsrc_Hasher_mk cs kw st sl fl) = mkRH (rcs_of_src cs) kw st sl fl) /\
  (forall A B (f : A -> B) a, res_map f (Ok a) = Ok (f a)) /\
  (forall A B (f : A -> B) c, res_map f (Panic c) = Panic c) /\
  (forall A B (f : A -> B), res_map f OutOfFuel = OutOfFuel) /\
  (forall A (r m : res A), fuel_approx r m <-> (r = OutOfFuel \/ r = m)) /\
  (forall o, wt_out o <->
     (length (refsrc_Output_input_chaining_value o) = 8%nat /\ length (refsrc_Output_block_words o) = 16%nat)) /\
  (forall c, wt_cs c <->
     (length (refsrc_ChunkState_chaining_value c) = 8%nat /\ length (refsrc_ChunkState_block c) = 64%nat /\
      refsrc_ChunkState_block_len c < 256 /\ refsrc_ChunkState_blocks_compressed c < 256)) /\
  (forall h, wt_h h <->
     (wt_cs (refsrc_Hasher_chunk_state h) /\ length (refsrc_Hasher_key_words h) = 8%nat /\
      Forall (fun cv => length cv = 8%nat) (refsrc_Hasher_cv_stack h) /\ refsrc_Hasher_cv_stack_len h < 256)) /\
  (forall p, cs_pair p = rcs_of_src (fst p)) /\ (forall p, h_pair p = rh_of_src (fst p)) /\
  (forall p, o_pair p = ro_of_src (fst p)) /\
  (forall p, h_cv p = (rh_of_src (fst p), snd p)) /\ (forall p, h_cv3 p = (rh_of_src (fst (fst p)), snd (fst p))) /\
  (forall A s (r : res A), ref_at_site s r = match r with Panic _ => Panic s | _ => r end).
Proof. repeat split; try reflexivity; try (unfold fuel_approx, wt_out, wt_h, wt_cs in *; tauto). Qed.
Print Assumptions C15_ref_src_representation.

(* Output::root_output_bytes: the chunks_mut loop for every fuel (its second component is the final counter) *)
Theorem C15_ref_src_root_output_bytes_loop : forall o, wt_out o -> forall fuel out_slice counter,
  res_map fst (refsrc_Output_root_output_bytes_loop2 fuel o out_slice counter 64) =
  ref_root_loop fuel (ro_of_src o) counter (rlen out_slice).
Proof. exact refsrc_root_loop_eq. Qed.
Print Assumptions C15_ref_src_root_output_bytes_loop.

Theorem C15_ref_src_root_output_bytes : forall o fuel out_slice, wt_out o ->
  refsrc_Output_root_output_bytes fuel o out_slice = ref_root_loop fuel (ro_of_src o) 0 (rlen out_slice).
Proof. exact refsrc_Output_root_output_bytes_eq. Qed.
Print Assumptions C15_ref_src_root_output_bytes.

Theorem C15_ref_src_root_output_bytes_any_fuel : forall fuel o out_slice, wt_out o ->
  fuel_approx (refsrc_Output_root_output_bytes fuel o out_slice) (ro_root_output_bytes (ro_of_src o) (rlen out_slice)).
Proof. exact refsrc_Output_root_output_bytes_any_fuel. Qed.
Print Assumptions C15_ref_src_root_output_bytes_any_fuel.

Theorem C15_ref_src_chunk_state_new : forall key_words chunk_counter flags,
  rcs_of_src (refsrc_ChunkState_new key_words chunk_counter flags) = rcs_new key_words chunk_counter flags.
Proof. exact refsrc_ChunkState_new_eq. Qed.
Print Assumptions C15_ref_src_chunk_state_new.

(* ChunkState::update: the loop and the function for every fuel; the model's rcs_update is the loop at S (length input) *)
Theorem C15_ref_src_chunk_state_update_loop : forall fuel cs input, wt_cs cs ->
  res_map cs_pair (refsrc_ChunkState_update_loop1 fuel cs input) = rcs_update_loop fuel (rcs_of_src cs) input.
Proof. intros fuel cs input H. apply refsrc_cs_update_loop_rel, H. Qed.
Print Assumptions C15_ref_src_chunk_state_update_loop.

Theorem C15_ref_src_chunk_state_update : forall fuel cs input, wt_cs cs ->
  res_map rcs_of_src (refsrc_ChunkState_update fuel cs input) = rcs_update_loop fuel (rcs_of_src cs) input.
Proof. intros fuel cs input H. apply refsrc_ChunkState_update_rel, H. Qed.
Print Assumptions C15_ref_src_chunk_state_update.

Theorem C15_ref_src_chunk_state_update_model : forall cs input, wt_cs cs ->
  res_map rcs_of_src (refsrc_ChunkState_update (S (length input)) cs input) = rcs_update (rcs_of_src cs) input.
Proof. exact refsrc_ChunkState_update_model. Qed.
Print Assumptions C15_ref_src_chunk_state_update_model.

Theorem C15_ref_src_chunk_state_update_any_fuel : forall fuel cs input, wt_cs cs ->
  fuel_approx (res_map rcs_of_src (refsrc_ChunkState_update fuel cs input)) (rcs_update (rcs_of_src cs) input).
Proof. exact refsrc_ChunkState_update_any_fuel. Qed.
Print Assumptions C15_ref_src_chunk_state_update_any_fuel.

Theorem C15_ref_src_chunk_state_output : forall cs, wt_cs cs ->
  res_map ro_of_src (refsrc_ChunkState_output cs) = rcs_output (rcs_of_src cs).
Proof. intros cs H. apply refsrc_ChunkState_output_rel, H. Qed.
Print Assumptions C15_ref_src_chunk_state_output.

Theorem C15_ref_src_new_internal : forall key_words flags,
  rh_of_src (refsrc_Hasher_new_internal key_words flags) = ref_new_internal key_words flags.
Proof. exact refsrc_Hasher_new_internal_eq. Qed.
Print Assumptions C15_ref_src_new_internal.

Theorem C15_ref_src_new : rh_of_src refsrc_Hasher_new = ref_new.
Proof. exact refsrc_Hasher_new_eq. Qed.
Print Assumptions C15_ref_src_new.

Theorem C15_ref_src_new_keyed : forall key,
  res_map rh_of_src (refsrc_Hasher_new_keyed key) = ref_new_keyed key.
Proof. exact refsrc_Hasher_new_keyed_eq. Qed.
Print Assumptions C15_ref_src_new_keyed.

Theorem C15_ref_src_new_derive_key : forall fuel context, (length context + 256 < fuel)%nat ->
  res_map rh_of_src (refsrc_Hasher_new_derive_key fuel context) = ref_new_derive_key context.
Proof. intros fuel context H. apply refsrc_Hasher_new_derive_key_rel, H. Qed.
Print Assumptions C15_ref_src_new_derive_key.

Theorem C15_ref_src_new_derive_key_any_fuel : forall fuel context,
  fuel_approx (res_map rh_of_src (refsrc_Hasher_new_derive_key fuel context)) (ref_new_derive_key context).
Proof. exact refsrc_Hasher_new_derive_key_any_fuel. Qed.
Print Assumptions C15_ref_src_new_derive_key_any_fuel.

Theorem C15_ref_src_push_stack : forall h cv, wt_h h -> length cv = 8%nat ->
  res_map rh_of_src (refsrc_Hasher_push_stack h cv) = ref_push_stack (rh_of_src h) cv.
Proof. intros h cv H1 H2. apply refsrc_Hasher_push_stack_rel; assumption. Qed.
Print Assumptions C15_ref_src_push_stack.

Theorem C15_ref_src_pop_stack : forall h, wt_h h ->
  res_map h_cv (refsrc_Hasher_pop_stack h) = ref_pop_stack (rh_of_src h).
Proof. intros h H. apply refsrc_Hasher_pop_stack_rel, H. Qed.
Print Assumptions C15_ref_src_pop_stack.

(* add_chunk_chaining_value: the loop for every fuel; the function for every fuel against the model's text with the
   fuel as a parameter; the model itself (fuel 320) *)
Theorem C15_ref_src_add_cv_loop : forall fuel h new_cv total_chunks, wt_h h -> length new_cv = 8%nat ->
  res_map h_cv3 (refsrc_Hasher_add_chunk_chaining_value_loop1 fuel h new_cv total_chunks) =
  ref_add_cv_loop fuel (rh_of_src h) new_cv total_chunks.
Proof. intros fuel h new_cv total_chunks H1 H2. apply refsrc_add_cv_loop_rel; assumption. Qed.
Print Assumptions C15_ref_src_add_cv_loop.

Theorem C15_ref_src_add_chunk_chaining_value : forall fuel h new_cv total_chunks, wt_h h -> length new_cv = 8%nat ->
  res_map rh_of_src (refsrc_Hasher_add_chunk_chaining_value fuel h new_cv total_chunks) =
  ('(h, new_cv) <- ref_add_cv_loop fuel (rh_of_src h) new_cv total_chunks ;; ref_push_stack h new_cv).
Proof. intros fuel h new_cv total_chunks H1 H2. apply refsrc_add_chunk_cv_rel; assumption. Qed.
Print Assumptions C15_ref_src_add_chunk_chaining_value.

Theorem C15_ref_src_add_chunk_chaining_value_model : forall h new_cv total_chunks, wt_h h -> length new_cv = 8%nat ->
  res_map rh_of_src (refsrc_Hasher_add_chunk_chaining_value ref_add_cv_fuel h new_cv total_chunks) =
  ref_add_chunk_chaining_value (rh_of_src h) new_cv total_chunks.
Proof. exact refsrc_Hasher_add_chunk_chaining_value_model. Qed.
Print Assumptions C15_ref_src_add_chunk_chaining_value_model.

Theorem C15_ref_src_add_chunk_chaining_value_any_fuel : forall fuel h new_cv total_chunks,
  wt_h h -> length new_cv = 8%nat ->
  fuel_approx (res_map rh_of_src (refsrc_Hasher_add_chunk_chaining_value fuel h new_cv total_chunks))
              (ref_add_chunk_chaining_value (rh_of_src h) new_cv total_chunks).
Proof. exact refsrc_Hasher_add_chunk_chaining_value_any_fuel. Qed.
Print Assumptions C15_ref_src_add_chunk_chaining_value_any_fuel.

(* Hasher::update: the loop with fuel F against the model's loop with fuel f (the inner loops of the translation run
   on F as well, the model's on their own fuel); the function with enough fuel, and with any fuel *)
Theorem C15_ref_src_update_loop : forall f F h input, wt_h h ->
  (length input < f)%nat -> (length input + 256 < F)%nat ->
  res_map h_pair (refsrc_Hasher_update_loop1 F h input) = ref_update_loop f (rh_of_src h) input.
Proof. intros f F h input H1 H2 H3. apply (refsrc_update_loop_rel f F h input H1 H2 H3). Qed.
Print Assumptions C15_ref_src_update_loop.

Theorem C15_ref_src_update : forall fuel h input, wt_h h -> (length input + 256 < fuel)%nat ->
  res_map rh_of_src (refsrc_Hasher_update fuel h input) = ref_update (rh_of_src h) input.
Proof. intros fuel h input H1 H2. apply refsrc_Hasher_update_rel; assumption. Qed.
Print Assumptions C15_ref_src_update.

Theorem C15_ref_src_update_any_fuel : forall fuel h input, wt_h h ->
  fuel_approx (res_map rh_of_src (refsrc_Hasher_update fuel h input)) (ref_update (rh_of_src h) input).
Proof. exact refsrc_Hasher_update_any_fuel. Qed.
Print Assumptions C15_ref_src_update_any_fuel.

Theorem C15_ref_src_update_keeps_types : forall fuel h input h', wt_h h ->
  refsrc_Hasher_update fuel h input = Ok h' -> wt_h h'.
Proof. exact refsrc_Hasher_update_wt. Qed.
Print Assumptions C15_ref_src_update_keeps_types.

(* Hasher::finalize: the loop (the model recurses on parent_nodes_remaining itself), the function *)
Theorem C15_ref_src_finalize_loop : forall fuel h out_slice output n, wt_h h -> wt_out output -> (N.to_nat n <= fuel)%nat ->
  res_map o_pair (refsrc_Hasher_finalize_loop1 fuel h out_slice output n) =
  ref_finalize_loop (N.to_nat n) (rh_of_src h) (ro_of_src output).
Proof. intros F h os o n H1 H2 H3. apply (refsrc_finalize_loop_rel F h os o n H1 H2 H3). Qed.
Print Assumptions C15_ref_src_finalize_loop.

Theorem C15_ref_src_finalize : forall fuel h out_slice, wt_h h ->
  (256 <= fuel)%nat -> (length out_slice <= 64 * fuel)%nat ->
  refsrc_Hasher_finalize fuel h out_slice = ref_finalize (rh_of_src h) (rlen out_slice).
Proof. exact refsrc_Hasher_finalize_eq. Qed.
Print Assumptions C15_ref_src_finalize.

Theorem C15_ref_src_finalize_any_fuel : forall fuel h out_slice, wt_h h ->
  fuel_approx (refsrc_Hasher_finalize fuel h out_slice) (ref_finalize (rh_of_src h) (rlen out_slice)).
Proof. exact refsrc_Hasher_finalize_any_fuel. Qed.
Print Assumptions C15_ref_src_finalize_any_fuel.

(* the TRANSLATED reference implementation computes the specification.
   refsrc_run: the translated constructor of the mode, one translated Hasher::update per piece, the translated
   Hasher::finalize into out_slice.  No hand-written model in the statement. *)
Theorem C15_ref_src_run_def : forall fuel m pieces out_slice,
  refsrc_run fuel m pieces out_slice =
  (h <- match m with
        | SrcHash => Ok refsrc_Hasher_new
        | SrcKeyed k => refsrc_Hasher_new_keyed k
        | SrcDerive c => refsrc_Hasher_new_derive_key fuel c
        end ;;
   h <- refsrc_update_all fuel h pieces ;;
   refsrc_Hasher_finalize fuel h out_slice) /\
  (forall h, refsrc_update_all fuel h [] = Ok h) /\
  (forall h p tl, refsrc_update_all fuel h (p :: tl) =
                  (h <- refsrc_Hasher_update fuel h p ;; refsrc_update_all fuel h tl)) /\
  refsrc_spec_mode m = match m with
                       | SrcHash => Hash
                       | SrcKeyed k => KeyedHash k
                       | SrcDerive c => DeriveKeyMaterial (b3_hash_mode DeriveKeyContext c)
                       end /\
  (refsrc_mode_ok m <-> match m with
                        | SrcHash => True
                        | SrcKeyed k => length k = 32%nat /\ Forall (fun b => b < 256) k
                        | SrcDerive c => len c < 2 ^ 64
                        end) /\
  (refsrc_fuel_ok fuel m pieces out_slice <->
   (length (concat pieces) + match m with SrcDerive c => length c | _ => 0%nat end + length out_slice + 256 < fuel)%nat).
Proof.
  intros. destruct m; repeat split; try reflexivity;
    try (unfold refsrc_mode_ok, refsrc_fuel_ok in *; cbn [refsrc_context_len] in *; tauto).
Qed.
Print Assumptions C15_ref_src_run_def.

Theorem C15_ref_src_run_is_model : forall fuel m pieces out_slice, refsrc_fuel_ok fuel m pieces out_slice ->
  refsrc_run fuel m pieces out_slice = ref_run (ref_mode_of_src m) pieces (rlen out_slice).
Proof. exact refsrc_run_model. Qed.
Print Assumptions C15_ref_src_run_is_model.

Theorem C15_ref_src_run_spec : forall fuel m pieces out_slice,
  refsrc_mode_ok m -> len (concat pieces) < 2 ^ 64 -> len out_slice < 2 ^ 64 ->
  refsrc_fuel_ok fuel m pieces out_slice ->
  refsrc_run fuel m pieces out_slice =
  Ok (b3_xof_mode (refsrc_spec_mode m) (concat pieces) 0 (length out_slice)).
Proof. exact refsrc_run_spec. Qed.
Print Assumptions C15_ref_src_run_spec.

(* with any fuel: OutOfFuel or the specification's output, never another value or a Panic *)
Theorem C15_ref_src_run_any_fuel : forall fuel m pieces out_slice,
  refsrc_mode_ok m -> len (concat pieces) < 2 ^ 64 -> len out_slice < 2 ^ 64 ->
  fuel_approx (refsrc_run fuel m pieces out_slice)
              (Ok (b3_xof_mode (refsrc_spec_mode m) (concat pieces) 0 (length out_slice))).
Proof. exact refsrc_run_any_fuel. Qed.
Print Assumptions C15_ref_src_run_any_fuel.

(* non-vacuity: the translation runs, and its stack bound is real (a 55th push panics with the model's code) *)
Example C15_ref_src_nonvacuous :
  (let key := map N.of_nat (seq 0 32) in
   let pieces := [map (fun i => N.of_nat i mod 251) (seq 0 1100); map (fun i => N.of_nat i mod 251) (seq 1100 400)] in
   is_ok (refsrc_run 2000 (SrcKeyed key) pieces (repeat 0 70)) = true /\
   refsrc_fuel_ok 2000 (SrcKeyed key) pieces (repeat 0 70) /\ refsrc_mode_ok (SrcKeyed key)) /\
  refsrc_Hasher_push_stack (refsrc_Hasher_mk (refsrc_ChunkState_new ref_IV 0 0) ref_IV (repeat (repeat 0 8) 54) 54 0)
    (repeat 0 8) = Panic 71 /\
  refsrc_Hasher_pop_stack refsrc_Hasher_new = Panic 72 /\
  refsrc_run 0 SrcHash [[1; 2; 3]] (repeat 0 32) = OutOfFuel /\ is_ok (refsrc_run 3 SrcHash [[1; 2; 3]] (repeat 0 32)) = true.
Proof.
  split; [exact refsrc_run_example|]. repeat split; vm_compute; reflexivity.
Qed.
Print Assumptions C15_ref_src_nonvacuous.
