(* C02: incremental hashing is independent of input splitting; finalize is a pure query.
   K / F are the key words and mode flags of any mode (IV/0, key/KEYED_HASH,
   context key/DERIVE_KEY_MATERIAL): root_output of the mode is subtree_output at counter 0. *)
From Coq Require Import NArith List Bool.
From V Require Import Base.Res Base.Word Spec.Compress Spec.Tree Spec.Blake3 Model.Platform Model.RsChunk
  Model.RsHasher Model.RsXof Model.RsIo Model.Machine Model.SpecMachine Proofs.IoP Proofs.HasherP Proofs.C02P Proofs.MachineRefinesP Proofs.ExamplesP.
Import ListNotations.
Open Scope N_scope.

Theorem C02_root_output_of_mode : forall m input,
  b3_root_output m input = subtree_output spec_c8 tree_height (mode_key m) (mode_flags m) 0 input.
Proof. reflexivity. Qed.

(* any sequence of update calls, then count / finalize / finalize_xof: exactly the concatenation *)
Theorem C02_hasher_refines : forall p, PlatformOK p -> forall K F, length K = 8%nat -> forall pieces,
  len (concat pieces) < 2 ^ 64 ->
  exists h, updates p (new_internal K F) pieces = Ok h /\
    hasher_count h = Ok (len (concat pieces)) /\
    hasher_finalize_output p h = Ok (subtree_output spec_c8 tree_height K F 0 (concat pieces)) /\
    hasher_finalize p h = Ok (stream spec_c64 (subtree_output spec_c8 tree_height K F 0 (concat pieces)) 0 32).
Proof. exact hasher_refines. Qed.

(* one update step keeps the invariant "this state has absorbed exactly bs" *)
Theorem C02_update_step : forall p, PlatformOK p -> forall K F, length K = 8%nat -> forall h bs input,
  InvS K F 0 h bs -> len (bs ++ input) < 2 ^ 64 ->
  exists h', hasher_update p h input = Ok h' /\ InvS K F 0 h' (bs ++ input).
Proof. exact Inv0_update. Qed.

(* call histories over any number of instances: update / clone / finalize / finalize_xof / count /
   reset / new in any order give exactly the observations of the abstract machine that keeps one
   byte list per instance (finalize* and count leave every state unchanged; clones are independent) *)
Theorem C02_history_refines : forall p, PlatformOK p -> forall K F, length K = 8%nat ->
  forall pn m ops hs rs vs abs obs,
  Forall2 (InvS K F 0) hs abs -> arun_h K F abs ops = Some obs ->
  run_ops p pn m K F (mkState hs rs vs) (map hop_op ops) [] = (obs, Ok tt).
Proof. exact history_refines. Qed.

Theorem C02_new_is_empty : forall p, PlatformOK p -> forall K F, length K = 8%nat ->
  InvS K F 0 (new_internal K F) [].
Proof. intros p _ K F _. apply new_internal_Inv. Qed.

(* non-vacuity: a concrete history on a concrete platform *)
Example C02_nonvacuous :
  let p := sim_platform 4 16 in
  let pieces := [map N.of_nat (seq 0 100); repeat 7 3000; []; repeat 9 1025] in
  exists h, updates p (new_internal IV 0) pieces = Ok h /\ hasher_count h = Ok 4125 /\
            length (h_stack h) = 1%nat.
Proof.
  intros p pieces.
  destruct (res_image (fun h => (hasher_count h, length (h_stack h))) (updates p (new_internal IV 0) pieces)
              (Ok 4125, 1%nat)) as [h [U E]]; [lazy; reflexivity|].
  exists h. injection E as C S. auto.
Qed.

(* the functions of the modelled source are exactly the functions the model was written against
   (gen/GenApi.v is regenerated from /repo on every run; see Model/ApiSurface.v) *)
From V Require gen.GenApi Model.ApiSurface.
Theorem C02_api_lib_core : GenApi.api_lib_core = ApiSurface.expected_lib_core.
Proof. reflexivity. Qed.

Print Assumptions C02_api_lib_core.
Print Assumptions C02_root_output_of_mode.
(* END TO END, over the whole case language: whenever the specification-only machine (Model/SpecMachine.v: one byte
   list + input offset per hasher, (root output, position) per reader, nothing but Spec/) accepts a history of
   new / update / write / finalize / finalize_xof / count / clone / reset / set_input_offset / finalize_non_root /
   one-shot functions / merge_subtrees_* / hash_derive_key_context / OutputReader fill, read, position, set_position,
   seek, clone / RustCrypto trait operations, over any number of hasher and reader instances, the implementation
   machine produces exactly the same observations and does not panic, on every PlatformOK platform *)
Theorem C02_machine_refines_spec : forall p, PlatformOK p -> forall pname m ops obs,
  mode_ok m -> spec_run_case m ops = Some obs -> Machine.run_case p pname m ops = (obs, Ok tt).
Proof. exact machine_refines_spec. Qed.

Print Assumptions C02_hasher_refines.
Print Assumptions C02_machine_refines_spec.
Print Assumptions C02_update_step.
Print Assumptions C02_history_refines.
Print Assumptions C02_new_is_empty.
Print Assumptions C02_nonvacuous.

(* the model against the source text: the small functions of src/lib.rs.
   gen/GenLibSmall.v is the text of struct Output / ChunkState, Output::chaining_value / root_hash /
   root_output_block, ChunkState::new / start_flag, parent_node_output, Hasher::new_internal (src/lib.rs) and
   platform::le_bytes_from_words_32 (src/platform.rs), translated statement by statement (tools/gen_coq.py
   gen_lib_small): which platform function is called with which arguments (cv, block, block_len, counter,
   flags | ROOT), block = left ++ right, BLOCK_LEN, counter 0, flags | PARENT are the source's.  Each equals the
   definition of Model/RsChunk.v (or the specification's parent_output the models use), for all arguments; the
   source's records carry the platform, which the models pass separately. *)
From V Require Import Base.Arr gen.GenLibSmall Proofs.GenLibSmallP.

Theorem C02_lib_src_records : forall cv block bl ctr fl p buf buf_len blocks,
  out_of_lib (lib_Output_mk cv block bl ctr fl p) = mkOutput cv block bl ctr fl /\
  cs_of_lib (lib_ChunkState_mk cv ctr buf buf_len blocks fl p) = mkCS cv ctr buf buf_len blocks fl.
Proof. intros. split; reflexivity. Qed.
Print Assumptions C02_lib_src_records.

Theorem C02_lib_src_le_bytes_from_words_32 : forall words, length words = 8%nat ->
  lib_le_bytes_from_words_32 words = bytes_of_words words.
Proof. exact lib_le_bytes_from_words_32_eq. Qed.
Print Assumptions C02_lib_src_le_bytes_from_words_32.

Theorem C02_lib_src_output_chaining_value : forall o,
  PlatformOK (lib_Output_platform o) -> length (lib_Output_input_chaining_value o) = 8%nat ->
  lib_Output_chaining_value o = out_chaining_value (lib_Output_platform o) (out_of_lib o).
Proof. exact lib_Output_chaining_value_eq. Qed.
Print Assumptions C02_lib_src_output_chaining_value.

(* the model's assert 1300 is the source's debug_assert_eq!(self.counter, 0) *)
Theorem C02_lib_src_output_root_hash : forall o,
  PlatformOK (lib_Output_platform o) -> length (lib_Output_input_chaining_value o) = 8%nat ->
  out_root_hash (lib_Output_platform o) (out_of_lib o) =
  if lib_Output_root_hash_debug_assert o then Ok (lib_Output_root_hash o) else Panic 1300.
Proof. exact lib_Output_root_hash_eq. Qed.
Print Assumptions C02_lib_src_output_root_hash.

Theorem C02_lib_src_output_root_output_block : forall o,
  lib_Output_root_output_block o = out_root_output_block (lib_Output_platform o) (out_of_lib o).
Proof. exact lib_Output_root_output_block_eq. Qed.
Print Assumptions C02_lib_src_output_root_output_block.

Theorem C02_lib_src_chunk_state_new : forall key chunk_counter flags p,
  cs_of_lib (lib_ChunkState_new key chunk_counter flags p) = cs_new key chunk_counter flags /\
  lib_ChunkState_platform (lib_ChunkState_new key chunk_counter flags p) = p.
Proof. split; reflexivity. Qed.
Print Assumptions C02_lib_src_chunk_state_new.

Theorem C02_lib_src_chunk_state_start_flag : forall c,
  lib_ChunkState_start_flag c = Ok (cs_start_flag (cs_of_lib c)).
Proof. exact lib_ChunkState_start_flag_eq. Qed.
Print Assumptions C02_lib_src_chunk_state_start_flag.

Theorem C02_lib_src_parent_node_output : forall left_child right_child key flags p,
  length left_child = 32%nat -> length right_child = 32%nat ->
  out_of_lib (lib_parent_node_output left_child right_child key flags p) = parent_output key flags left_child right_child /\
  lib_Output_platform (lib_parent_node_output left_child right_child key flags p) = p.
Proof. exact lib_parent_node_output_eq. Qed.
Print Assumptions C02_lib_src_parent_node_output.

(* Hasher::new_internal; the platform Platform::detect() returns is a parameter of the translation (the models take
   the platform as an argument of every operation); cv_stack: ArrayVec::new() is the empty stack *)
Theorem C02_lib_src_hasher_new_internal : forall key flags p,
  hasher_of_lib (lib_Hasher_new_internal key flags p) = new_internal key flags /\
  lib_ChunkState_platform (lib_Hasher_chunk_state (lib_Hasher_new_internal key flags p)) = p.
Proof. split; reflexivity. Qed.
Print Assumptions C02_lib_src_hasher_new_internal.

(* the model against the source text: the loop-carrying core of the incremental hasher.
   gen/GenLibLoops.v is the text of ChunkState::count / fill_buf / output / update and Hasher::merge_cv_stack /
   push_cv / reset / final_output / finalize / finalize_xof / count (src/lib.rs), translated statement by statement
   (tools/gen_coq.py gen_lib_loops): every `while c { body }` is a Fixpoint on explicit fuel (condition first,
   OutOfFuel when the condition holds and the fuel is exhausted, then the body's statements in source order), slices
   are firstn / skipn with their bounds checks, ArrayVec push / pop().unwrap() / index / clear are the list operations
   of Base/ArrayVec.v (the vector in index order) with the Panic codes the models use, the debug_assert! / assert_eq!
   macros carry the models' codes, and the functions that are called but not translated there (parent_node_output,
   Output::chaining_value, Output::root_hash, OutputReader::new) are explicit parameters, instantiated below with the
   models' (m_parent_node_output = the specification's parent_output, m_Output_chaining_value = out_chaining_value,
   m_Output_root_hash = out_root_hash; parent_node_output / chaining_value / root_hash themselves are tied to these
   by the C02_lib_src_* theorems above).  Each translated function EQUALS the hand-written model function
   (Model/RsChunk.v, Model/RsHasher.v) on every argument and every fuel value, including the Panic and OutOfFuel
   results.  Hypotheses are type invariants of the source only (a u8 field is below 2^8 / 2^64, an ArrayVec never
   holds more than its capacity).  A translated record carries the platform, the models take it as an argument:
   lib_of_cs / lib_of_out / lib_of_hasher build the translated record from the model's and the platform; the
   ArrayVec is the model's stack (top first) reversed. *)
From V Require Import Base.MachInt Base.ArrayVec gen.GenConsts gen.GenFormulas gen.GenLibLoops Proofs.GenLibLoopsP.

Theorem C02_lib_src_loops_repr_def :
  (forall p o, lib_of_out p o = lib_Output_mk (o_cv o) (o_block o) (o_blen o) (o_ctr o) (o_flags o) p) /\
  (forall p c, lib_of_cs p c = lib_ChunkState_mk (cs_cv c) (cs_ctr c) (cs_buf c) (cs_buf_len c) (cs_blocks c) (cs_flags c) p) /\
  (forall p h, lib_of_hasher p h = lib_Hasher_mk (h_key h) (lib_of_cs p (h_cs h)) (h_init h) (rev (h_stack h))) /\
  (forall h, hasher_of_lib h = mkHasher (lib_Hasher_key h) (cs_of_lib (lib_Hasher_chunk_state h))
                                        (lib_Hasher_initial_chunk_counter h) (rev (lib_Hasher_cv_stack h))) /\
  (forall c, lib_of_cs (lib_ChunkState_platform c) (cs_of_lib c) = c) /\ (forall p c, cs_of_lib (lib_of_cs p c) = c) /\
  (forall o, lib_of_out (lib_Output_platform o) (out_of_lib o) = o) /\ (forall p o, out_of_lib (lib_of_out p o) = o) /\
  (forall h, lib_of_hasher (lib_ChunkState_platform (lib_Hasher_chunk_state h)) (hasher_of_lib h) = h) /\
  (forall p h, hasher_of_lib (lib_of_hasher p h) = h) /\
  (forall l r key flags p, m_parent_node_output l r key flags p = lib_of_out p (parent_output key flags l r)) /\
  (forall o, m_Output_chaining_value o = out_chaining_value (lib_Output_platform o) (out_of_lib o)) /\
  (forall o, m_Output_root_hash o = out_root_hash (lib_Output_platform o) (out_of_lib o)) /\
  (forall (A B : Type) (f : A -> B) r,
     GenLibLoopsP.res_map f r = match r with Ok a => Ok (f a) | Panic c => Panic c | OutOfFuel => OutOfFuel end).
Proof.
  split; [reflexivity|]. split; [reflexivity|]. split; [reflexivity|]. split; [reflexivity|].
  split; [exact lib_of_cs_of_lib|]. split; [exact cs_of_lib_of_cs|].
  split; [exact lib_of_out_of_lib|]. split; [exact out_of_lib_of_out|].
  split; [exact lib_of_hasher_of_lib|]. split; [exact hasher_of_lib_of_hasher|].
  split; [reflexivity|]. split; [reflexivity|]. split; reflexivity.
Qed.
Print Assumptions C02_lib_src_loops_repr_def.

(* the ArrayVec operations the translation uses *)
Theorem C02_lib_src_arrayvec_def : forall (A : Type) (cap : N) (v : list A) (x : A) (i : N),
  av_len v = N.of_nat (length v) /\
  av_push cap v x = (if av_len v <? cap then Ok (v ++ [x]) else Panic 51) /\
  av_pop_unwrap (v ++ [x]) = Ok (v, x) /\ av_pop_unwrap (@nil A) = Panic 50 /\
  av_index v i = match nth_error v (N.to_nat i) with Some y => Ok y | None => Panic 53 end.
Proof.
  intros. split; [reflexivity|]. split; [unfold av_push; destruct (av_len v <? cap); reflexivity|].
  split; [apply av_pop_unwrap_snoc|]. split; reflexivity.
Qed.
Print Assumptions C02_lib_src_arrayvec_def.

Theorem C02_lib_src_chunk_state_count : forall p c, lib_ChunkState_count (lib_of_cs p c) = cs_count c.
Proof. exact lib_ChunkState_count_eq. Qed.
Print Assumptions C02_lib_src_chunk_state_count.

Theorem C02_lib_src_chunk_state_fill_buf : forall p c input, cs_buf_len c < 2 ^ 64 ->
  lib_ChunkState_fill_buf (lib_of_cs p c) input
  = GenLibLoopsP.res_map (fun r => (lib_of_cs p (fst r), snd r)) (cs_fill_buf c input).
Proof. exact fill_buf_eq. Qed.
Print Assumptions C02_lib_src_chunk_state_fill_buf.

Theorem C02_lib_src_chunk_state_output : forall p c,
  lib_ChunkState_output (lib_of_cs p c) = Ok (lib_of_out p (cs_output c)).
Proof. exact output_eq. Qed.
Print Assumptions C02_lib_src_chunk_state_output.

(* the `while input.len() > BLOCK_LEN` loop, every fuel *)
Theorem C02_lib_src_chunk_state_update_loop : forall p fuel c input,
  lib_ChunkState_update_loop1 fuel (lib_of_cs p c) input
  = GenLibLoopsP.res_map (fun r => (lib_of_cs p (fst r), snd r)) (cs_update_loop fuel p c input).
Proof. exact update_loop_eq. Qed.
Print Assumptions C02_lib_src_chunk_state_update_loop.

(* ChunkState::update.  The model computes the fuel of its block loop (S (length input / 64), after the buffered
   flush); cs_update_with is cs_update with that fuel as a parameter, and equals cs_update as soon as the fuel covers
   the input.  The translated function equals cs_update_with at every fuel. *)
Theorem C02_lib_src_cs_update_with_def : forall fuel p cs input,
  cs_update_with fuel p cs input =
  ('(cs, input) <-
    (if 0 <? cs_buf_len cs then
       '(cs, input) <- cs_fill_buf cs input ;;
       if negb (nlen input =? 0) then
         assert! (cs_buf_len cs =? rs_BLOCK_LEN) code 1302 ;;
         let block_flags := N.lor (cs_flags cs) (cs_start_flag cs) in
         let cv := p_compress_in_place p (cs_cv cs) (cs_buf cs) rs_BLOCK_LEN (cs_ctr cs) block_flags in
         blocks <- mi_add 8 (cs_blocks cs) 1 ;;
         Ok (mkCS cv (cs_ctr cs) zero_block 0 blocks (cs_flags cs), input)
       else Ok (cs, input)
     else Ok (cs, input)) ;;
   '(cs, input) <- cs_update_loop fuel p cs input ;;
   '(cs, input) <- cs_fill_buf cs input ;;
   assert! (nlen input =? 0) code 1303 ;;
   c <- cs_count cs ;;
   assert! (c <=? rs_CHUNK_LEN) code 1304 ;;
   Ok cs).
Proof. reflexivity. Qed.
Print Assumptions C02_lib_src_cs_update_with_def.

Theorem C02_lib_src_cs_update_with_enough : forall p fuel c input, (length input < 64 * fuel)%nat ->
  cs_update_with fuel p c input = cs_update p c input.
Proof. exact cs_update_with_enough. Qed.
Print Assumptions C02_lib_src_cs_update_with_enough.

Theorem C02_lib_src_chunk_state_update_fuel : forall p fuel c input, cs_buf_len c < 2 ^ 64 ->
  lib_ChunkState_update fuel (lib_of_cs p c) input = GenLibLoopsP.res_map (lib_of_cs p) (cs_update_with fuel p c input).
Proof. exact lib_ChunkState_update_eq. Qed.
Print Assumptions C02_lib_src_chunk_state_update_fuel.

Theorem C02_lib_src_chunk_state_update : forall p fuel c input, cs_buf_len c < 2 ^ 64 -> (length input < 64 * fuel)%nat ->
  lib_ChunkState_update fuel (lib_of_cs p c) input = GenLibLoopsP.res_map (lib_of_cs p) (cs_update p c input).
Proof. exact lib_ChunkState_update_model. Qed.
Print Assumptions C02_lib_src_chunk_state_update.

(* Hasher::merge_cv_stack: the `while self.cv_stack.len() > post_merge_stack_len` loop at every fuel (the model's
   merge_loop works on the stack alone: set_stack puts it back into the hasher), then the function (the model runs
   the loop with fuel 64) *)
Theorem C02_lib_src_merge_loop : forall p cc fuel h st target, N.of_nat (length st) <= rs_cv_stack_cap ->
  lib_Hasher_merge_cv_stack_loop1 m_parent_node_output m_Output_chaining_value fuel
    (lib_of_hasher p (mkHasher (h_key h) (h_cs h) (h_init h) st)) cc target
  = GenLibLoopsP.res_map (fun st' => lib_of_hasher p (mkHasher (h_key h) (h_cs h) (h_init h) st'))
      (merge_loop fuel p h st target).
Proof. intros p cc fuel h st target H. exact (merge_loop_gen p _ _ _ _ (ext_m p) cc fuel h st target H (Forall_GT st) (key_ok_T h)). Qed.
Print Assumptions C02_lib_src_merge_loop.

Theorem C02_lib_src_merge_cv_stack_fuel : forall p fuel h cc, N.of_nat (length (h_stack h)) <= rs_cv_stack_cap ->
  lib_Hasher_merge_cv_stack m_parent_node_output m_Output_chaining_value fuel (lib_of_hasher p h) cc
  = GenLibLoopsP.res_map (lib_of_hasher p)
      (target <- rs_post_merge_len cc (h_init h) ;;
       st <- merge_loop fuel p h (h_stack h) target ;;
       Ok (mkHasher (h_key h) (h_cs h) (h_init h) st)).
Proof. exact lib_Hasher_merge_cv_stack_eq. Qed.
Print Assumptions C02_lib_src_merge_cv_stack_fuel.

Theorem C02_lib_src_merge_cv_stack : forall p h cc, N.of_nat (length (h_stack h)) <= rs_cv_stack_cap ->
  lib_Hasher_merge_cv_stack m_parent_node_output m_Output_chaining_value 64 (lib_of_hasher p h) cc
  = GenLibLoopsP.res_map (lib_of_hasher p) (merge_cv_stack p h cc).
Proof. intros p h cc H. exact (lib_Hasher_merge_cv_stack_eq p 64 h cc H). Qed.
Print Assumptions C02_lib_src_merge_cv_stack.

Theorem C02_lib_src_push_cv_fuel : forall p fuel h new_cv cc, N.of_nat (length (h_stack h)) <= rs_cv_stack_cap ->
  lib_Hasher_push_cv m_parent_node_output m_Output_chaining_value fuel (lib_of_hasher p h) new_cv cc
  = GenLibLoopsP.res_map (lib_of_hasher p)
      (h <- (target <- rs_post_merge_len cc (h_init h) ;;
             st <- merge_loop fuel p h (h_stack h) target ;;
             Ok (mkHasher (h_key h) (h_cs h) (h_init h) st)) ;;
       assert! (N.of_nat (length (h_stack h)) <? rs_cv_stack_cap) code 51 ;;
       Ok (mkHasher (h_key h) (h_cs h) (h_init h) (new_cv :: h_stack h))).
Proof. intros p fuel h new_cv cc H. exact (ResP.rsim_eq _ _ _ _ (lib_Hasher_push_cv_sim p fuel h new_cv cc H)). Qed.
Print Assumptions C02_lib_src_push_cv_fuel.

Theorem C02_lib_src_push_cv : forall p h new_cv cc, N.of_nat (length (h_stack h)) <= rs_cv_stack_cap ->
  lib_Hasher_push_cv m_parent_node_output m_Output_chaining_value 64 (lib_of_hasher p h) new_cv cc
  = GenLibLoopsP.res_map (lib_of_hasher p) (push_cv p h new_cv cc).
Proof. intros p h new_cv cc H. exact (ResP.rsim_eq _ _ _ _ (lib_Hasher_push_cv_sim p 64 h new_cv cc H)). Qed.
Print Assumptions C02_lib_src_push_cv.

Theorem C02_lib_src_hasher_reset : forall p h, lib_Hasher_reset (lib_of_hasher p h) = lib_of_hasher p (hasher_reset h).
Proof. reflexivity. Qed.
Print Assumptions C02_lib_src_hasher_reset.

(* Hasher::count: the source evaluates (chunk_counter - initial_chunk_counter) * CHUNK_LEN before chunk_state.count(),
   the model the other way round; for u8 fields chunk_state.count() cannot fail, so the order does not show *)
Theorem C02_lib_src_hasher_count : forall p h, cs_blocks (h_cs h) < 2 ^ 8 -> cs_buf_len (h_cs h) < 2 ^ 8 ->
  lib_Hasher_count (lib_of_hasher p h) = hasher_count h.
Proof. exact lib_Hasher_count_eq. Qed.
Print Assumptions C02_lib_src_hasher_count.

(* Hasher::final_output.  The `while num_cvs_remaining > 0` loop at every fuel: with l the remaining entries (top
   first; the ArrayVec is rev l ++ w) it is the model's final_fold over l when the fuel covers l, OutOfFuel otherwise *)
Theorem C02_lib_src_final_output_loop : forall p h l fuel w o,
  lib_Hasher_final_output_loop1 m_parent_node_output m_Output_chaining_value fuel
    (lib_Hasher_mk (h_key h) (lib_of_cs p (h_cs h)) (h_init h) (rev l ++ w)) (lib_of_out p o) (N.of_nat (length l))
  = if Nat.leb (length l) fuel then Ok (lib_of_out p (final_fold p h o l), 0) else OutOfFuel.
Proof. intros p h l fuel w o. exact (final_loop_gen p _ _ _ _ (ext_m p) h (key_ok_T h) l fuel w o (Forall_GT l) I). Qed.
Print Assumptions C02_lib_src_final_output_loop.

(* the function.  One place where the model is shaped differently from the source: with exactly one entry on the
   stack and an empty chunk state the source's debug_assert!(self.cv_stack.len() >= 2) fires first (code 1406 in the
   translation), the model goes straight to the index panic that follows in every build (Panic 53); everywhere else
   the two are equal *)
Theorem C02_lib_src_final_output : forall p fuel h, (length (h_stack h) <= fuel)%nat ->
  (forall a, h_stack h = [a] -> cs_count (h_cs h) <> Ok 0) ->
  lib_Hasher_final_output m_parent_node_output m_Output_chaining_value fuel (lib_of_hasher p h)
  = GenLibLoopsP.res_map (lib_of_out p) (final_output p h).
Proof. exact lib_Hasher_final_output_eq. Qed.
Print Assumptions C02_lib_src_final_output.

Theorem C02_lib_src_final_output_one : forall p fuel h a, h_stack h = [a] -> cs_count (h_cs h) = Ok 0 ->
  lib_Hasher_final_output m_parent_node_output m_Output_chaining_value fuel (lib_of_hasher p h) = Panic 1406 /\
  final_output p h = Panic 53.
Proof. intros p. apply final_output_one_gen. Qed.
Print Assumptions C02_lib_src_final_output_one.

Theorem C02_lib_src_finalize : forall p fuel h, (length (h_stack h) <= fuel)%nat ->
  (forall a, h_stack h = [a] -> cs_count (h_cs h) <> Ok 0) ->
  lib_Hasher_finalize m_parent_node_output m_Output_chaining_value m_Output_root_hash fuel (lib_of_hasher p h)
  = hasher_finalize p h.
Proof. exact lib_Hasher_finalize_eq. Qed.
Print Assumptions C02_lib_src_finalize.

(* finalize_xof: OutputReader::new is a parameter of the translation; the model's hasher_finalize_output returns the
   root Output the reader is built from *)
Theorem C02_lib_src_finalize_xof : forall p fuel h, (length (h_stack h) <= fuel)%nat ->
  (forall a, h_stack h = [a] -> cs_count (h_cs h) <> Ok 0) ->
  lib_Hasher_finalize_xof m_parent_node_output m_Output_chaining_value out_of_lib fuel (lib_of_hasher p h)
  = hasher_finalize_output p h.
Proof. exact lib_Hasher_finalize_xof_eq. Qed.
Print Assumptions C02_lib_src_finalize_xof.

(* the same functions with the parameters instantiated by the TRANSLATED parent_node_output / Output::chaining_value of
   gen/GenLibSmall.v instead of the models' stand-ins: every line is then the source's.  These hold on a PlatformOK
   platform for hashers of the declared shapes (8-word key and chunk-state cv, 32-byte stack entries). *)
Theorem C02_lib_src_merge_cv_stack_closed : forall p, PlatformOK p -> forall fuel h cc,
  N.of_nat (length (h_stack h)) <= rs_cv_stack_cap ->
  Forall (fun cv => length cv = 32%nat) (h_stack h) -> length (h_key h) = 8%nat ->
  lib_Hasher_merge_cv_stack lib_parent_node_output lib_Output_chaining_value fuel (lib_of_hasher p h) cc
  = GenLibLoopsP.res_map (lib_of_hasher p)
      (target <- rs_post_merge_len cc (h_init h) ;;
       st <- merge_loop fuel p h (h_stack h) target ;;
       Ok (mkHasher (h_key h) (h_cs h) (h_init h) st)).
Proof.
  intros p OK fuel h cc Hcap HG Hk. exact (ResP.rsim_eq _ _ _ _ (merge_cv_stack_gen p _ _ _ _ (ext_src p OK) fuel h cc Hcap HG (src_key_ok h Hk))).
Qed.
Print Assumptions C02_lib_src_merge_cv_stack_closed.

Theorem C02_lib_src_push_cv_closed : forall p, PlatformOK p -> forall h new_cv cc,
  N.of_nat (length (h_stack h)) <= rs_cv_stack_cap ->
  Forall (fun cv => length cv = 32%nat) (h_stack h) -> length (h_key h) = 8%nat ->
  lib_Hasher_push_cv lib_parent_node_output lib_Output_chaining_value 64 (lib_of_hasher p h) new_cv cc
  = GenLibLoopsP.res_map (lib_of_hasher p) (push_cv p h new_cv cc).
Proof.
  intros p OK h new_cv cc Hcap HG Hk. exact (ResP.rsim_eq _ _ _ _ (push_cv_gen p _ _ _ _ (ext_src p OK) 64 h new_cv cc Hcap HG (src_key_ok h Hk))).
Qed.
Print Assumptions C02_lib_src_push_cv_closed.

Theorem C02_lib_src_final_output_closed : forall p, PlatformOK p -> forall fuel h, (length (h_stack h) <= fuel)%nat ->
  (forall a, h_stack h = [a] -> cs_count (h_cs h) <> Ok 0) ->
  Forall (fun cv => length cv = 32%nat) (h_stack h) -> length (h_key h) = 8%nat -> length (cs_cv (h_cs h)) = 8%nat ->
  lib_Hasher_final_output lib_parent_node_output lib_Output_chaining_value fuel (lib_of_hasher p h)
  = GenLibLoopsP.res_map (lib_of_out p) (final_output p h).
Proof.
  intros p OK fuel h Hf H1 HG Hk Hcs. exact (final_output_gen p _ _ _ _ (ext_src p OK) fuel h Hf H1 HG (src_key_ok h Hk) Hcs).
Qed.
Print Assumptions C02_lib_src_final_output_closed.

(* the model against the source text: Hasher::update_with_join / Hasher::update.
   gen/GenLibWide.v also holds the text of Hasher::update_with_join and Hasher::update (= update_with_join::<SerialJoin>),
   translated statement by statement (tools/gen_coq.py gen_lib_wide): the offset check against hazmat::max_subtree_len
   (`if let Some(max) = ..` is a match on the formula rs_max_subtree_len), the "finish the partial chunk" prefix with
   its nested `return self` (an `early : option Hasher` component of the two `if`s, then `match early`), the
   `while input.len() > CHUNK_LEN` subtree loop (lib_Hasher_update_with_join_loop2) with the shrink loop
   `while (subtree_len - 1) as u64 & count_so_far != 0 { subtree_len /= 2 }` INSIDE it (.._loop1), the single-chunk /
   parent-node arms with their push_cv calls, the counter update, and the trailing chunk_state.update + merge_cv_stack.
   Each slice index has its bounds assert; the Panic codes are the ones of Model/RsHasher.v (1407 is the source's
   debug_assert_eq!(CHUNK_LEN.count_ones(), 1), which is the constant true).  The translated functions EQUAL the models
   with the translation's single fuel (update_loop_with / hasher_update_with, defining equations below) on every
   hasher of the declared shape, every input below 2^64 bytes and every fuel; those refine Model/RsHasher.v's
   update_loop / hasher_update as soon as the fuel covers the input.  plat_wf p (Props/C01.v) is proved for the
   platforms with the portable kernels. *)
From V Require Import Base.Slice gen.GenLibWide Model.RsWide Proofs.GenLibWideP.

Theorem C02_lib_src_update_loop_with_def : forall fuel p h input,
  update_loop_with fuel p h input =
  if nlen input <=? rs_CHUNK_LEN then Ok (h, input)
  else match fuel with
  | O => OutOfFuel
  | S fuel' =>
      let cs := h_cs h in
      c <- cs_count cs ;;
      assert! (c =? 0) code 1401 ;;
      subtree_len <- rs_largest_power_of_two_leq (nlen input) ;;
      count_so_far <- rs_count_so_far (cs_ctr cs) ;;
      subtree_len <- shrink_loop fuel' subtree_len count_so_far ;;
      subtree_chunks <- rs_subtree_chunks subtree_len ;;
      assert! (subtree_len <=? nlen input) code 52 ;;
      h <- (if subtree_len <=? rs_CHUNK_LEN then
              assert! (subtree_len =? rs_CHUNK_LEN) code 1402 ;;
              cs1 <- cs_update_with fuel' p (cs_new (h_key h) (cs_ctr cs) (cs_flags cs)) (firstn (N.to_nat subtree_len) input) ;;
              push_cv_with fuel' p h (out_chaining_value p (cs_output cs1)) (cs_ctr cs)
            else
              cv_pair <- compress_subtree_to_parent_node_with fuel' p (firstn (N.to_nat subtree_len) input) (h_key h)
                           (cs_ctr cs) (cs_flags cs) ;;
              assert! (64 <=? nlen cv_pair) code 54 ;;
              h <- push_cv_with fuel' p h (firstn 32 cv_pair) (cs_ctr cs) ;;
              rc <- rs_right_cv_counter (cs_ctr cs) subtree_chunks ;;
              push_cv_with fuel' p h (firstn 32 (skipn 32 cv_pair)) rc) ;;
      ctr' <- mi_add 64 (cs_ctr cs) subtree_chunks ;;
      let cs' := mkCS (cs_cv cs) ctr' (cs_buf cs) (cs_buf_len cs) (cs_blocks cs) (cs_flags cs) in
      update_loop_with fuel' p (with_cs h cs') (skipn (N.to_nat subtree_len) input)
  end.
Proof. intros [|fuel]; reflexivity. Qed.
Print Assumptions C02_lib_src_update_loop_with_def.

Theorem C02_lib_src_hasher_update_with_def : forall fuel p h input,
  hasher_update_with fuel p h input =
  (input_offset <- rs_input_offset (h_init h) ;;
   msl <- rs_max_subtree_len input_offset ;;
   _ <- (match msl with
         | Some max =>
             cnt <- hasher_count h ;;
             remaining <- mi_sub 64 max cnt ;;
             assert! (nlen input <=? remaining) code 21 ;;
             Ok tt
         | None => Ok tt
         end) ;;
   c <- cs_count (h_cs h) ;;
   r <- (if 0 <? c then
           want <- mi_sub 64 rs_CHUNK_LEN c ;;
           let take := N.min want (nlen input) in
           cs <- cs_update_with fuel p (h_cs h) (firstn (N.to_nat take) input) ;;
           let input := skipn (N.to_nat take) input in
           if negb (nlen input =? 0) then
             c' <- cs_count cs ;;
             assert! (c' =? rs_CHUNK_LEN) code 1400 ;;
             let chunk_cv := out_chaining_value p (cs_output cs) in
             h <- push_cv_with fuel p (with_cs h cs) chunk_cv (cs_ctr cs) ;;
             ctr' <- mi_add 64 (cs_ctr cs) 1 ;;
             Ok (with_cs h (cs_new (h_key h) ctr' (cs_flags cs)), input, false)
           else Ok (with_cs h cs, input, true)
         else Ok (h, input, false)) ;;
   let '(h, input, done) := r in
   if done then Ok h else
   ('(h, input) <- update_loop_with fuel p h input ;;
    assert! (nlen input <=? rs_CHUNK_LEN) code 1403 ;;
    if negb (nlen input =? 0) then
      cs <- cs_update_with fuel p (h_cs h) input ;;
      merge_cv_stack_with fuel p (with_cs h cs) (cs_ctr cs)
    else Ok h)).
Proof. reflexivity. Qed.
Print Assumptions C02_lib_src_hasher_update_with_def.

(* the shrink loop IS the model's shrink_loop, at every fuel *)
Theorem C02_lib_src_shrink_loop : forall pno cvf mx mo hm self input input_offset fuel subtree_len count_so_far,
  lib_Hasher_update_with_join_loop1 pno cvf mx mo hm fuel self input input_offset subtree_len count_so_far
  = shrink_loop fuel subtree_len count_so_far.
Proof. intros. apply shrink_loop_eq. Qed.
Print Assumptions C02_lib_src_shrink_loop.

(* the subtree loop, at every fuel *)
Theorem C02_lib_src_update_loop : forall p, plat_wf p -> forall input_offset fuel h input,
  length (h_key h) = 8%nat -> nlen input < 2 ^ 64 -> N.of_nat (length (h_stack h)) <= rs_cv_stack_cap ->
  lib_Hasher_update_with_join_loop2 m_parent_node_output m_Output_chaining_value (p_max_degree p) (max_degree_or_2 p)
    m_hash_many fuel (lib_of_hasher p h) input input_offset
  = GenLibLoopsP.res_map (fun r => (lib_of_hasher p (fst r), snd r)) (update_loop_with fuel p h input).
Proof. intros p WF io fuel h input Hk Hin Hst. exact (ResP.rsim_eq _ _ _ _ (update_loop_with_sim p WF io fuel h input Hk Hin Hst)). Qed.
Print Assumptions C02_lib_src_update_loop.

Theorem C02_lib_src_update_with_join : forall p, plat_wf p -> forall fuel h input,
  length (h_key h) = 8%nat -> nlen input < 2 ^ 64 -> N.of_nat (length (h_stack h)) <= rs_cv_stack_cap ->
  cs_blocks (h_cs h) < 2 ^ 8 -> cs_buf_len (h_cs h) < 2 ^ 8 ->
  lib_Hasher_update_with_join m_parent_node_output m_Output_chaining_value (p_max_degree p) (max_degree_or_2 p)
    m_hash_many fuel (lib_of_hasher p h) input
  = GenLibLoopsP.res_map (lib_of_hasher p) (hasher_update_with fuel p h input).
Proof. exact lib_Hasher_update_with_join_eq. Qed.
Print Assumptions C02_lib_src_update_with_join.

Theorem C02_lib_src_update : forall p, plat_wf p -> forall fuel h input,
  length (h_key h) = 8%nat -> nlen input < 2 ^ 64 -> N.of_nat (length (h_stack h)) <= rs_cv_stack_cap ->
  cs_blocks (h_cs h) < 2 ^ 8 -> cs_buf_len (h_cs h) < 2 ^ 8 ->
  lib_Hasher_update m_parent_node_output m_Output_chaining_value (p_max_degree p) (max_degree_or_2 p)
    m_hash_many fuel (lib_of_hasher p h) input
  = GenLibLoopsP.res_map (lib_of_hasher p) (hasher_update_with fuel p h input).
Proof. exact lib_Hasher_update_eq. Qed.
Print Assumptions C02_lib_src_update.

(* enough fuel: one unit per iteration of the subtree loop plus 81 for what an iteration calls (64 levels of
   compress_subtree_wide / 64 merges / 64 halvings, 17 blocks of a chunk) *)
Theorem C02_lib_src_update_loop_enough : forall p f fuel h input, (f + 81 <= fuel)%nat ->
  refines (update_loop f p h input) (update_loop_with fuel p h input).
Proof. exact update_loop_with_refines. Qed.
Print Assumptions C02_lib_src_update_loop_enough.

Theorem C02_lib_src_hasher_update_enough : forall p fuel h input, (S (Nat.div (length input) 1024) + 81 <= fuel)%nat ->
  refines (hasher_update p h input) (hasher_update_with fuel p h input).
Proof. exact hasher_update_with_refines. Qed.
Print Assumptions C02_lib_src_hasher_update_enough.

(* hence: whenever the model's update does not run out of its own fuel, the translated Hasher::update IS the model's *)
Theorem C02_lib_src_update_model : forall p, plat_wf p -> forall fuel h input,
  length (h_key h) = 8%nat -> nlen input < 2 ^ 64 -> N.of_nat (length (h_stack h)) <= rs_cv_stack_cap ->
  cs_blocks (h_cs h) < 2 ^ 8 -> cs_buf_len (h_cs h) < 2 ^ 8 ->
  (S (Nat.div (length input) 1024) + 81 <= fuel)%nat -> hasher_update p h input <> OutOfFuel ->
  lib_Hasher_update m_parent_node_output m_Output_chaining_value (p_max_degree p) (max_degree_or_2 p)
    m_hash_many fuel (lib_of_hasher p h) input
  = GenLibLoopsP.res_map (lib_of_hasher p) (hasher_update p h input).
Proof.
  intros p WF fuel h input Hk Hin Hst Hb Hbl HF HN.
  rewrite (lib_Hasher_update_eq p WF fuel h input Hk Hin Hst Hb Hbl).
  rewrite <- (refines_eq _ _ (hasher_update_with_refines p fuel h input HF) HN). reflexivity.
Qed.
Print Assumptions C02_lib_src_update_model.

(* non-vacuity: the translated update on a concrete history against the model *)
Example C02_lib_src_update_nonvacuous :
  let p := sim_platform 4 16 in
  let h1 := match hasher_update p (new_internal IV 0) (map N.of_nat (seq 0 100)) with Ok h => h | _ => new_internal IV 0 end in
  let b := repeat 7 5000 in
  is_ok (hasher_update p h1 b) = true /\ cs_buf_len (h_cs h1) = 36 /\
  GenLibLoopsP.res_map hasher_of_lib
    (lib_Hasher_update m_parent_node_output m_Output_chaining_value (p_max_degree p) (max_degree_or_2 p) m_hash_many 100
       (lib_of_hasher p h1) b) = hasher_update p h1 b.
Proof.
  intros p h1 b.
  assert (P : PlatformOK p) by (apply sim_platform_ok; (reflexivity || (intro H; discriminate H))).
  assert (L1 : len ([] ++ map N.of_nat (seq 0 100)) < 2 ^ 64) by (vm_compute; reflexivity).
  pose proof (C02_update_step p P IV 0 eq_refl _ [] _ (C02_new_is_empty p P IV 0 eq_refl) L1) as (h & U & I).
  assert (L2 : len (([] ++ map N.of_nat (seq 0 100)) ++ b) < 2 ^ 64) by (vm_compute; reflexivity).
  pose proof (C02_update_step p P IV 0 eq_refl h _ b I L2) as (h2 & U2 & _).
  assert (E : hasher_update p h1 b = Ok h2) by (unfold h1; rewrite U; exact U2).
  split; [rewrite E; reflexivity|]. split; [lazy; reflexivity|].
  rewrite (C02_lib_src_update_model p (GenLibWideP.sim_platform_wf 4 16 eq_refl eq_refl) 100 h1 b).
  2, 3, 5, 6: lazy; reflexivity.
  - rewrite E. cbn. rewrite hasher_of_lib_of_hasher. reflexivity.
  - lazy. discriminate.
  - apply PeanoNat.Nat.leb_le. reflexivity.
  - rewrite E. discriminate.
Qed.
Print Assumptions C02_lib_src_update_nonvacuous.
