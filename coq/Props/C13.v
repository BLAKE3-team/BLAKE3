(* C13: the b3sum checkfile format.

   Strings are lists of Unicode scalar values, OS paths and digests are lists of bytes.
   `fixed_cfg` is b3sum/src/main.rs as it stands: /repo contains the two repairs of seeded/b3sum_fixes.diff (tagged
   layout tried first; the two unwraps turned into "Invalid hex") as its commits "fix: b3sum --check ...".
   `asis_cfg` is main.rs before them: the theorems named *_refuted_on_unchanged_code are about that text.
   The correspondence check (tools/props/C13.py) probes which of the two the code under test is. *)
From Coq Require Import NArith List Bool.
From V Require Import Base.Res Model.B3sum Proofs.B3sumP Proofs.B3sumRefuted.
Import ListNotations.
Open Scope N_scope.

(* every printed line parses back.  Plain form `<hex>  <path>` (with the leading backslash when the path needed
   escaping): for every valid-Unicode, non-empty path without NUL and U+FFFD, every 32-byte digest, no terminator /
   LF / CRLF, under any configuration. *)
Theorem C13_roundtrip_plain : forall cfg p h term,
  good_path p -> bytes_ok h -> length h = 32%nat -> In term terminators ->
  exists esc fstr,
    parse_check_line cfg (print_body false (utf8_encode p) (hex_of_bytes h) ++ term) = Ok (POk p h esc fstr).
Proof. exact roundtrip_plain. Qed.

(* --tag form `BLAKE3 (<path>) = <hex>`: under fixed_cfg *)
Theorem C13_roundtrip_tag : forall p h term,
  good_path p -> bytes_ok h -> length h = 32%nat -> In term terminators ->
  exists esc fstr,
    parse_check_line fixed_cfg (print_body true (utf8_encode p) (hex_of_bytes h) ++ term) = Ok (POk p h esc fstr).
Proof. exact roundtrip_tag. Qed.

(* ... and FALSE under asis_cfg: `BLAKE3 (a  b) = <hex>` is rejected *)
Theorem C13_roundtrip_tag_refuted_on_unchanged_code :
  exists p h, good_path p /\ bytes_ok h /\ length h = 32%nat /\
    parse_check_line asis_cfg (print_line true (utf8_encode p) (hex_of_bytes h)) = Ok (PErr EHashLength).
Proof. exact roundtrip_tag_refuted. Qed.

(* the exact result for ANY OS path (byte string), both forms, any run of CR/LF as terminator:
   the lossy decoding of the path and the digest, or the error for an empty / NUL / U+FFFD path *)
Theorem C13_parse_printed : forall cfg tag b h term,
  (tag = true -> tagged_first cfg = true) -> bytes_ok h -> length h = 32%nat -> crlf_term term ->
  parse_check_line cfg (print_body tag b (hex_of_bytes h) ++ term) = Ok (expected b h).
Proof. exact parse_printed. Qed.

(* paths that cannot be represented (invalid UTF-8, U+FFFD, NUL, empty) are rejected at check time *)
Theorem C13_unrepresentable_path_rejected : forall tag b h term,
  bytes_ok h -> length h = 32%nat -> In term terminators ->
  (utf8_lossy b = [] \/ existsb (N.eqb NUL) (utf8_lossy b) = true \/ existsb (N.eqb REPL) (utf8_lossy b) = true) ->
  exists e, parse_check_line fixed_cfg (print_body tag b (hex_of_bytes h) ++ term) = Ok (PErr e).
Proof. exact unrepresentable_path_rejected. Qed.

Theorem C13_lossy_valid : forall s, forallb valid_scalar s = true -> utf8_lossy (utf8_encode s) = s.
Proof. exact lossy_encode. Qed.

Theorem C13_lossy_invalid_has_fffd : forall b,
  utf8_encode (utf8_lossy b) <> b -> existsb (N.eqb REPL) (utf8_lossy b) = true.
Proof. exact lossy_invalid_has_fffd. Qed.

(* no two different OS paths ever yield lines that parse to the same path, and a printed line never
   parses to a different hash: under any configuration *)
Theorem C13_print_injective_on_parse : forall cfg tag1 tag2 b1 b2 h1 h2 t1 t2 p x1 x2 e1 e2 f1 f2,
  bytes_ok h1 -> length h1 = 32%nat -> In t1 terminators ->
  bytes_ok h2 -> length h2 = 32%nat -> In t2 terminators ->
  parse_check_line cfg (print_body tag1 b1 (hex_of_bytes h1) ++ t1) = Ok (POk p x1 e1 f1) ->
  parse_check_line cfg (print_body tag2 b2 (hex_of_bytes h2) ++ t2) = Ok (POk p x2 e2 f2) ->
  b1 = b2 /\ x1 = h1 /\ x2 = h2.
Proof. exact print_injective_on_parse. Qed.

(* any configuration on any printed line: the right answer or an error, never a panic, never another path *)
Theorem C13_parse_printed_any_cfg : forall cfg tag b h term,
  bytes_ok h -> length h = 32%nat -> crlf_term term ->
  parse_check_line cfg (print_body tag b (hex_of_bytes h) ++ term) = Ok (expected b h) \/
  exists er, parse_check_line cfg (print_body tag b (hex_of_bytes h) ++ term) = Ok (PErr er).
Proof. exact parse_printed_any_cfg. Qed.

(* arbitrary text: never a panic, under fixed_cfg *)
Theorem C13_parse_total : forall line, exists r, parse_check_line fixed_cfg line = Ok r.
Proof. exact parse_total. Qed.

(* ... and FALSE under asis_cfg: 62 hex digits + U+00E9 (64 bytes) panic at the second `hex_chars.next().unwrap()` of
   the hex loop (line 391 of main.rs before the repair) *)
Theorem C13_parse_total_refuted_on_unchanged_code :
  exists line, parse_check_line asis_cfg line = Panic PANIC_HEX_LOW.
Proof. exact parse_total_refuted. Qed.

(* success: the hash is the 64 lowercase hex digits present in the line, the path is the
   documented unescaping of the path field, non-empty, without NUL and U+FFFD (any configuration) *)
Theorem C13_parse_ok_shape : forall cfg line p h e f,
  parse_check_line cfg line = Ok (POk p h e f) ->
  length h = 32%nat /\ bytes_ok h /\ Forall is_lower_hex (hex_of_bytes h) /\
  (trim_end line = esc_prefix e ++ hex_of_bytes h ++ PLAIN_SEP ++ f \/
   trim_end line = esc_prefix e ++ TAG_PREFIX ++ f ++ TAG_SEP ++ hex_of_bytes h) /\
  (if e then unescape f = Some p else f = p) /\
  p <> [] /\ existsb (N.eqb NUL) p = false /\ existsb (N.eqb REPL) p = false.
Proof. exact parse_ok_shape. Qed.

(* the error classes: empty line; neither layout; wrong-length, non-hex, non-ASCII hash field;
   invalid escape; empty path; NUL; U+FFFD *)
Theorem C13_parse_errors : forall cfg, hex_unwrap_is_error cfg = true ->
  (forall line, trim_end line = [] -> parse_check_line cfg line = Ok (PErr EEmptyLine)) /\
  (forall line, trim_end line <> [] -> split_check_line cfg (snd (las_of line)) = None ->
                parse_check_line cfg line = Ok (PErr EFormat)) /\
  (forall line hh f, trim_end line <> [] -> split_check_line cfg (snd (las_of line)) = Some (hh, f) ->
     let e := fst (las_of line) in
     (str_len hh <> 64 -> parse_check_line cfg line = Ok (PErr EHashLength)) /\
     (str_len hh = 64 -> ~ Forall is_lower_hex hh -> parse_check_line cfg line = Ok (PErr EHex)) /\
     (forall c, str_len hh = 64 -> In c hh -> 128 <= c -> parse_check_line cfg line = Ok (PErr EHex)) /\
     (forall h, hh = hex_of_bytes h -> bytes_ok h -> length h = 32%nat ->
        (e = true -> unescape f = None -> parse_check_line cfg line = Ok (PErr EEscape)) /\
        (forall p, (if e then unescape f else Some f) = Some p ->
           (p = [] -> parse_check_line cfg line = Ok (PErr EEmptyPath)) /\
           (existsb (N.eqb NUL) p = true -> parse_check_line cfg line = Ok (PErr ENul)) /\
           (existsb (N.eqb NUL) p = false -> existsb (N.eqb REPL) p = true ->
              parse_check_line cfg line = Ok (PErr EReplacement))))).
Proof. exact parse_errors. Qed.

(* a dangling backslash and an unknown escape are invalid escapes; escaping then unescaping is the identity *)
Theorem C13_unescape_dangling : forall s p, unescape s = Some p -> unescape (s ++ [BSL]) = None.
Proof. exact unescape_dangling. Qed.

Theorem C13_unescape_invalid : forall s p c t,
  unescape s = Some p -> c <> 110 -> c <> 114 -> c <> BSL -> unescape (s ++ BSL :: c :: t) = None.
Proof. exact unescape_invalid. Qed.

Theorem C13_unescape_escape : forall s, unescape (escape_path s) = Some s.
Proof. intros s. rewrite escape_path_eq. apply unescape_escape. Qed.

(* non-vacuity: an escaped --tag line with a double space, a ") = " and a 4-byte scalar, CRLF terminated *)
Example C13_nonvacuous :
  let p := [66;76;65;75;69;51;32;40; 97;32;32;98; 41;32;61;32; 10; 92; 128512] in
  good_path p /\ bytes_ok h_lo /\ length h_lo = 32%nat /\
  parse_check_line fixed_cfg (print_body true (utf8_encode p) (hex_of_bytes h_lo) ++ [CR; LF]) =
  Ok (POk p h_lo true (escape_path p)) /\
  parse_check_line fixed_cfg (print_body false (utf8_encode p) (hex_of_bytes h_lo) ++ [LF]) =
  Ok (POk p h_lo true (escape_path p)).
Proof.
  cbv zeta. split; [unfold good_path; repeat split; try reflexivity; discriminate|].
  split; [unfold bytes_ok, h_lo; repeat constructor|]. split; [reflexivity|].
  split; vm_compute; reflexivity.
Qed.

(* the format-defining literals of the model are the ones in the source (gen/GenB3sum.v is regenerated from
   b3sum/src/main.rs on every run; the anchors also pin the statement order of hash_one_input: marker, then form) *)
From V Require gen.GenB3sum Proofs.B3sumLitP.
Theorem C13_escape_guard_is_source : forall c, needs_escape c = existsb (N.eqb c) GenB3sum.b3_escape_guard.
Proof. exact B3sumLitP.needs_escape_is_guard. Qed.
Theorem C13_escape_chain_is_source : forall s,
  escape_path s = fold_left (fun acc p => replace_char (fst p) (snd p) acc) GenB3sum.b3_escape_chain s.
Proof. exact B3sumLitP.escape_path_is_chain. Qed.
Theorem C13_unescape_arms_are_source : forall s, unescape s = B3sumLitP.unescape_g GenB3sum.b3_unescape_arms s.
Proof. exact B3sumLitP.unescape_is_arms. Qed.
Theorem C13_separators_are_source :
  PLAIN_SEP = GenB3sum.b3_plain_sep /\ TAG_PREFIX = GenB3sum.b3_tag_prefix /\ TAG_SEP = GenB3sum.b3_tag_sep /\
  [BSL] = GenB3sum.b3_print_marker /\ TAG_PREFIX = GenB3sum.b3_print_tag_prefix /\ TAG_SEP = GenB3sum.b3_print_tag_sep /\
  PLAIN_SEP = GenB3sum.b3_print_plain_sep.
Proof. exact B3sumLitP.separators_are_source. Qed.

Print Assumptions C13_escape_guard_is_source.
Print Assumptions C13_escape_chain_is_source.
Print Assumptions C13_unescape_arms_are_source.
Print Assumptions C13_separators_are_source.
Print Assumptions C13_roundtrip_plain.
Print Assumptions C13_roundtrip_tag.
Print Assumptions C13_roundtrip_tag_refuted_on_unchanged_code.
Print Assumptions C13_parse_printed.
Print Assumptions C13_unrepresentable_path_rejected.
Print Assumptions C13_lossy_valid.
Print Assumptions C13_lossy_invalid_has_fffd.
Print Assumptions C13_print_injective_on_parse.
Print Assumptions C13_parse_printed_any_cfg.
Print Assumptions C13_parse_total.
Print Assumptions C13_parse_total_refuted_on_unchanged_code.
Print Assumptions C13_parse_ok_shape.
Print Assumptions C13_parse_errors.
Print Assumptions C13_unescape_dangling.
Print Assumptions C13_unescape_invalid.
Print Assumptions C13_unescape_escape.
(* the checkfile functions of b3sum/src/main.rs, translated statement by statement.
   gen/GenB3sumFns.v is regenerated from the current source text by tools/gen_coq_b3sumfns.py; each translated
   function equals the function of Model/B3sum.v under fixed_cfg, for all inputs, result by result.
   anyhow errors are the source's message strings (err_msg gives the message of each error class of the model);
   cfg!(windows) = false; Path::to_string_lossy = utf8_lossy; strings are shorter than 2^64 bytes. *)
From V Require Import Base.Str gen.GenB3sumFns Proofs.GenB3sumFnsP.

Theorem C13_src_err_msg_injective : forall a b, err_msg a = err_msg b -> a = b.
Proof. exact err_msg_injective. Qed.

Theorem C13_src_hex_half_byte : forall c,
  gen_hex_half_byte c = Ok (match hex_half_byte c with Some v => inr v | None => inl (err_msg EHex) end).
Proof. exact gen_hex_half_byte_spec. Qed.

Theorem C13_src_filepath_to_string : forall path_bytes,
  gen_filepath_to_string utf8_lossy false path_bytes = Ok (filepath_to_string path_bytes).
Proof. exact gen_filepath_to_string_spec. Qed.

Theorem C13_src_filepath_to_string_any_lossy : forall lossy path,
  gen_filepath_to_string lossy false path =
  Ok (let s := lossy path in if existsb needs_escape s then (escape_path s, true) else (s, false)).
Proof. exact gen_filepath_to_string_any_lossy. Qed.

Theorem C13_src_check_for_invalid_characters : forall p,
  gen_check_for_invalid_characters false p =
  Ok (match check_for_invalid_characters p with Some e => inl (err_msg e) | None => inr tt end).
Proof. exact gen_check_for_invalid_characters_spec. Qed.

Theorem C13_src_unescape : forall fuel s, (length s <= fuel)%nat -> str_len s < 18446744073709551616 ->
  gen_unescape fuel s = Ok (match unescape s with Some u => inr u | None => inl (err_msg EEscape) end).
Proof. exact gen_unescape_spec. Qed.

Theorem C13_src_split_untagged_check_line : forall las,
  gen_split_untagged_check_line las = Ok (split_untagged_check_line las).
Proof. exact gen_split_untagged_spec. Qed.

(* the source returns (file, hash) for the tagged layout, the model (hash, file) *)
Theorem C13_src_split_tagged_check_line : forall las,
  gen_split_tagged_check_line las =
  Ok (option_map (fun x : list N * list N => (snd x, fst x)) (split_tagged_check_line las)).
Proof. exact gen_split_tagged_spec. Qed.

(* the hex-digit loop `for byte in &mut hash_bytes` (place of one repaired defect) *)
Theorem C13_src_parse_check_line_hex_loop : forall arr chars,
  gen_parse_check_line_for1 arr chars =
  match hex_loop fixed_cfg (length arr) chars with
  | Ok (inr bs) => Ok (inr (bs, skip2 (length arr) chars))
  | Ok (inl _) => Ok (inl (inl (err_msg EHex)))
  | Panic c => Panic c
  | OutOfFuel => OutOfFuel
  end.
Proof. exact for1_spec. Qed.

(* ParsedCheckLine { file_string, is_escaped, file_path, expected_hash } = POk file_path expected_hash is_escaped file_string;
   Err(message) = PErr of the class with that message; Panic = Panic *)
Theorem C13_src_parse_check_line : forall fuel line, (length line <= fuel)%nat -> str_len line < 18446744073709551616 ->
  gen_parse_check_line false fuel line =
  match parse_check_line fixed_cfg line with
  | Ok (PErr e) => Ok (inl (err_msg e))
  | Ok (POk p h esc fstr) => Ok (inr (fstr, esc, p, h))
  | Panic c => Panic c
  | OutOfFuel => OutOfFuel
  end.
Proof.
  intros fuel line L B. rewrite (gen_parse_check_line_spec fuel line L B).
  destruct (parse_check_line fixed_cfg line) as [[e|p h esc fstr]|c|]; reflexivity.
Qed.

(* the translated parser never panics and never runs out of fuel on any line *)
Theorem C13_src_parse_check_line_total : forall fuel line, (length line <= fuel)%nat -> str_len line < 18446744073709551616 ->
  exists r, gen_parse_check_line false fuel line = Ok (parsed_of_model r) /\ parse_check_line fixed_cfg line = Ok r.
Proof. exact gen_parse_check_line_total. Qed.

Print Assumptions C13_src_err_msg_injective.
Print Assumptions C13_src_hex_half_byte.
Print Assumptions C13_src_filepath_to_string.
Print Assumptions C13_src_filepath_to_string_any_lossy.
Print Assumptions C13_src_check_for_invalid_characters.
Print Assumptions C13_src_unescape.
Print Assumptions C13_src_split_untagged_check_line.
Print Assumptions C13_src_split_tagged_check_line.
Print Assumptions C13_src_parse_check_line_hex_loop.
Print Assumptions C13_src_parse_check_line.
Print Assumptions C13_src_parse_check_line_total.
