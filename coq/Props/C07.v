(* C07: native code stays inside its buffers (the part a model can carry).
   (1) Every array index, slice bound, split_at, ArrayVec::push and capacity-dependent write of the
       modelled glue code is an `assert!` of the model, so the `Ok` of the C01 / C02 / C03 / C09
       theorems is the statement "no index is out of range, for any input".
   (2) Footprints: the kernel models produce exactly 32 bytes per hashed input, exactly 64 bytes per
       extended-output block, and a fill exactly the requested bytes.
   (3) The hand-written assembly, read into rows of pushes / pops / frame size / rsp-based accesses / written
       registers (gen/GenAsmFrames.v): every rsp-based access lies inside the function's own frame, and the
       epilogue restores the callee-saved registers, given that the body writes no other callee-saved register
       than the translator saw (the C07_asm_ theorems).
   What the native loads and stores touch through other pointers, and what the running code does to the
   registers, is checked by the guard-page / sentinel harness and its trampoline (tools/props/C07.py), not
   proved: see DESIGN.md. *)
From Coq Require Import NArith List Bool.
From V Require Import Base.Res Base.Word Spec.Tree Spec.Blake3 Model.Portable Model.Platform Model.RsChunk Model.RsWide
  Model.RsXof Model.RsHasher Model.CHasher Proofs.C01P Proofs.XofP Proofs.C04P Proofs.KernelsXofP Proofs.IoP Proofs.C02P Proofs.CHasherP4 gen.GenAsmFrames Model.AsmFrame Proofs.AsmFrameP Proofs.ExamplesP.
Import ListNotations.
Open Scope N_scope.

Theorem C07_one_shot_indices_in_bounds : forall p, PlatformOK p -> forall input, len input < 2 ^ 64 ->
  is_ok (rs_hash p input) = true.
Proof. intros p H input Hl. rewrite (rs_hash_spec p H input Hl). reflexivity. Qed.

Theorem C07_hash_many_footprint : forall inputs key ctr incr fl fs fe cap outs,
  hash_many inputs key ctr incr fl fs fe cap = Ok outs ->
  length outs = length inputs /\ N.of_nat (length inputs) <= cap.
Proof. exact hash_many_footprint. Qed.

Theorem C07_xof_many_footprint : forall cv block bl fl, length cv = 8%nat -> length block = 64%nat -> forall n ctr bs,
  xof_many_loop compress_xof cv block bl ctr fl n = Ok bs -> length bs = (64 * n)%nat.
Proof. exact xof_many_footprint. Qed.

Theorem C07_fill_footprint : forall p, PlatformOK p -> forall r o pos n,
  Rd r o pos -> pos + n <= 2 ^ 64 - 1 ->
  exists r' bs, reader_fill p r n = Ok (r', bs) /\ length bs = N.to_nat n.
Proof. exact reader_fill_footprint. Qed.

(* the incremental Rust hasher: for ANY sequence of updates (below 2^64 bytes in total) no slice index, array_ref,
   ArrayVec::push (capacity 55 of the CV stack) or checked arithmetic of update/finalize fails *)
Theorem C07_hasher_indices_in_bounds : forall p, PlatformOK p -> forall K F, length K = 8%nat -> forall pieces,
  len (concat pieces) < 2 ^ 64 ->
  exists h out, updates p (new_internal K F) pieces = Ok h /\ hasher_finalize p h = Ok out /\ length out = 32%nat.
Proof.
  intros p POK K F HK pieces Hl. destruct (hasher_refines p POK K F HK pieces Hl) as (h & H1 & _ & _ & H4).
  exists h. eexists. split; [exact H1|]. split; [exact H4|]. apply stream_length.
Qed.

(* the C glue (c/blake3.c): for ANY sequence of blake3_hasher_update calls and any finalize_seek the model never
   reads or writes outside cv_stack[55], the chunk buffer, cv_array or the output buffer (panic codes 300..328 of
   Model/CHasher.v) and writes exactly out_len bytes *)
Theorem C07_c_glue_in_bounds : forall p, PlatformOK p -> forall K F, length K = 8%nat ->
  forall mem pieces seek out_len,
  length mem = 55%nat -> len (concat pieces) < 2 ^ 64 -> seek + out_len <= 2 ^ 64 - 1 ->
  exists h bs,
    fold_left (fun r x => h <- r ;; c_hasher_update p h x) pieces (Ok (c_hasher_init_base mem K F)) = Ok h /\
    c_hasher_finalize_seek p h seek out_len = Ok bs /\ length bs = N.to_nat out_len.
Proof.
  intros p POK K F HK mem pieces seek n Hm Hl Hs.
  destruct (c_update_refines p POK K F HK mem pieces seek n Hm Hl Hs) as (h & H1 & H2).
  exists h. eexists. split; [exact H1|]. split; [exact H2|]. apply stream_length.
Qed.

(* the hand-written Unix assembly: frame and callee-saved-register discipline, decided on the TRANSLATED
   functions (gen/GenAsmFrames.v, regenerated from the four .S files on every run) *)
Theorem C07_asm_frames_ok : forallb frame_ok asm_frames = true.
Proof. vm_compute. reflexivity. Qed.

Lemma C07_row_ok r : In r asm_frames -> frame_ok r = true.
Proof. intros H. pose proof C07_asm_frames_ok as A. rewrite forallb_forall in A. apply A. exact H. Qed.

(* every rsp-based memory operand of every function stays inside the function's own frame [rsp, rbp): never below
   rsp (red zone / signal frames), never into the saved registers or the return address - for EVERY incoming
   stack alignment (the `and rsp, -64` realignment may consume 0..63 bytes of slack) *)
Theorem C07_asm_stack_accesses_inside_frame : forall r, In r asm_frames -> forall a, In a (f_accesses r) ->
  forall sp0, f_frame r + 63 <= sp0 ->
  let sp := frame_sp (f_realigned r) sp0 (f_frame r) in
  sp <= sp + fst a /\ sp + fst a + snd a <= sp0.
Proof. intros r Hr. exact (proj1 (frame_ok_sound r (C07_row_ok r Hr))). Qed.

(* on return every callee-saved general register (rbx, rbp, r12-r15) holds the caller's value, given that the
   function body writes no callee-saved register other than those the translator saw as a destination *)
Theorem C07_asm_callee_saved_preserved : forall r, In r asm_frames -> forall (rg0 rg1 : regs) stack,
  (forall x, mem x (f_written r) = false -> rg1 x = rg0 x) ->
  forall x, do_pops rg1 (f_pops r) (do_pushes rg0 (f_pushes r) stack) x = rg0 x.
Proof. intros r Hr. exact (proj2 (frame_ok_sound r (C07_row_ok r Hr))). Qed.

(* the Windows-GNU assembly (Microsoft x64: rbx rbp rsi rdi r12-r15 and xmm6-xmm15 callee-saved) *)
Theorem C07_asm_win_frames_ok : forallb win_ok asm_frames_win = true.
Proof. vm_compute. reflexivity. Qed.

Lemma C07_wrow_ok r : In r asm_frames_win -> win_ok r = true.
Proof. intros H. pose proof C07_asm_win_frames_ok as A. rewrite forallb_forall in A. apply A. exact H. Qed.

(* every callee-saved xmm register (xmm6-xmm15, also when written as ymm/zmm) that the body of a function writes is
   saved in the prologue and reloaded from the same slot in the epilogue, and the slots are pairwise disjoint: so on
   return every xmm register holds the caller's value, provided the slots still hold what the prologue saved (first
   hypothesis) and the body writes no other xmm6-15 than the translator saw (second).  win_ok also decides that no
   rsp-based store of the body overlaps a slot (C07_asm_win_frames_ok), but no theorem derives the first hypothesis
   from that. *)
Theorem C07_asm_win_xmm_preserved : forall r, In r asm_frames_win -> forall (x0 x1 : xregs) (m0 m1 : slots),
  (forall off, In off (map snd (w_saves r)) -> m1 off = do_saves x0 (w_saves r) m0 off) ->
  (forall x, mem x (w_xwritten r) = false -> x1 x = x0 x) ->
  forall x, do_restores x1 (w_restores r) m1 x = x0 x.
Proof. intros r Hr. exact (proj1 (win_ok_sound r (C07_wrow_ok r Hr))). Qed.

(* and the general registers incl. rsi, rdi *)
Theorem C07_asm_win_callee_saved_preserved : forall r, In r asm_frames_win -> forall (rg0 rg1 : regs) stack,
  (forall x, mem x (w_gwritten r) = false -> rg1 x = rg0 x) ->
  forall x, do_pops rg1 (w_pops r) (do_pushes rg0 (w_pushes r) stack) x = rg0 x.
Proof. intros r Hr. exact (proj1 (proj2 (win_ok_sound r (C07_wrow_ok r Hr)))). Qed.

(* the save slots and the body's stack stores stay inside the frame *)
Theorem C07_asm_win_slots_inside_frame : forall r, In r asm_frames_win ->
  (forall s, In s (w_saves r) -> snd s + 16 <= w_frame r) /\
  (forall st, In st (w_stores r) -> fst st + snd st <= w_frame r).
Proof. intros r Hr. exact (proj2 (proj2 (win_ok_sound r (C07_wrow_ok r Hr)))). Qed.

Example C07_asm_win_nonvacuous :
  length asm_frames_win = 10%nat /\
  (exists r, In r asm_frames_win /\ w_frame r = 120 /\ length (w_saves r) = 7%nat /\ mem 14 (w_xwritten r) = true).
Proof.
  split; [reflexivity|]. exists (nth 2 asm_frames_win ([], false, 0, [], [], [], [], [], [], [])).
  split; [apply nth_In; repeat constructor|]. vm_compute. repeat split.
Qed.

(* non-vacuity: eleven functions were translated; blake3_hash_many_sse41 has a 360-byte realigned frame whose highest
   access ends at byte 352 and saves all six registers *)
Example C07_asm_nonvacuous :
  length asm_frames = 11%nat /\
  (exists r, In r asm_frames /\ f_frame r = 360 /\ f_realigned r = true /\
             existsb (fun a => (fst a =? 336) && (snd a =? 16)) (f_accesses r) = true /\
             length (f_pushes r) = 6%nat).
Proof.
  split; [reflexivity|]. exists (nth 3 asm_frames ([], false, 0, [], [], [], [])).
  split; [apply nth_In; repeat constructor|]. vm_compute. repeat split.
Qed.

Example C07_nonvacuous :
  exists outs, hash_many [repeat 1 64; repeat 2 64; repeat 3 64] Spec.Compress.IV 0 true 0 1 2 3 = Ok outs /\ length outs = 3%nat.
Proof.
  destruct (res_image (@length _) (hash_many [repeat 1 64; repeat 2 64; repeat 3 64] Spec.Compress.IV 0 true 0 1 2 3) 3%nat)
    as [outs [H L]]; [lazy; reflexivity|].
  exists outs. split; assumption.
Qed.

Print Assumptions C07_one_shot_indices_in_bounds.
Print Assumptions C07_hash_many_footprint.
Print Assumptions C07_hasher_indices_in_bounds.
Print Assumptions C07_c_glue_in_bounds.
Print Assumptions C07_asm_frames_ok.
Print Assumptions C07_row_ok.
Print Assumptions C07_asm_stack_accesses_inside_frame.
Print Assumptions C07_asm_callee_saved_preserved.
Print Assumptions C07_asm_win_frames_ok.
Print Assumptions C07_wrow_ok.
Print Assumptions C07_asm_win_xmm_preserved.
Print Assumptions C07_asm_win_callee_saved_preserved.
Print Assumptions C07_asm_win_slots_inside_frame.
Print Assumptions C07_xof_many_footprint.
Print Assumptions C07_fill_footprint.
