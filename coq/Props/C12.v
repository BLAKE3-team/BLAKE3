(* C12: b3sum prints the library's extended output S[seek..seek+length]; b3sum --check exits 0
   exactly when every entry of every checkfile parses and matches.

   St : N -> N is the extended output stream of the library for the mode and file (byte at
   absolute position): `lib_stream m input` of the specification, by C03/C11 what hash_path's
   OutputReader delivers.  digest St seek len = St[seek .. seek+len). *)
From Coq Require Import NArith List Bool.
From V Require Import Base.Res Spec.Tree Spec.Blake3 Model.B3sum Proofs.B3sumP Proofs.B3sumRefuted Proofs.B3sumC12P.
Import ListNotations.
Open Scope N_scope.

(* write_hex_output (64-byte fills, min(len,64) per round) prints the lower-case hex of the digest *)
Theorem C12_hex_output_spec : forall St seek len, seek + len <= U64_MAX ->
  write_hex_output (hex_fuel len) St seek len = Ok (hex_of_bytes (digest St seek len)).
Proof. exact hex_output_spec. Qed.

(* write_raw_output (io::copy through a buffer of any size) writes the digest bytes themselves *)
Theorem C12_raw_output_spec : forall chunk St seek len, seek + len <= U64_MAX ->
  write_raw_output (S (N.to_nat (len / N.max 1 chunk))) chunk St seek len = Ok (digest St seek len).
Proof. exact raw_output_spec. Qed.

(* stdout of hash_one_input for every combination of --raw, --no-names, --tag, --length, --seek
   (--keyed / --derive-key / --no-mmap / --num-threads only select St) *)
Theorem C12_hash_one_input_spec : forall fl St path,
  hash_one_input fl St path =
  Ok (let d := digest St (f_seek fl) (f_length fl) in
      if f_raw fl then d
      else if f_no_names fl then hex_of_bytes d ++ [LF]
      else print_line (f_tag fl) path (hex_of_bytes d)).
Proof. exact hash_one_input_spec. Qed.

Theorem C12_digest_is_library_xof : forall m input seek len,
  digest (lib_stream m input) seek len = b3_xof_mode m input seek (N.to_nat len).
Proof. exact digest_is_xof. Qed.

(* --keyed: exactly 32 bytes on stdin are a key *)
Theorem C12_read_key_spec : forall stdin k,
  read_key_from_stdin stdin = KeyOk k <-> (stdin = k /\ length k = 32%nat).
Proof. exact read_key_spec. Qed.

(* a line checks exactly when it parses, the named file is readable and its digest at --seek matches *)
Theorem C12_line_ok_iff : forall cfg fs seek quiet line,
  (exists out, check_one_line cfg fs seek quiet line = Ok (true, out)) <->
  (exists p h e f St, parse_check_line cfg line = Ok (POk p h e f) /\ fs p = inr St /\ digest St seek 32 = h).
Proof. exact line_ok_iff. Qed.

(* exit status 0 iff every checkfile is readable and every line of every checkfile checks
   (any number of lines; the saturating counter cannot return to 0; any configuration) *)
Theorem C12_exit_status_spec : forall cfg fs seek quiet cfs,
  exit_status (snd (b3sum_check cfg fs seek quiet cfs)) = 0 <->
  Forall (checkfile_ok cfg fs seek quiet) cfs.
Proof. exact exit_status_spec. Qed.

(* every failing line has a diagnostic: FAILED on stdout, or (malformed line) `b3sum: <error>` on stderr *)
Theorem C12_failing_line_diagnosed : forall cfg fs seek quiet line out,
  check_one_line cfg fs seek quiet line = Ok (false, out) ->
  (exists e, parse_check_line cfg line = Ok (PErr e) /\ out = []) \/
  (exists p h e f, parse_check_line cfg line = Ok (POk p h e f) /\
     exists shown, shown = esc_prefix e ++ f /\
       ((exists msg, fs p = inl msg /\ out = shown ++ FAILED_OPEN ++ msg ++ [41; 10]) \/
        (exists St, fs p = inr St /\ digest St seek 32 <> h /\ out = shown ++ FAILED_SUFFIX))).
Proof. exact failing_line_diagnosed. Qed.

(* every entry is checked and counted, whatever happened before it: fixed_cfg, b3sum/src/main.rs as it stands *)
Theorem C12_check_all_lines_processed : forall fs seek quiet (cfs : list (list (list N))),
  b3sum_check fixed_cfg fs seek quiet (map (fun ls => Some (map LText ls)) cfs) =
  (flat_map (fun s => snd (line_result fixed_cfg fs seek quiet s)) (concat cfs),
   ExitCode (N.min (nfail fixed_cfg fs seek quiet (concat cfs)) U64_MAX)).
Proof. intros. apply check_all_lines_processed. reflexivity. Qed.

(* ... and FALSE under asis_cfg, main.rs before the repair of the hex loop (Props/C13.v): a 64-byte hash field ending
   in a two-byte character aborts the run with status 101 and the correct entry after it is never checked *)
Theorem C12_check_continues_refuted_on_unchanged_code :
  exists lines, b3sum_check asis_cfg fs_c 0 false [Some lines] = ([], ExitPanic PANIC_HEX_LOW) /\
                exit_status (ExitPanic PANIC_HEX_LOW) = 101 /\
                In (LText good_line_c) lines /\
                check_one_line asis_cfg fs_c 0 false good_line_c = Ok (true, [99] ++ OK_SUFFIX).
Proof. exact check_continues_refuted. Qed.

(* non-vacuity: one good, one stale, one missing, one malformed line, then another good one *)
Example C12_nonvacuous :
  let fs : fsys := fun p => if list_eqb p [99] then inr (fun i => nth (N.to_nat i) h_lo 0)
                            else if list_eqb p [100] then inr (fun _ => 7)
                            else inl [78; 111] in
  let good := print_line false [99] (hex_of_bytes h_lo) in
  let stale := print_line true [100] (hex_of_bytes h_lo) in
  let missing := print_line false [101] (hex_of_bytes h_lo) in
  b3sum_check fixed_cfg fs 0 false [Some [LText good; LText stale; LText missing; LText [120; 10]; LText good]] =
  ([99] ++ OK_SUFFIX ++ [100] ++ FAILED_SUFFIX ++ [101] ++ FAILED_OPEN ++ [78; 111; 41; 10] ++ [99] ++ OK_SUFFIX,
   ExitCode 3).
Proof. vm_compute. reflexivity. Qed.

(* the exit status expression of main() is translated (gen/GenB3sum.v b3_exit_status; the anchors also pin that one counter
   is initialised to 0, passed by reference to every checkfile and incremented once per failing line / input) *)
From V Require gen.GenB3sum.
Theorem C12_exit_status_is_source : forall f, exit_status (ExitCode f) = GenB3sum.b3_exit_status f.
Proof. intros f. reflexivity. Qed.

Print Assumptions C12_exit_status_is_source.
Print Assumptions C12_hex_output_spec.
Print Assumptions C12_raw_output_spec.
Print Assumptions C12_hash_one_input_spec.
Print Assumptions C12_digest_is_library_xof.
Print Assumptions C12_read_key_spec.
Print Assumptions C12_line_ok_iff.
Print Assumptions C12_exit_status_spec.
Print Assumptions C12_failing_line_diagnosed.
Print Assumptions C12_check_all_lines_processed.
Print Assumptions C12_check_continues_refuted_on_unchanged_code.

(* The functions of b3sum/src/main.rs TRANSLATED statement by statement (gen/GenB3sumFns2.v, tools/gen_coq_b3sumfns.py)
   are the model, for all inputs.  Oracles: stream = N -> N, ext_fill = SFILL (= srange), ext_hash_file = fsys,
   ext_open_checkfile = opener (pending read_line results); stdout `o` / stderr `e` are threaded (any initial content). *)
From V Require Import Base.Str gen.GenB3sumFns2 Proofs.GenB3sumFnsP Proofs.GenB3sumFns2P.

(* check_one_line: same success flag, stdout grows by the model's text, stderr by `b3sum: <parse error>` *)
Theorem C12_src_check_one_line : forall (fs : fsys) seek quiet fuel line o e,
  (length line <= fuel)%nat -> str_len line < 18446744073709551616 ->
  gen_check_one_line false (N -> N) fs SFILL quiet seek fuel line o e =
  match check_one_line fixed_cfg fs seek quiet line with
  | Ok (b, out) => Ok (b, o ++ out, e ++ parse_err_line (parse_check_line fixed_cfg line))
  | Panic c => Panic c
  | OutOfFuel => OutOfFuel
  end.
Proof. exact gen_check_one_line_spec. Qed.

(* check_one_checkfile: an unopenable checkfile is Err (counter and streams untouched); otherwise the line loop is the
   model's check_lines: every line is checked, each failing one adds 1 (saturating) to files_failed, a read error ends
   the function with Err (loop_rel: Ok(()) with the model's counter / Err / never ExitCode) *)
Theorem C12_src_check_one_checkfile : forall (fs : fsys) opener seek quiet fuel path ff o e,
  match opener path with
  | inl msg => gen_check_one_checkfile false (N -> N) fs SFILL opener quiet seek fuel path ff o e = Ok (inl msg, ff, o, e)
  | inr rd => lines_ok fuel rd ->
      match check_lines fixed_cfg fs seek quiet (cl_of rd) ff with
      | (out, inr ff') =>
          gen_check_one_checkfile false (N -> N) fs SFILL opener quiet seek fuel path ff o e = Ok (inr tt, ff', o ++ out, e ++ err_log rd)
      | (out, inl ExitError) => exists msg ff',
          gen_check_one_checkfile false (N -> N) fs SFILL opener quiet seek fuel path ff o e = Ok (inl msg, ff', o ++ out, e ++ err_log rd)
      | (_, inl (ExitPanic c)) =>
          gen_check_one_checkfile false (N -> N) fs SFILL opener quiet seek fuel path ff o e = Panic c \/
          gen_check_one_checkfile false (N -> N) fs SFILL opener quiet seek fuel path ff o e = OutOfFuel
      | (_, inl (ExitCode _)) => False
      end
  end.
Proof.
  intros fs opener seek quiet fuel path ff o e. pose proof (gen_check_one_checkfile_spec fs opener seek quiet fuel path ff o e) as H.
  destruct (opener path); [exact H|intros LK; exact (loop_ok_rel _ _ _ _ _ (H LK))].
Qed.

Theorem C12_src_saturating_add : forall ff, s_sat_add64 ff 1 = sat_add1 ff.
Proof. exact sat_add_eq. Qed.

(* write_hex_output (the stream delivers bytes): stdout grows by exactly the model's hex text *)
Theorem C12_src_write_hex_output : forall St, (forall i, St i < 256) -> forall len fuel pos o e,
  gen_write_hex_output (N -> N) SFILL len fuel (St, pos) o e =
  match write_hex_output fuel St pos len with
  | Ok h => Ok (inr tt, o ++ h, e)
  | Panic c => Panic c
  | OutOfFuel => OutOfFuel
  end.
Proof. exact gen_write_hex_output_spec. Qed.

(* write_raw_output: io::copy of output.take(len) with a copy buffer of any size writes the model's bytes *)
Theorem C12_src_write_raw_output : forall St chunk len fuel pos o e,
  gen_write_raw_output (N -> N) SFILL chunk len fuel (St, pos) o e =
  match write_raw_output fuel chunk St pos len with
  | Ok d => Ok (inr tt, o ++ d, e)
  | Panic c => Panic c
  | OutOfFuel => OutOfFuel
  end.
Proof. exact gen_write_raw_output_spec. Qed.

(* with the fuel of C12_hex_output_spec / C12_raw_output_spec: the translated functions emit the digest *)
Theorem C12_src_outputs_are_digest : forall St, (forall i, St i < 256) -> forall chunk seek len o e, seek + len <= U64_MAX ->
  gen_write_hex_output (N -> N) SFILL len (hex_fuel len) (St, seek) o e = Ok (inr tt, o ++ hex_of_bytes (digest St seek len), e) /\
  gen_write_raw_output (N -> N) SFILL chunk len (S (N.to_nat (len / N.max 1 chunk))) (St, seek) o e = Ok (inr tt, o ++ digest St seek len, e).
Proof.
  intros St BY chunk seek len o e B. split.
  - rewrite (gen_write_hex_output_spec St BY), (hex_output_spec St seek len B). reflexivity.
  - rewrite gen_write_raw_output_spec, (raw_output_spec chunk St seek len B). reflexivity.
Qed.

(* the closure of main (everything after the thread pool is built), --check: stdout is the model's; the value passed to
   std::process::exit is the model's exit status of the final count; an Err leaving main (unopenable checkfile, read
   error) is the model's ExitError.  cf_of opener p = None (cannot be opened) | Some (lines) *)
Theorem C12_src_main_check : forall lossy (fs : fsys) opener chunk len seek quiet raw nn tag paths fuel o e,
  (forall p rd, In p paths -> opener p = inr rd -> lines_ok fuel rd) ->
  let g := gen_main lossy false (N -> N) fs SFILL opener chunk quiet len seek raw nn tag true paths fuel o e in
  match b3sum_check fixed_cfg fs seek quiet (map (cf_of opener) paths) with
  | (out, ExitCode ff) => exists e', g = Ok (inr (exit_status (ExitCode ff)), o ++ out, e')
  | (out, ExitError) => exists msg e', g = Ok (inl msg, o ++ out, e')
  | (_, ExitPanic c) => g = Panic c \/ g = OutOfFuel
  end.
Proof.
  intros lossy fs opener chunk len seek quiet raw nn tag paths fuel o e OKS.
  pose proof (gen_main_check_spec lossy fs opener chunk len seek quiet raw nn tag paths fuel o e OKS) as H. cbv zeta in *.
  destruct (b3sum_check _ _ _ _ _) as [out [ff| |c]]; [exact H|exact H|destruct H].
Qed.

(* hash_one_input: a failing hash_path is Err with nothing printed; otherwise stdout grows by the model's output *)
Theorem C12_src_hash_one_input : forall (fs : fsys) chunk fl fuel path o e,
  (N.to_nat (f_length fl / 64) < fuel)%nat -> (N.to_nat (f_length fl / N.max 1 chunk) < fuel)%nat ->
  let g := gen_hash_one_input utf8_lossy false (N -> N) fs SFILL chunk (f_length fl) (f_seek fl)
             (f_raw fl) (f_no_names fl) (f_tag fl) fuel path o e in
  match fs path with
  | inl msg => g = Ok (inl msg, o, e)
  | inr St => (forall i, St i < 256) -> exists out, hash_one_input fl St path = Ok out /\ g = Ok (inr tt, o ++ out, e)
  end.
Proof. exact gen_hash_one_input_spec. Qed.

(* the closure of main without --check: stdout and the failure count are the model's run_hash; exit status from the count *)
Theorem C12_src_main_hash : forall (fs : fsys) opener chunk fl quiet paths fuel o e,
  (N.to_nat (f_length fl / 64) < fuel)%nat -> (N.to_nat (f_length fl / N.max 1 chunk) < fuel)%nat ->
  (forall p St, In p paths -> fs p = inr St -> forall i, St i < 256) ->
  exists out ff e', run_hash fl (map (in_of fs) paths) 0 = Ok (out, ff) /\
    gen_main utf8_lossy false (N -> N) fs SFILL opener chunk quiet (f_length fl) (f_seek fl)
      (f_raw fl) (f_no_names fl) (f_tag fl) false paths fuel o e = Ok (inr (exit_status (ExitCode ff)), o ++ out, e').
Proof. exact gen_main_hash_spec. Qed.

(* the status expression of the translated main is the one pinned by the literal anchors *)
Theorem C12_src_exit_status_expr : forall ff, exit_status (ExitCode ff) = GenB3sum.b3_exit_status ff.
Proof. intros ff. reflexivity. Qed.

Print Assumptions C12_src_check_one_line.
Print Assumptions C12_src_check_one_checkfile.
Print Assumptions C12_src_saturating_add.
Print Assumptions C12_src_write_hex_output.
Print Assumptions C12_src_write_raw_output.
Print Assumptions C12_src_outputs_are_digest.
Print Assumptions C12_src_main_check.
Print Assumptions C12_src_hash_one_input.
Print Assumptions C12_src_main_hash.
Print Assumptions C12_src_exit_status_expr.
