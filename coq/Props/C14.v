(* C14: Hash values convert losslessly and compare by content. *)
From Coq Require Import NArith List Bool.
From V Require Import Base.Res Base.Word gen.GenConsts Model.RsHash Proofs.RsHashP.
Import ListNotations.
Open Scope N_scope.

(* to_hex / Display: 64 lowercase hex digits, never panics *)
Theorem C14_to_hex_lowercase_64 : forall h,
  length h = 32%nat -> all_bytes h = true ->
  exists s, to_hex h = Ok s /\ length s = 64%nat /\ forallb is_lower_hex s = true.
Proof. exact to_hex_lowercase_64. Qed.

(* from_hex (and FromStr) maps to_hex's output back to the same Hash *)
Theorem C14_from_hex_to_hex : forall h s,
  length h = 32%nat -> all_bytes h = true -> to_hex h = Ok s -> from_hex s = Ok (HexOk h).
Proof. exact from_hex_to_hex. Qed.

(* for every byte string: a result, never a panic *)
Theorem C14_from_hex_total : forall s, all_bytes s = true -> exists r, from_hex s = Ok r.
Proof. exact from_hex_total. Qed.

(* accepts exactly the 64-character strings over 0-9 a-f A-F *)
Theorem C14_from_hex_accepts_iff : forall s, all_bytes s = true ->
  ((exists h, from_hex s = Ok (HexOk h)) <-> (length s = 64%nat /\ forallb is_hex_digit s = true)).
Proof. exact from_hex_accepts_iff. Qed.

Theorem C14_from_hex_value : forall s h,
  all_bytes s = true -> from_hex s = Ok (HexOk h) -> h = decode_pairs s.
Proof. exact from_hex_value. Qed.

Theorem C14_from_hex_case_insensitive : forall s h,
  all_bytes s = true -> from_hex s = Ok (HexOk h) -> from_hex (map to_lower s) = Ok (HexOk h).
Proof. exact from_hex_case_insensitive. Qed.

Theorem C14_from_slice_ok_iff_32 : forall bs, (exists h, from_slice bs = Some h) <-> length bs = 32%nat.
Proof. exact from_slice_ok_iff_32. Qed.

Theorem C14_from_slice_lossless : forall bs h, from_slice bs = Some h -> as_slice h = bs.
Proof. exact from_slice_lossless. Qed.

(* ==: true exactly when the byte sequences are identical (Hash/Hash, Hash/[u8;32], Hash/[u8]) *)
Theorem C14_eq_iff_bytes_equal : forall a b, constant_time_eq a b = true <-> a = b.
Proof. exact eq_iff_bytes_equal. Qed.

(* non-vacuity: a concrete hash meets the hypotheses and round-trips *)
Example C14_nonvacuous :
  let h := map N.of_nat (seq 100 32) in
  length h = 32%nat /\ all_bytes h = true /\
  exists s, to_hex h = Ok s /\ from_hex s = Ok (HexOk h) /\ from_hex (map (fun c => if c =? 97 then 65 else c) s) = Ok (HexOk h).
Proof.
  cbv zeta. split; [reflexivity|]. split; [vm_compute; reflexivity|].
  eexists. split; [vm_compute; reflexivity|]. split; vm_compute; reflexivity.
Qed.

(* the functions of the modelled source are exactly the functions the model was written against
   (gen/GenApi.v is regenerated from /repo on every run; see Model/ApiSurface.v) *)
From V Require gen.GenApi Model.ApiSurface.
Theorem C14_api_lib_hash : GenApi.api_lib_hash = ApiSurface.expected_lib_hash.
Proof. reflexivity. Qed.

Print Assumptions C14_api_lib_hash.
Print Assumptions C14_to_hex_lowercase_64.
Print Assumptions C14_from_hex_to_hex.
Print Assumptions C14_from_hex_total.
Print Assumptions C14_from_hex_accepts_iff.
Print Assumptions C14_from_hex_value.
Print Assumptions C14_from_hex_case_insensitive.
Print Assumptions C14_from_slice_ok_iff_32.
Print Assumptions C14_from_slice_lossless.
Print Assumptions C14_eq_iff_bytes_equal.

(* the `Hash` value type of src/lib.rs, translated function by function (gen/GenHashFns.v, regenerated from the
   current source text by tools/gen_coq_hash.py): each translated function equals the function of Model/RsHash.v
   the theorems above are about.  constant_time_eq_32 / constant_time_eq of the constant_time_eq crate enter as the
   model's constant_time_eq (by contract). *)
From V Require Import gen.GenHashFns Proofs.GenHashFnsP.

Theorem C14_src_to_hex : forall h, all_bytes h = true -> src_Hash_to_hex h = to_hex h.
Proof. exact gen_to_hex. Qed.
Theorem C14_src_display : forall h, all_bytes h = true -> src_Display_for_Hash_fmt h = display h.
Proof. exact gen_display. Qed.
Theorem C14_src_from_hex : forall s, src_Hash_from_hex s = from_hex s.
Proof. exact gen_from_hex. Qed.
Theorem C14_src_from_str : forall s, src_FromStr_for_Hash_from_str s = from_str s.
Proof. exact gen_from_str. Qed.
Theorem C14_src_from_slice : forall bs, src_Hash_from_slice bs = from_slice bs.
Proof. exact gen_from_slice. Qed.
Theorem C14_src_views : forall h,
  src_Hash_as_bytes h = as_bytes h /\ src_Hash_from_bytes h = from_bytes h /\ src_Hash_as_slice h = as_slice h /\
  src_From_array_for_Hash_from h = from_bytes h /\ src_From_Hash_for_array_from h = as_bytes h.
Proof. exact gen_views. Qed.
Theorem C14_src_eq : forall a b,
  src_PartialEq_for_Hash_eq constant_time_eq a b = hash_eq a b /\
  src_PartialEq_array_for_Hash_eq constant_time_eq a b = hash_eq a b /\
  src_PartialEq_slice_for_Hash_eq constant_time_eq a b = hash_eq_slice a b.
Proof. exact gen_eq. Qed.
(* composed with the theorems above: the translated text itself round-trips *)
Theorem C14_src_round_trip : forall h s,
  length h = 32%nat -> all_bytes h = true -> src_Hash_to_hex h = Ok s -> src_FromStr_for_Hash_from_str s = Ok (HexOk h).
Proof. exact gen_round_trip. Qed.
Print Assumptions C14_src_to_hex.
Print Assumptions C14_src_display.
Print Assumptions C14_src_from_hex.
Print Assumptions C14_src_from_str.
Print Assumptions C14_src_from_slice.
Print Assumptions C14_src_views.
Print Assumptions C14_src_eq.
Print Assumptions C14_src_round_trip.
