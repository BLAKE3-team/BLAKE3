(* C17: secret state is neither printed by Debug nor left behind by zeroize. *)
From Coq Require Import NArith List Bool.
From V Require Import Base.Res Base.Word Spec.Tree Model.Platform Model.RsChunk Model.RsHasher Model.RsXof
  Model.RsDebug Model.Machine Proofs.MiscP.
Import ListNotations.
Open Scope N_scope.

(* Debug output depends on the public fields only *)
Theorem C17_debug_hasher_public : forall h1 h2 pname,
  h_flags h1 = h_flags h2 -> debug_hasher h1 pname = debug_hasher h2 pname.
Proof. exact debug_hasher_public. Qed.

Theorem C17_debug_hasher_ignores_secrets :
  forall key1 key2 cv1 cv2 buf1 buf2 bl1 bl2 blk1 blk2 ctr1 ctr2 init1 init2 st1 st2 fl pname,
  debug_hasher (mkHasher key1 (mkCS cv1 ctr1 buf1 bl1 blk1 fl) init1 st1) pname =
  debug_hasher (mkHasher key2 (mkCS cv2 ctr2 buf2 bl2 blk2 fl) init2 st2) pname.
Proof. exact debug_hasher_ignores_secrets. Qed.

Theorem C17_debug_reader_public : forall r1 r2,
  reader_position r1 = reader_position r2 -> debug_reader r1 = debug_reader r2.
Proof. exact debug_reader_public. Qed.

Theorem C17_debug_chunk_state_public : forall c1 c2 pname,
  cs_count c1 = cs_count c2 -> cs_ctr c1 = cs_ctr c2 -> cs_flags c1 = cs_flags c2 ->
  debug_chunk_state c1 pname = debug_chunk_state c2 pname.
Proof. exact debug_chunk_state_public. Qed.

(* after zeroize every field except `platform` is zero (all 55 stack slots: the stack is empty
   and the model has no backing array; the harness scans the real backing array) *)
Theorem C17_zeroize_hasher : forall h, hasher_is_zero (zero_hasher h) = true.
Proof. exact zero_hasher_is_zero. Qed.
Theorem C17_zeroize_reader : forall r, reader_is_zero (zero_reader r) = true.
Proof. exact zero_reader_is_zero. Qed.

Example C17_nonvacuous :
  debug_hasher (new_internal [1;2;3;4;5;6;7;8] 16) [65;86;88;50] =
  [72;97;115;104;101;114;32;123;32;102;108;97;103;115;58;32;49;54;44;32;112;108;97;116;102;111;114;109;58;32;65;86;88;50;32;125].
Proof. vm_compute. reflexivity. Qed.

(* the functions of the modelled source are exactly the functions the model was written against
   (gen/GenApi.v is regenerated from /repo on every run; see Model/ApiSurface.v) *)
From V Require gen.GenApi Model.ApiSurface.
Theorem C17_api_lib_secret : GenApi.api_lib_secret = ApiSurface.expected_lib_secret.
Proof. reflexivity. Qed.

Print Assumptions C17_api_lib_secret.
Print Assumptions C17_debug_hasher_public.
Print Assumptions C17_debug_hasher_ignores_secrets.
Print Assumptions C17_debug_reader_public.
Print Assumptions C17_debug_chunk_state_public.
Print Assumptions C17_zeroize_hasher.
Print Assumptions C17_zeroize_reader.

(* the Zeroize / Debug impls of src/lib.rs as translated into data (gen/GenSecret.v, tools/gen_coq_secret.py) *)
From Coq Require Import String.
From V Require Import gen.GenSecret Proofs.GenSecretP.
Open Scope string_scope.

(* every Zeroize impl destructures ALL declared fields (no `..`), skips at most `platform`, and calls .zeroize() on every
   other field exactly once (the translator rejects any other statement in the body) *)
Theorem C17_src_zeroize_bodies :
  zeroize_complete fields_Hash zeroize_pattern_Hash zeroize_calls_Hash /\
  zeroize_complete fields_Output zeroize_pattern_Output zeroize_calls_Output /\
  zeroize_complete fields_ChunkState zeroize_pattern_ChunkState zeroize_calls_ChunkState /\
  zeroize_complete fields_Hasher zeroize_pattern_Hasher zeroize_calls_Hasher /\
  zeroize_complete fields_OutputReader zeroize_pattern_OutputReader zeroize_calls_OutputReader.
Proof. exact (conj zeroize_Hash (conj zeroize_Output (conj zeroize_ChunkState (conj zeroize_Hasher zeroize_OutputReader)))). Qed.
Theorem C17_src_zeroize_wipes_every_field : forall fields pat calls, zeroize_complete fields pat calls ->
  forall f, In f fields -> f = "platform" \/ In f calls.
Proof. exact zeroize_complete_wipes. Qed.
Theorem C17_src_zeroize_all_fields :
  zeroize_calls_Hash = fields_Hash /\ zeroize_calls_Hasher = fields_Hasher /\ zeroize_calls_OutputReader = fields_OutputReader.
Proof. exact zeroize_all_fields. Qed.
Theorem C17_src_no_derived_debug :
  ~ In "Debug" derives_Hash /\ ~ In "Debug" derives_Output /\ ~ In "Debug" derives_ChunkState /\
  ~ In "Debug" derives_Hasher /\ ~ In "Debug" derives_OutputReader.
Proof. exact no_derived_debug. Qed.
Theorem C17_src_debug_impls : debug_impls = ["Hash"; "ChunkState"; "Hasher"; "OutputReader"].
Proof. exact debug_impls_are. Qed.
Theorem C17_src_debug_fields :
  debug_builder_Hasher = ("debug_struct", "Hasher") /\
  debug_fields_Hasher = [("flags", "&self.chunk_state.flags"); ("platform", "&self.chunk_state.platform")] /\
  debug_builder_ChunkState = ("debug_struct", "ChunkState") /\
  debug_fields_ChunkState = [("count", "&self.count()"); ("chunk_counter", "&self.chunk_counter"); ("flags", "&self.flags");
                             ("platform", "&self.platform")] /\
  debug_builder_OutputReader = ("debug_struct", "OutputReader") /\
  debug_fields_OutputReader = [("position", "&self.position()")] /\
  debug_builder_Hash = ("debug_tuple", "Hash") /\ debug_fields_Hash = [("", "&hex")].
Proof. exact debug_fields_are. Qed.
Print Assumptions C17_src_zeroize_bodies.
Print Assumptions C17_src_zeroize_wipes_every_field.
Print Assumptions C17_src_zeroize_all_fields.
Print Assumptions C17_src_no_derived_debug.
Print Assumptions C17_src_debug_impls.
Print Assumptions C17_src_debug_fields.
