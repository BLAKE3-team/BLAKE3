(* C06: the C library (c/blake3.c behind the dispatcher) computes the specification.
   The model is Model/CHasher.v; `platform` / PlatformOK (Model/Platform.v) stand for every CPU-feature level the
   dispatcher can select (C05 ties the real kernels to PlatformOK); `stream spec_c64 o p n` is the specification's
   S[p .. p+n) of the root output o (Spec/Tree.v); `Ok` in a conclusion means that no array index of the model
   (cv_stack, cv_array, out, chunk buffer) left its bounds, no C assert fired and no unsigned arithmetic wrapped.
   The end-to-end theorems rest on the hasher invariant CInv of Proofs/CHasherP4.v (analogue of Inv in
   Proofs/HasherP.v): established by hasher_init_base, preserved by hasher_update from any state satisfying it, and
   sufficient for the roll-up loop of finalize_seek. *)
From Coq Require Import NArith ZArith List Bool.
From V Require Import Base.Res Base.Word Base.MachInt gen.GenConsts gen.GenFormulas
  Spec.Compress Spec.Tree Spec.Blake3 Model.Portable Model.Platform Model.RsChunk Model.RsWide Model.CHasher
  Proofs.TreeP Proofs.WideP Proofs.XofP Proofs.StackArithP Proofs.CFormulasP Proofs.CHasherP Proofs.CHasherP2 Proofs.CHasherP3 Proofs.CHasherP4 Proofs.ExamplesP.
From V Require Proofs.CMachineRefinesP.
Import ListNotations.
Open Scope N_scope.

Theorem C06_formulas_round_down : forall n, 1 <= n -> n < 2 ^ 64 ->
  c_round_down_to_power_of_2 n = Ok (2 ^ N.log2 n) /\
  c_round_down_to_power_of_2 n = rs_largest_power_of_two_leq n.
Proof. intros n H1 H2. split; [apply c_round_down_spec|apply c_round_down_is_rs]; assumption. Qed.

Theorem C06_formulas_left_subtree_len : forall n, 1024 < n -> n < 2 ^ 64 ->
  c_left_subtree_len n = Ok (left_len n) /\ c_left_subtree_len n = rs_left_subtree_len n.
Proof. intros n H1 H2. split; [apply c_left_subtree_len_spec|apply c_left_subtree_len_is_rs]; assumption. Qed.

Theorem C06_formulas_constants :
  c_IV = IV /\ c_IV = rs_IV /\ c_MSG_SCHEDULE = rs_MSG_SCHEDULE /\
  c_KEY_LEN = 32 /\ c_OUT_LEN = 32 /\ c_BLOCK_LEN = 64 /\ c_CHUNK_LEN = 1024 /\
  (c_KEY_LEN, c_OUT_LEN, c_BLOCK_LEN, c_CHUNK_LEN) = (rs_KEY_LEN, rs_OUT_LEN, rs_BLOCK_LEN, rs_CHUNK_LEN) /\
  (c_flag_CHUNK_START, c_flag_CHUNK_END, c_flag_PARENT, c_flag_ROOT, c_flag_KEYED_HASH, c_flag_DERIVE_KEY_CONTEXT,
   c_flag_DERIVE_KEY_MATERIAL) = (CHUNK_START, CHUNK_END, PARENT, ROOT, KEYED_HASH, DERIVE_KEY_CONTEXT, DERIVE_KEY_MATERIAL) /\
  (c_flag_CHUNK_START, c_flag_CHUNK_END, c_flag_PARENT, c_flag_ROOT, c_flag_KEYED_HASH, c_flag_DERIVE_KEY_CONTEXT,
   c_flag_DERIVE_KEY_MATERIAL) = (rs_flag_CHUNK_START, rs_flag_CHUNK_END, rs_flag_PARENT, rs_flag_ROOT, rs_flag_KEYED_HASH,
   rs_flag_DERIVE_KEY_CONTEXT, rs_flag_DERIVE_KEY_MATERIAL) /\
  c_MAX_DEPTH = rs_MAX_DEPTH /\ c_cv_stack_bytes / c_OUT_LEN = rs_cv_stack_cap /\
  c_MAX_SIMD_DEGREE = 16 /\ c_MAX_SIMD_DEGREE_OR_2 = 16.
Proof. exact c_consts. Qed.

(* popcnt, `out_len & -64`, the shrink condition (same formula as the Rust source) *)
Theorem C06_formulas_small :
  (forall x, x < 2 ^ 64 -> c_popcnt x = Ok (popcount x)) /\
  (forall n, n < 2 ^ 64 -> c_orb_whole n = Ok (n / 64 * 64)) /\
  (forall seek, c_orb_counter seek = Ok (seek / 64) /\ c_orb_offset seek = Ok (seek mod 64)) /\
  (forall l c, c_shrink_cond l c = rs_shrink_cond l c) /\
  (forall blocks buf_len, blocks < 256 -> buf_len < 256 -> c_chunk_state_len blocks buf_len = Ok (64 * blocks + buf_len)).
Proof.
  split; [exact c_popcnt_spec|]. split; [exact c_orb_whole_spec|].
  split; [intros; split; reflexivity|]. split; [exact c_shrink_cond_is_rs|exact c_chunk_state_len_spec].
Qed.

(* the dispatcher's platforms satisfy PlatformOK at every level *)
Theorem C06_platforms_ok : forall d, In d [1; 4; 8; 16] -> PlatformOK (c_platform d).
Proof.
  intros d Hd. apply sim_platform_ok; cbn in Hd;
    repeat (destruct Hd as [<-|Hd]; [try reflexivity; try (cbv; discriminate)|]); try contradiction.
Qed.

(* output_root_bytes: exactly S[seek .. seek + out_len) *)
Theorem C06_output_root_bytes_spec : forall p, PlatformOK p -> forall o seek out_len,
  wf_out o -> seek + out_len <= 2 ^ 64 - 1 ->
  c_output_root_bytes p o seek out_len = Ok (stream spec_c64 o seek (N.to_nat out_len)).
Proof. exact c_output_root_bytes_spec. Qed.

(* reset: the state hasher_init_base produces for the same key and flags *)
Theorem C06_reset_is_init : forall p mem key flags h,
  c_reach p (c_hasher_init_base mem key flags) h ->
  c_hasher_reset h = c_hasher_init_base (ch_stack h) key flags.
Proof. exact c_reset_is_init_base. Qed.

(* update never changes key, flags or the size of the stack array *)
Theorem C06_update_preserves_mode : forall p h input h', c_hasher_update p h input = Ok h' ->
  ch_key h' = ch_key h /\ ch_flags h' = ch_flags h /\ length (ch_stack h') = length (ch_stack h).
Proof. exact c_hasher_update_fields. Qed.

(* init_derive_key on a NUL-free context = init_derive_key_raw on the same bytes *)
Theorem C06_derive_key_agree : forall p mem ctx rest, Forall (fun b => b <> 0) ctx ->
  c_hasher_init_derive_key p mem (ctx ++ 0 :: rest) = c_hasher_init_derive_key_raw p mem ctx.
Proof. exact c_derive_key_agree. Qed.

(* zero-length update and output are no-ops *)
Theorem C06_zero_length_noops : forall p h seek o,
  c_hasher_update p h [] = Ok h /\ c_hasher_finalize_seek p h seek 0 = Ok [] /\
  c_hasher_finalize p h 0 = Ok [] /\ c_output_root_bytes p o seek 0 = Ok [].
Proof. intros. repeat split; reflexivity. Qed.

(* finalize leaves the hasher unchanged; what the harness observes with cl / f / cmp *)
Theorem C06_finalize_pure : forall p m st o st' obs,
  (exists i n, o = COpFinalize i n) \/ (exists i s n, o = COpFinalizeSeek i s n) \/ (exists i, o = COpFinalize0 i) ->
  c_step p m st o = Ok (st', obs) -> st' = st.
Proof. exact c_finalize_pure. Qed.

Theorem C06_clone_finalize_cmp : forall p m st i n h bs,
  c_get st i = Ok h -> c_hasher_finalize p h n = Ok bs ->
  c_run_ops p m st [COpClone i; COpFinalize i n; COpCmp i (length st)] [] = ([CObXof bs; CObSame true], Ok tt).
Proof. exact c_clone_finalize_cmp. Qed.

(* the wide path: compress_subtree_to_parent_node returns the two children of the specification tree *)
Theorem C06_subtree_to_parent_node_spec : forall p, PlatformOK p -> forall K F, length K = 8%nat ->
  forall input ctr, 1024 < len input -> len input < 2 ^ 64 -> ctr + chunks (len input) < 2 ^ 64 ->
  exists ta tb, c_compress_subtree_to_parent_node p input K ctr F = Ok (tree_cv spec_c8 K F ta ++ tree_cv spec_c8 K F tb) /\
                spec_tree wide_fuel ctr input = Node ta tb /\ wf_tree ta /\ wf_tree tb.
Proof. exact c_to_parent_node_spec. Qed.

(* whenever the Rust model's wide function succeeds, the C one succeeds with the same CVs *)
Theorem C06_wide_is_rs : forall p, 1 <= p_degree p -> forall fuel input key ctr flags cap v,
  nlen input < 2 ^ 64 ->
  compress_subtree_wide fuel p input key ctr flags cap = Ok v ->
  c_compress_subtree_wide fuel p input key ctr flags cap = Ok v.
Proof. exact c_wide_sim. Qed.

(* the in-place CV stack.
   StackRel h l: the first cv_stack_len slots hold the CVs of the abstract entries l (exponent, subtree), bottom
   first; Segs 0 l m: the entries are the specification subtrees of consecutive pieces of m; Dom / SDom: sizes are
   (strictly) dominated from the bottom (Proofs/StackArithP.v). *)
Theorem C06_merge_cv_stack_spec : forall p, PlatformOK p -> forall K F, length K = 8%nat -> forall h l T,
  StackRel K F h l -> Dom (exps l) -> T = sum2 (exps l) -> T < 2 ^ 64 ->
  exists h' l', c_merge_cv_stack p h T = Ok h' /\ StackRel K F h' l' /\
    SDom (exps l') /\ sum2 (exps l') = T /\ ch_chunk h' = ch_chunk h /\
    (forall ctr bytes, len bytes < 2 ^ 64 -> Segs ctr l bytes -> Segs ctr l' bytes) /\
    (SDom (exps l) -> l' = l).
Proof. exact c_merge_cv_stack_spec. Qed.

Theorem C06_push_cv_spec : forall p, PlatformOK p -> forall K F, length K = 8%nat -> forall h l T e t,
  StackRel K F h l -> Dom (exps l) -> T = sum2 (exps l) -> T < 2 ^ 54 -> wf_tree t ->
  exists h' l', c_push_cv p h (tree_cv spec_c8 K F t) T = Ok h' /\ StackRel K F h' (l' ++ [(e, t)]) /\
    SDom (exps l') /\ sum2 (exps l') = T /\ ch_chunk h' = ch_chunk h /\
    (forall ctr bytes, len bytes < 2 ^ 64 -> Segs ctr l bytes -> Segs ctr l' bytes) /\
    (SDom (exps l) -> l' = l).
Proof. exact c_push_cv_spec. Qed.

(* the `while (input_len > BLAKE3_CHUNK_LEN)` loop of blake3_hasher_update, from any state whose chunk buffer is
   empty (LInv): it consumes a prefix of the input that leaves at most one chunk, and the stack then holds the
   specification subtrees of everything absorbed so far *)
Theorem C06_update_loop_refines : forall p, PlatformOK p -> forall K F, length K = 8%nat ->
  forall fuel h m l input,
  LInv K F h m l -> len (m ++ input) < 2 ^ 64 -> (N.to_nat (len input / 1024) < fuel)%nat ->
  exists h' l' k, c_update_loop fuel p h input = Ok (h', drop k input) /\ LInv K F h' (m ++ take k input) l' /\
    k <= len input /\ len input - k <= 1024 /\
    ((k = 0 /\ h' = h /\ l' = l) \/ (0 < k /\ (len input - k = 0 -> exists pre a, exps l' = pre ++ [a; a]))).
Proof. exact c_update_loop_spec. Qed.

(* init, one update, finalize_seek: every message shorter than 2^64 bytes, every key / flags (i.e. every
   initialiser), every previous content of the cv_stack memory, every seek and output length *)
Theorem C06_one_shot_spec : forall p, PlatformOK p -> forall K F, length K = 8%nat ->
  forall mem m seek out_len,
  length mem = 55%nat -> len m < 2 ^ 64 -> seek + out_len <= 2 ^ 64 - 1 ->
  (h <- c_hasher_update p (c_hasher_init_base mem K F) m ;; c_hasher_finalize_seek p h seek out_len) =
  Ok (stream spec_c64 (subtree_output spec_c8 tree_height K F 0 m) seek (N.to_nat out_len)).
Proof. exact c_one_shot_spec. Qed.

(* blake3_hasher_init: the specification's extended output of the hash mode *)
Theorem C06_one_shot_hash : forall p, PlatformOK p -> forall mem m seek out_len,
  length mem = 55%nat -> len m < 2 ^ 64 -> seek + out_len <= 2 ^ 64 - 1 ->
  (h <- c_hasher_update p (c_hasher_init mem) m ;; c_hasher_finalize_seek p h seek out_len) =
  Ok (b3_xof_mode Hash m seek (N.to_nat out_len)).
Proof. intros p POK. exact (c_one_shot_spec p POK IV 0 eq_refl). Qed.

(* any sequence of updates i1 .. ik (the fold is update(.. update(update(h0, i1), i2) .., ik), stopping at the
   first failure), then finalize_seek: the specification stream of i1 ++ .. ++ ik *)
Theorem C06_update_refines : forall p, PlatformOK p -> forall K F, length K = 8%nat ->
  forall mem pieces seek out_len,
  length mem = 55%nat -> len (concat pieces) < 2 ^ 64 -> seek + out_len <= 2 ^ 64 - 1 ->
  exists h,
    fold_left (fun r x => h <- r ;; c_hasher_update p h x) pieces (Ok (c_hasher_init_base mem K F)) = Ok h /\
    c_hasher_finalize_seek p h seek out_len =
    Ok (stream spec_c64 (subtree_output spec_c8 tree_height K F 0 (concat pieces)) seek (N.to_nat out_len)).
Proof. exact c_update_refines. Qed.

(* the three public modes: blake3_hasher_init, _init_keyed (32-byte key), _init_derive_key_raw (C06_derive_key_agree
   covers _init_derive_key) *)
Theorem C06_update_refines_hash : forall p, PlatformOK p -> forall mem pieces seek out_len,
  length mem = 55%nat -> len (concat pieces) < 2 ^ 64 -> seek + out_len <= 2 ^ 64 - 1 ->
  exists h,
    fold_left (fun r x => h <- r ;; c_hasher_update p h x) pieces (Ok (c_hasher_init mem)) = Ok h /\
    c_hasher_finalize_seek p h seek out_len = Ok (b3_xof_mode Hash (concat pieces) seek (N.to_nat out_len)).
Proof. exact c_update_refines_hash. Qed.

Theorem C06_update_refines_keyed : forall p, PlatformOK p -> forall mem key pieces seek out_len,
  length key = 32%nat -> length mem = 55%nat -> len (concat pieces) < 2 ^ 64 -> seek + out_len <= 2 ^ 64 - 1 ->
  exists h0 h, c_hasher_init_keyed mem key = Ok h0 /\
    fold_left (fun r x => h <- r ;; c_hasher_update p h x) pieces (Ok h0) = Ok h /\
    c_hasher_finalize_seek p h seek out_len = Ok (b3_xof_mode (KeyedHash key) (concat pieces) seek (N.to_nat out_len)).
Proof. exact c_update_refines_keyed. Qed.

Theorem C06_update_refines_derive_key : forall p, PlatformOK p -> forall mem ctx pieces seek out_len,
  len ctx < 2 ^ 64 -> length mem = 55%nat -> len (concat pieces) < 2 ^ 64 -> seek + out_len <= 2 ^ 64 - 1 ->
  exists h0 h, c_hasher_init_derive_key_raw p mem ctx = Ok h0 /\
    fold_left (fun r x => h <- r ;; c_hasher_update p h x) pieces (Ok h0) = Ok h /\
    c_hasher_finalize_seek p h seek out_len =
    Ok (b3_xof_mode (DeriveKeyMaterial (b3_hash_mode DeriveKeyContext ctx)) (concat pieces) seek (N.to_nat out_len)).
Proof. exact c_update_refines_derive_key. Qed.

(* reset discards what was absorbed; finalize_seek is a query and updates may continue after it *)
Theorem C06_reset_refines : forall p, PlatformOK p -> forall K F, length K = 8%nat ->
  forall mem pieces1 pieces2 seek out_len,
  length mem = 55%nat -> len (concat pieces1) < 2 ^ 64 -> len (concat pieces2) < 2 ^ 64 -> seek + out_len <= 2 ^ 64 - 1 ->
  exists h1 h,
    fold_left (fun r x => h <- r ;; c_hasher_update p h x) pieces1 (Ok (c_hasher_init_base mem K F)) = Ok h1 /\
    fold_left (fun r x => h <- r ;; c_hasher_update p h x) pieces2 (Ok (c_hasher_reset h1)) = Ok h /\
    c_hasher_finalize_seek p h seek out_len =
    Ok (stream spec_c64 (subtree_output spec_c8 tree_height K F 0 (concat pieces2)) seek (N.to_nat out_len)).
Proof. exact c_reset_refines. Qed.

Theorem C06_finalize_then_continue : forall p, PlatformOK p -> forall K F, length K = 8%nat ->
  forall mem pieces1 pieces2 seek1 n1 seek2 n2,
  length mem = 55%nat -> len (concat (pieces1 ++ pieces2)) < 2 ^ 64 ->
  seek1 + n1 <= 2 ^ 64 - 1 -> seek2 + n2 <= 2 ^ 64 - 1 ->
  exists h1 h2,
    fold_left (fun r x => h <- r ;; c_hasher_update p h x) pieces1 (Ok (c_hasher_init_base mem K F)) = Ok h1 /\
    c_hasher_finalize_seek p h1 seek1 n1 =
    Ok (stream spec_c64 (subtree_output spec_c8 tree_height K F 0 (concat pieces1)) seek1 (N.to_nat n1)) /\
    fold_left (fun r x => h <- r ;; c_hasher_update p h x) pieces2 (Ok h1) = Ok h2 /\
    c_hasher_finalize_seek p h2 seek2 n2 =
    Ok (stream spec_c64 (subtree_output spec_c8 tree_height K F 0 (concat (pieces1 ++ pieces2))) seek2 (N.to_nat n2)).
Proof. exact c_finalize_then_continue. Qed.

(* non-vacuity: the model run of BLAKE3("abc") on the portable platform, and a multi-update history over a
   5000-byte message (byte i = i mod 251): updates of 1, 1023 (completing the first chunk exactly), 2048 (two whole
   chunks through the subtree path), 0 and 1928 bytes (one whole chunk and a partial one), finalize / finalize_seek
   in between, then reset and a second message; every output equals the specification of the bytes absorbed so far.
   Run on the portable platform and on the widest dispatch level. *)
Example C06_nonvacuous_abc :
  c_run_case (c_platform 1) CMHash [COpUpdate 0 [97; 98; 99]; COpClone 0; COpFinalize 0 32; COpCmp 0 1] =
  ([CObXof digest_abc; CObSame true], Ok tt).
Proof. vm_compute. reflexivity. Qed.

Definition C06_msg (n : nat) : list N := map (fun i => N.of_nat i mod 251) (seq 0 n).
Definition C06_history (m : list N) : list c_op :=
  [COpUpdate 0 (take 1 m); COpUpdate 0 (take 1023 (drop 1 m)); COpFinalize 0 32;
   COpUpdate 0 (take 2048 (drop 1024 m)); COpFinalizeSeek 0 63 3; COpUpdate0 0; COpUpdate 0 (drop 3072 m);
   COpFinalizeSeek 0 5 70; COpReset 0; COpUpdate 0 (take 1500 m); COpFinalize 0 32].
Definition C06_history_expect (m : list N) : list c_obs :=
  [CObXof (b3_xof_mode Hash (take 1024 m) 0 32); CObXof (b3_xof_mode Hash (take 3072 m) 63 3);
   CObXof (b3_xof_mode Hash m 5 70); CObXof (b3_xof_mode Hash (take 1500 m) 0 32)].

Example C06_nonvacuous_multi_update :
  c_run_case (c_platform 1) CMHash (C06_history (C06_msg 5000)) = (C06_history_expect (C06_msg 5000), Ok tt).
Proof.
  apply CMachineRefinesP.c_machine_refines_spec; [apply C06_platforms_ok; simpl; tauto|exact I|].
  apply c_history_accepted. unfold C06_msg. rewrite map_length. apply seq_length.
Qed.

Example C06_nonvacuous_multi_update_wide :
  c_run_case (c_platform 16) CMHash (C06_history (C06_msg 5000)) = (C06_history_expect (C06_msg 5000), Ok tt).
Proof.
  apply CMachineRefinesP.c_machine_refines_spec; [apply C06_platforms_ok; simpl; tauto|exact I|].
  apply c_history_accepted. unfold C06_msg. rewrite map_length. apply seq_length.
Qed.

Print Assumptions C06_formulas_round_down.
Print Assumptions C06_formulas_left_subtree_len.
Print Assumptions C06_formulas_constants.
Print Assumptions C06_formulas_small.
Print Assumptions C06_platforms_ok.
Print Assumptions C06_output_root_bytes_spec.
Print Assumptions C06_reset_is_init.
Print Assumptions C06_update_preserves_mode.
Print Assumptions C06_derive_key_agree.
Print Assumptions C06_zero_length_noops.
Print Assumptions C06_finalize_pure.
Print Assumptions C06_clone_finalize_cmp.
Print Assumptions C06_subtree_to_parent_node_spec.
Print Assumptions C06_wide_is_rs.
Print Assumptions C06_merge_cv_stack_spec.
Print Assumptions C06_push_cv_spec.
Print Assumptions C06_update_loop_refines.
Print Assumptions C06_one_shot_spec.
Print Assumptions C06_one_shot_hash.
Print Assumptions C06_update_refines.
Print Assumptions C06_update_refines_hash.
Print Assumptions C06_update_refines_keyed.
Print Assumptions C06_update_refines_derive_key.
Print Assumptions C06_reset_refines.
Print Assumptions C06_finalize_then_continue.
Print Assumptions C06_nonvacuous_abc.
Print Assumptions C06_nonvacuous_multi_update.
Print Assumptions C06_nonvacuous_multi_update_wide.

(* the END-TO-END theorem for the C history machine (Proofs/CMachineRefinesP.v).

   CHasher.c_run_case is the IMPLEMENTATION machine: the `CH` case language of harness/c/driver.c (new instance,
   update, zero-length update, finalize(n), finalize_seek(seek, n), zero-length finalize, reset, clone = memcpy,
   cmp = memcmp of two structs) interpreted over the executable model of c/blake3.c.
   CSpecMachine.c_spec_run_case is the SPECIFICATION machine: the same language interpreted with Spec/*.v only -
   one byte list per blake3_hasher (what it has absorbed since the last reset); finalize / finalize_seek observe
   `stream spec_c64 (subtree_output spec_c8 tree_height K F 0 bytes) seek n` for the key words K and flags F of the
   mode of the case; zero-length calls change and observe nothing; None when an instance does not exist, when the
   input of an instance would reach 2^64 bytes, or when seek + n > 2^64 - 1.
   cmp: the raw bytes of a struct (stale cv_stack slots, stale chunk buffer bytes) are not determined by the bytes
   absorbed, so the specification machine answers a cmp only where equality is FORCED: each instance also carries
   the trace of the state-changing calls (non-empty updates, resets) made on its struct since the initialiser ran
   (a clone copies it); every struct of a case comes from the same initialiser call, so equal traces force equal
   structs and the observation is `same = true`.  This covers an instance against its clone after the same calls on
   both, and a fresh instance against one that only saw zero-length calls and finalizes.  With different traces the
   specification machine answers None (the theorem then says nothing about that history).

   Whenever the specification machine accepts a history, the implementation machine produces exactly the same
   observations and does not panic (no array index out of bounds, no C assert, no unsigned wrap-around), on every
   PlatformOK platform, i.e. at every feature level the dispatcher of the C library can select. *)
From V Require Model.Machine Model.SpecMachine.
From V Require Import Model.CSpecMachine Proofs.CMachineRefinesP.

Theorem C06_mode_ok_def : forall m,
  c_mode_ok m = match m with
                | CMHash => True
                | CMKeyed k => length k = 32%nat
                | CMDerive c | CMDeriveRaw c => len c < 2 ^ 64
                end.
Proof. reflexivity. Qed.

Theorem C06_machine_refines_spec : forall p, PlatformOK p -> forall m ops obs,
  c_mode_ok m ->
  c_spec_run_case m ops = Some obs ->
  c_run_case p m ops = (obs, Ok tt).
Proof. exact c_machine_refines_spec. Qed.

(* every initialiser (init, init_keyed, init_derive_key on the NUL-terminated copy, init_derive_key_raw) leaves
   hasher_init_base over the driver's memory with the key words and flags of the specification's mode *)
Theorem C06_new_hasher_spec : forall p, PlatformOK p -> forall m, c_mode_ok m ->
  c_new_hasher p m = Ok (c_hasher_init_base c_mem_cd (mode_key (c_spec_mode m)) (mode_flags (c_spec_mode m))).
Proof. exact c_new_hasher_spec. Qed.

(* the simulation relation: struct i has absorbed exactly ci_bytes (CInv of Proofs/CHasherP4.v) and is what the
   traced calls make of the initialiser's struct *)
Theorem C06_CSim_def : forall p m hs ss,
  CSim p m hs ss <->
  Forall2 (fun h x =>
             CInv (mode_key (c_spec_mode m)) (mode_flags (c_spec_mode m)) h (ci_bytes x) /\
             c_replay p (c_hasher_init_base c_mem_cd (mode_key (c_spec_mode m)) (mode_flags (c_spec_mode m)))
                      (ci_trace x) = Ok h) hs ss.
Proof. intros. reflexivity. Qed.

Theorem C06_replay_def : forall p h tr,
  c_replay p h tr = match tr with
                    | [] => Ok h
                    | CEvUpdate b :: tl => h' <- c_hasher_update p h b ;; c_replay p h' tl
                    | CEvReset :: tl => c_replay p (c_hasher_reset h) tl
                    end.
Proof. intros p h [|[b|] tl]; reflexivity. Qed.

(* one step, for EVERY op of the language *)
Theorem C06_step_refines_spec : forall p, PlatformOK p -> forall m, c_mode_ok m -> forall o hs ss ss' out,
  CSim p m hs ss -> c_sstep m ss o = Some (ss', out) ->
  exists hs', c_step p m hs o = Ok (hs', out) /\ CSim p m hs' ss'.
Proof. exact c_step_refines_spec. Qed.

(* any history from any pair of related states *)
Theorem C06_run_refines_spec : forall p, PlatformOK p -> forall m, c_mode_ok m -> forall ops hs ss obs,
  CSim p m hs ss -> c_srun m ss ops = Some obs -> c_run_ops p m hs ops [] = (obs, Ok tt).
Proof. exact c_run_refines_spec. Qed.

(* consequences: no panic; the observations do not depend on the dispatcher's feature level *)
Theorem C06_machine_no_panic : forall p, PlatformOK p -> forall m ops obs,
  c_mode_ok m -> c_spec_run_case m ops = Some obs -> snd (c_run_case p m ops) = Ok tt.
Proof. exact c_machine_no_panic. Qed.

Theorem C06_machine_platform_independent : forall p1 p2, PlatformOK p1 -> PlatformOK p2 -> forall m ops obs,
  c_mode_ok m -> c_spec_run_case m ops = Some obs -> c_run_case p1 m ops = c_run_case p2 m ops.
Proof. exact c_machine_platform_independent. Qed.

(* the C library and the Rust crate: a history of new / update / finalize(n) / reset exists in both case
   languages (finalize(n) is finalize_xof + fill(n) on the Rust side); both implementation machines produce the
   same output bytes *)
Theorem C06_to_rs_def :
  (forall m, c_to_rs_mode m = match m with
                              | CMHash => Machine.MHash
                              | CMKeyed k => Machine.MKeyed k
                              | CMDerive c => Machine.MDerive (c_str_prefix c)
                              | CMDeriveRaw c => Machine.MDerive c
                              end) /\
  (forall o, c_to_rs_op o = match o with
                            | COpNew => Some Machine.OpNew
                            | COpUpdate i b => Some (Machine.OpUpdate i b)
                            | COpFinalize i n => Some (Machine.OpXof i n)
                            | COpReset i => Some (Machine.OpReset i)
                            | _ => None
                            end) /\
  (forall l, c_to_rs_ops l = match l with
                             | [] => Some []
                             | o :: tl => match c_to_rs_op o, c_to_rs_ops tl with
                                          | Some o', Some tl' => Some (o' :: tl')
                                          | _, _ => None
                                          end
                             end).
Proof. repeat split; intros []; reflexivity. Qed.

Theorem C06_machine_equals_rust : forall p1 p2, PlatformOK p1 -> PlatformOK p2 -> forall pname m cops ops obs,
  c_mode_ok m -> c_to_rs_ops cops = Some ops -> c_spec_run_case m cops = Some obs ->
  exists outs, c_run_case p1 m cops = (map CObXof outs, Ok tt) /\
               Machine.run_case p2 pname (c_to_rs_mode m) ops = (map Machine.ObXof outs, Ok tt).
Proof. exact c_machine_equals_rust. Qed.

(* non-vacuity: a keyed history over four structs with updates across a chunk boundary, zero-length calls, clone,
   reset, finalize, finalize_seek and four forced comparisons (instance 0 against its clone 1 after the same
   update on both; the fresh instance 2 against instance 3 that only saw zero-length calls; 0 against 1 again after
   both were reset) is accepted by the specification machine and the implementation machine yields the same 11
   observations at two dispatch levels *)
Definition C06_machine_ops : list c_op :=
  [COpUpdate 0 (repeat 7 1500); COpClone 0; COpUpdate 0 [1; 2; 3]; COpUpdate 1 [1; 2; 3]; COpCmp 0 1;
   COpFinalize 0 32; COpFinalizeSeek 1 60 10; COpNew; COpNew; COpUpdate0 3; COpUpdate 3 []; COpFinalize0 3;
   COpFinalizeSeek 3 5 0; COpCmp 2 3; COpCmp 3 2; COpReset 0; COpReset 1; COpCmp 1 0; COpUpdate 0 (repeat 9 70);
   COpFinalizeSeek 0 1000 3; COpFinalize 1 5; COpFinalizeSeek 2 18446744073709551610 5].

Example C06_machine_nonvacuous :
  let m := CMKeyed (map N.of_nat (seq 0 32)) in
  c_mode_ok m /\
  exists obs, c_spec_run_case m C06_machine_ops = Some obs /\
              c_run_case (c_platform 1) m C06_machine_ops = (obs, Ok tt) /\
              c_run_case (c_platform 16) m C06_machine_ops = (obs, Ok tt) /\ length obs = 11%nat.
Proof.
  cbv zeta. split; [reflexivity|].
  destruct (option_image (@length _) (c_spec_run_case (CMKeyed (map N.of_nat (seq 0 32))) C06_machine_ops) 11%nat)
    as [obs [S L]]; [lazy; reflexivity|].
  exists obs. split; [exact S|].
  split; [|split; [|exact L]];
    (apply c_machine_refines_spec; [apply C06_platforms_ok; simpl; tauto|reflexivity|exact S]).
Qed.

(* the specification machine refuses a cmp whose outcome is not forced (here the structs do differ), an output
   position beyond 2^64 - 1, and an instance that does not exist *)
Example C06_machine_spec_refuses :
  c_spec_run_case CMHash [COpNew; COpUpdate 1 [1]; COpCmp 0 1] = None /\
  c_run_case (c_platform 1) CMHash [COpNew; COpUpdate 1 [1]; COpCmp 0 1] = ([CObSame false], Ok tt) /\
  c_spec_run_case CMHash [COpFinalizeSeek 0 18446744073709551610 6] = None /\
  c_spec_run_case CMHash [COpFinalize 1 32] = None.
Proof. repeat split; vm_compute; reflexivity. Qed.

Print Assumptions C06_mode_ok_def.
Print Assumptions C06_machine_refines_spec.
Print Assumptions C06_new_hasher_spec.
Print Assumptions C06_CSim_def.
Print Assumptions C06_replay_def.
Print Assumptions C06_step_refines_spec.
Print Assumptions C06_run_refines_spec.
Print Assumptions C06_machine_no_panic.
Print Assumptions C06_machine_platform_independent.
Print Assumptions C06_to_rs_def.
Print Assumptions C06_machine_equals_rust.
Print Assumptions C06_machine_nonvacuous.
Print Assumptions C06_machine_spec_refuses.

(* the small functions of c/blake3.c, TRANSLATED from the source text.
   gen/GenCHasherSmall.v is regenerated from c/blake3.c, c/blake3.h and c/blake3_impl.h on every run
   (tools/gen_coq.py gen_c_hasher_small): struct declarations -> records (members in declaration order),
   every statement of the functions below in source order with the source's constants, flag names, member
   names and argument positions; anything the translator does not recognise is an AnchorError.  The
   theorems say that the translated function equals the definition Model/CHasher.v uses, for all
   arguments; hypotheses are the array lengths of the C declarations (cs_shape / hasher_shape) and
   `input_len = length of input`. *)
From V Require Import Base.Arr gen.GenCHasherSmall Proofs.GenCHasherSmallP.

(* how a translated record is read into the model's (by member NAME), the array lengths the C declarations
   promise, and the model's stand-ins for the functions the translation leaves as parameters *)
Theorem C06_src_repr_def :
  (forall s, cs_of_src s = mkCS (blake3_chunk_state_cv s) (blake3_chunk_state_chunk_counter s)
                               (blake3_chunk_state_buf s) (blake3_chunk_state_buf_len s)
                               (blake3_chunk_state_blocks_compressed s) (blake3_chunk_state_flags s)) /\
  (forall o, output_of_src o = mkOutput (output_t_input_cv o) (output_t_block o) (output_t_block_len o)
                                        (output_t_counter o) (output_t_flags o)) /\
  (forall h : src_blake3_hasher (list (list N)),
     hasher_of_src h = mkCH (blake3_hasher_key h) (cs_of_src (blake3_hasher_chunk h))
                            (blake3_hasher_cv_stack_len h) (blake3_hasher_cv_stack h)) /\
  (forall h, hasher_of_src (src_of_hasher h) = h) /\ (forall h, src_of_hasher (hasher_of_src h) = h) /\
  (forall s, cs_shape s <-> length (blake3_chunk_state_cv s) = 8%nat /\ length (blake3_chunk_state_buf s) = 64%nat) /\
  (forall h : src_blake3_hasher (list (list N)),
     hasher_shape h <-> length (blake3_hasher_key h) = 8%nat /\ cs_shape (blake3_hasher_chunk h)) /\
  (forall p self input input_len use_tbb,
     m_update_base p self input input_len use_tbb =
     if use_tbb then Panic 0
     else match c_hasher_update p (hasher_of_src self) (firstn (N.to_nat input_len) input) with
          | Ok h => Ok (src_of_hasher h) | Panic c => Panic c | OutOfFuel => OutOfFuel end) /\
  (forall p self seek out out_len,
     m_finalize_seek p self seek out out_len =
     match c_hasher_finalize_seek p (hasher_of_src self) seek out_len with
     | Ok bs => Ok (arr_store out 0 bs) | Panic c => Panic c | OutOfFuel => OutOfFuel end) /\
  (forall s, m_strlen s = match c_strlen_prefix s with
                          | Ok r => Ok (nlen r) | Panic c => Panic c | OutOfFuel => OutOfFuel end) /\
  (forall (A B : Type) (f : A -> B) r,
     res_map f r = match r with Ok a => Ok (f a) | Panic c => Panic c | OutOfFuel => OutOfFuel end).
Proof.
  split; [reflexivity|]. split; [reflexivity|]. split; [reflexivity|].
  split; [exact hasher_of_src_of_hasher|]. split; [exact src_of_hasher_of_src|].
  split; [intros s; unfold cs_shape; tauto|]. split; [intros h; unfold hasher_shape; tauto|].
  split; [reflexivity|]. split; [reflexivity|]. split; reflexivity.
Qed.

Theorem C06_src_load_key_words : forall key key_words, length key = 32%nat -> length key_words = 8%nat ->
  src_load_key_words key key_words = words_of_bytes key.
Proof. exact src_load_key_words_eq. Qed.

Theorem C06_src_store_cv_words : forall bytes_out cv_words, length bytes_out = 32%nat -> length cv_words = 8%nat ->
  src_store_cv_words bytes_out cv_words = bytes_of_words cv_words.
Proof. exact src_store_cv_words_eq. Qed.

Theorem C06_src_chunk_state_init : forall self key flags, cs_shape self -> length key = 8%nat ->
  cs_of_src (src_chunk_state_init self key flags) = c_cs_init key flags.
Proof. exact src_chunk_state_init_eq. Qed.

Theorem C06_src_chunk_state_reset : forall self key chunk_counter, cs_shape self -> length key = 8%nat ->
  cs_of_src (src_chunk_state_reset self key chunk_counter) = c_cs_reset (cs_of_src self) key chunk_counter.
Proof. exact src_chunk_state_reset_eq. Qed.

(* includes the Panic cases: buf_len > 64 (BLAKE3_BLOCK_LEN - buf_len wraps), buf_len + take > 255 *)
Theorem C06_src_chunk_state_fill_buf : forall self input input_len,
  length (blake3_chunk_state_buf self) = 64%nat -> input_len = nlen input ->
  res_map (fun r => (cs_of_src (fst r), snd r)) (src_chunk_state_fill_buf self input input_len)
  = c_cs_fill_buf (cs_of_src self) input.
Proof. exact src_chunk_state_fill_buf_eq. Qed.

Theorem C06_src_chunk_state_maybe_start_flag : forall self,
  src_chunk_state_maybe_start_flag self = c_cs_start_flag (cs_of_src self).
Proof. exact src_chunk_state_maybe_start_flag_eq. Qed.

(* make_output has no separate definition in the model: it is the constructor mkOutput (cv, block, block_len,
   counter, flags) *)
Theorem C06_src_make_output : forall input_cv block block_len counter flags,
  length input_cv = 8%nat -> length block = 64%nat ->
  output_of_src (src_make_output input_cv block block_len counter flags)
  = mkOutput input_cv block block_len counter flags.
Proof. exact src_make_output_eq. Qed.

(* the third hypothesis: the selected compression kernel returns 8 words *)
Theorem C06_src_output_chaining_value : forall p self cv,
  length (output_t_input_cv self) = 8%nat -> length cv = 32%nat ->
  length (p_compress_in_place p (output_t_input_cv self) (output_t_block self) (output_t_block_len self)
            (output_t_counter self) (output_t_flags self)) = 8%nat ->
  src_output_chaining_value (p_compress_in_place p) self cv = c_output_chaining_value p (output_of_src self).
Proof. exact src_output_chaining_value_eq. Qed.

Theorem C06_src_chunk_state_output : forall self, cs_shape self ->
  output_of_src (src_chunk_state_output self) = c_cs_output (cs_of_src self).
Proof. exact src_chunk_state_output_eq. Qed.

Theorem C06_src_parent_output : forall block key flags, length block = 64%nat -> length key = 8%nat ->
  output_of_src (src_parent_output block key flags) = c_parent_output block key flags.
Proof. exact src_parent_output_eq. Qed.

(* blake3_hasher: cv_stack is passed through untouched (the model's `mem`) *)
Theorem C06_src_hasher_init_base : forall (self : src_blake3_hasher (list (list N))) key flags,
  hasher_shape self -> length key = 8%nat ->
  hasher_of_src (src_hasher_init_base self key flags) = c_hasher_init_base (blake3_hasher_cv_stack self) key flags.
Proof. exact src_hasher_init_base_eq. Qed.

Theorem C06_src_blake3_hasher_init : forall self : src_blake3_hasher (list (list N)), hasher_shape self ->
  hasher_of_src (src_blake3_hasher_init self) = c_hasher_init (blake3_hasher_cv_stack self).
Proof. exact src_blake3_hasher_init_eq. Qed.

Theorem C06_src_blake3_hasher_init_keyed : forall (self : src_blake3_hasher (list (list N))) key,
  hasher_shape self -> length key = 32%nat ->
  Ok (hasher_of_src (src_blake3_hasher_init_keyed self key)) = c_hasher_init_keyed (blake3_hasher_cv_stack self) key.
Proof. exact src_blake3_hasher_init_keyed_eq. Qed.

(* `bool use_tbb = false; blake3_hasher_update_base(self, input, input_len, use_tbb);` *)
Theorem C06_src_blake3_hasher_update : forall p (self : src_blake3_hasher (list (list N))) input input_len,
  input_len = nlen input ->
  res_map hasher_of_src (src_blake3_hasher_update (m_update_base p) self input input_len)
  = c_hasher_update p (hasher_of_src self) input.
Proof. exact src_blake3_hasher_update_eq. Qed.

(* `blake3_hasher_finalize_seek(self, 0, out, out_len);` *)
Theorem C06_src_blake3_hasher_finalize : forall p (self : src_blake3_hasher (list (list N))) out out_len,
  src_blake3_hasher_finalize (m_finalize_seek p) self out out_len
  = res_map (fun bs => arr_store out 0 bs) (c_hasher_finalize p (hasher_of_src self) out_len).
Proof. exact src_blake3_hasher_finalize_eq. Qed.

(* `u` = the contents of the local `blake3_hasher context_hasher;` before hasher_init_base; the model fixes the
   cv_stack of that local to c_local_stack *)
Theorem C06_src_blake3_hasher_init_derive_key_raw : forall p (self u : src_blake3_hasher (list (list N))) context context_len,
  hasher_shape self -> hasher_shape u -> blake3_hasher_cv_stack u = c_local_stack -> context_len = nlen context ->
  res_map hasher_of_src
    (src_blake3_hasher_init_derive_key_raw (m_update_base p) (m_finalize_seek p) self context context_len u)
  = c_hasher_init_derive_key_raw p (blake3_hasher_cv_stack self) context.
Proof. exact src_blake3_hasher_init_derive_key_raw_eq. Qed.

Theorem C06_src_blake3_hasher_init_derive_key : forall p (self u : src_blake3_hasher (list (list N))) context,
  hasher_shape self -> hasher_shape u -> blake3_hasher_cv_stack u = c_local_stack ->
  res_map hasher_of_src
    (src_blake3_hasher_init_derive_key (m_update_base p) (m_finalize_seek p) m_strlen self context u)
  = c_hasher_init_derive_key p (blake3_hasher_cv_stack self) context.
Proof. exact src_blake3_hasher_init_derive_key_eq. Qed.

Theorem C06_src_blake3_hasher_reset : forall self : src_blake3_hasher (list (list N)), hasher_shape self ->
  hasher_of_src (src_blake3_hasher_reset self) = c_hasher_reset (hasher_of_src self).
Proof. exact src_blake3_hasher_reset_eq. Qed.

(* finalize_seek writes exactly out_len bytes, on any platform record (used for the context key above) *)
Theorem C06_src_finalize_seek_length : forall p h seek n bs, c_hasher_finalize_seek p h seek n = Ok bs -> nlen bs = n.
Proof. exact c_hasher_finalize_seek_length. Qed.

Print Assumptions C06_src_repr_def.
Print Assumptions C06_src_load_key_words.
Print Assumptions C06_src_store_cv_words.
Print Assumptions C06_src_chunk_state_init.
Print Assumptions C06_src_chunk_state_reset.
Print Assumptions C06_src_chunk_state_fill_buf.
Print Assumptions C06_src_chunk_state_maybe_start_flag.
Print Assumptions C06_src_make_output.
Print Assumptions C06_src_output_chaining_value.
Print Assumptions C06_src_chunk_state_output.
Print Assumptions C06_src_parent_output.
Print Assumptions C06_src_hasher_init_base.
Print Assumptions C06_src_blake3_hasher_init.
Print Assumptions C06_src_blake3_hasher_init_keyed.
Print Assumptions C06_src_blake3_hasher_update.
Print Assumptions C06_src_blake3_hasher_finalize.
Print Assumptions C06_src_blake3_hasher_init_derive_key_raw.
Print Assumptions C06_src_blake3_hasher_init_derive_key.
Print Assumptions C06_src_blake3_hasher_reset.
Print Assumptions C06_src_finalize_seek_length.

(* the loop-carrying core of c/blake3.c, translated (gen/GenCHasherLoops.v).
   chunk_state_update, hasher_merge_cv_stack, hasher_push_cv, blake3_hasher_finalize_seek: every `while` of the source
   is a Fixpoint on explicit fuel whose condition and body statements are the source's, in order; cv_stack is the flat
   uint8_t[1760] of c/blake3.h with the index arithmetic of the source and a bounds assert at every access.  Each equals
   the hand-written model for all arguments and all results (Ok / every Panic code / OutOfFuel): the loops for every
   fuel, the enclosing functions at the fuel the model hard-codes (or for every fuel that is enough, where the model
   computes it / has none).  Proofs/GenCHasherLoopsP.v lists the places where source and model are shaped differently. *)
From V Require Import gen.GenCHasherLoops Proofs.GenCHasherLoopsP.
From V Require Proofs.GenLibSmallP.

(* how the flat cv_stack is read into the model's slots, the array lengths assumed, the stand-in for output_root_bytes *)
Theorem C06_src_flat_repr_def :
  (forall l, slots_of_flat l = chunks32 (N.to_nat c_cv_stack_slots) l) /\
  (forall n l, chunks32 (S n) l = firstn 32 l :: chunks32 n (skipn 32 l)) /\ (forall l, chunks32 0 l = []) /\
  (forall sl, length sl = N.to_nat c_cv_stack_slots -> Forall (fun s => length s = 32%nat) sl ->
     slots_of_flat (concat sl) = sl) /\
  (forall l, length l = N.to_nat c_cv_stack_bytes -> concat (slots_of_flat l) = l) /\
  (forall h : src_blake3_hasher (list N),
     hasher_of_flat h = mkCH (blake3_hasher_key h) (cs_of_src (blake3_hasher_chunk h))
                             (blake3_hasher_cv_stack_len h) (slots_of_flat (blake3_hasher_cv_stack h))) /\
  (forall h : src_blake3_hasher (list N),
     flat_shape h <-> hasher_shape h /\ length (blake3_hasher_cv_stack h) = N.to_nat c_cv_stack_bytes) /\
  (forall p, compress_len8 p <-> forall cv block bl ctr fl, length cv = 8%nat ->
     length (p_compress_in_place p cv block bl ctr fl) = 8%nat) /\
  (forall p, PlatformOK p -> compress_len8 p) /\
  (forall p self seek out out_len,
     m_output_root_bytes p self seek out out_len =
     match c_output_root_bytes p (output_of_src self) seek out_len with
     | Ok bs => Ok (arr_store out 0 bs) | Panic c => Panic c | OutOfFuel => OutOfFuel end) /\
  (forall (A : Type) c (r : res A),
     at_site c r = match r with Ok a => Ok a | Panic _ => Panic c | OutOfFuel => OutOfFuel end).
Proof.
  split; [reflexivity|]. split; [reflexivity|]. split; [reflexivity|].
  split; [exact slots_of_flat_concat|]. split; [exact concat_slots_of_flat|]. split; [reflexivity|].
  split; [intros h; unfold flat_shape; tauto|]. split; [intros p; unfold compress_len8; tauto|].
  split; [intros p OK cv block bl ctr fl H; apply Proofs.GenLibSmallP.p_cip_length; assumption|]. split; reflexivity.
Qed.

(* `while (input_len > BLAKE3_BLOCK_LEN) { .. }`: every fuel *)
Theorem C06_src_chunk_state_update_loop1 : forall p fuel self input,
  res_map (fun r => (cs_of_src (fst (fst r)), snd (fst r)))
          (src_chunk_state_update_loop1 (p_compress_in_place p) fuel self input (nlen input))
  = c_cs_update_loop fuel p (cs_of_src self) input.
Proof. exact src_chunk_state_update_loop1_eq. Qed.

(* the input_len the translated loop hands on is the length of the input it hands on *)
Theorem C06_src_chunk_state_update_loop1_len : forall p fuel self input s i l,
  src_chunk_state_update_loop1 (p_compress_in_place p) fuel self input (nlen input) = Ok (s, i, l) -> l = nlen i.
Proof. exact src_chunk_state_update_loop1_len. Qed.

(* every fuel that is enough (64 * fuel covers the input); the model computes S (length input' / 64) from the input
   left after the flush of the buffered block, which is one such value *)
Theorem C06_src_chunk_state_update : forall p fuel self input, cs_shape self -> (length input <= 64 * fuel)%nat ->
  res_map cs_of_src (src_chunk_state_update (p_compress_in_place p) fuel self input (nlen input))
  = c_cs_update p (cs_of_src self) input.
Proof. exact src_chunk_state_update_eq. Qed.

Theorem C06_src_chunk_state_update_model_fuel : forall p self input, cs_shape self ->
  res_map cs_of_src
    (src_chunk_state_update (p_compress_in_place p) (S (Nat.div (length input) 64)) self input (nlen input))
  = c_cs_update p (cs_of_src self) input.
Proof. exact src_chunk_state_update_model_fuel. Qed.

(* `while (self->cv_stack_len > post_merge_stack_len) { .. }`: every fuel *)
Theorem C06_src_hasher_merge_cv_stack_loop1 : forall p, compress_len8 p ->
  forall fuel (self : src_blake3_hasher (list N)) post, flat_shape self ->
  res_map hasher_of_flat (src_hasher_merge_cv_stack_loop1 (p_compress_in_place p) fuel self post)
  = c_merge_loop fuel p (hasher_of_flat self) post.
Proof. exact src_hasher_merge_cv_stack_loop1_eq. Qed.

Theorem C06_src_hasher_merge_cv_stack : forall p (self : src_blake3_hasher (list N)) total_len,
  compress_len8 p -> flat_shape self ->
  res_map hasher_of_flat (src_hasher_merge_cv_stack (p_compress_in_place p) c_merge_fuel self total_len)
  = c_merge_cv_stack p (hasher_of_flat self) total_len.
Proof. exact src_hasher_merge_cv_stack_eq. Qed.

Theorem C06_src_hasher_merge_cv_stack_shape : forall p fuel (self h' : src_blake3_hasher (list N)) total_len,
  compress_len8 p -> flat_shape self ->
  src_hasher_merge_cv_stack (p_compress_in_place p) fuel self total_len = Ok h' -> flat_shape h'.
Proof. exact src_hasher_merge_cv_stack_shape. Qed.

Theorem C06_src_hasher_push_cv : forall p (self : src_blake3_hasher (list N)) new_cv chunk_counter,
  compress_len8 p -> flat_shape self -> length new_cv = 32%nat ->
  res_map hasher_of_flat (src_hasher_push_cv (p_compress_in_place p) c_merge_fuel self new_cv chunk_counter)
  = c_push_cv p (hasher_of_flat self) new_cv chunk_counter.
Proof. exact src_hasher_push_cv_eq. Qed.

(* `while (cvs_remaining > 0) { .. }`: every fuel that covers cvs_remaining (the model recurses on cvs_remaining) *)
Theorem C06_src_blake3_hasher_finalize_seek_loop1 : forall p, compress_len8 p ->
  forall fuel (self : src_blake3_hasher (list N)) output r,
  flat_shape self -> length (output_t_input_cv output) = 8%nat -> (N.to_nat r <= fuel)%nat ->
  res_map (fun x => output_of_src (fst x))
          (src_blake3_hasher_finalize_seek_loop1 (p_compress_in_place p) fuel self output r)
  = c_finalize_loop (N.to_nat r) p (hasher_of_flat self) (output_of_src output).
Proof. exact src_blake3_hasher_finalize_seek_loop1_eq. Qed.

(* every fuel >= cv_stack_len; `out` after the call = the model's bytes stored at out[0 ..) *)
Theorem C06_src_blake3_hasher_finalize_seek : forall p fuel (self : src_blake3_hasher (list N)) seek out out_len,
  compress_len8 p -> flat_shape self -> (N.to_nat (blake3_hasher_cv_stack_len self) <= fuel)%nat ->
  src_blake3_hasher_finalize_seek (m_output_root_bytes p) (p_compress_in_place p) fuel self seek out out_len
  = res_map (fun bs => arr_store out 0 bs) (c_hasher_finalize_seek p (hasher_of_flat self) seek out_len).
Proof. exact src_blake3_hasher_finalize_seek_eq. Qed.

Theorem C06_src_blake3_hasher_finalize_seek_256 : forall p (self : src_blake3_hasher (list N)) seek out out_len,
  compress_len8 p -> flat_shape self -> blake3_hasher_cv_stack_len self < 256 ->
  src_blake3_hasher_finalize_seek (m_output_root_bytes p) (p_compress_in_place p) c_merge_fuel self seek out out_len
  = res_map (fun bs => arr_store out 0 bs) (c_hasher_finalize_seek p (hasher_of_flat self) seek out_len).
Proof. exact src_blake3_hasher_finalize_seek_eq_256. Qed.

Print Assumptions C06_src_flat_repr_def.
Print Assumptions C06_src_chunk_state_update_loop1.
Print Assumptions C06_src_chunk_state_update_loop1_len.
Print Assumptions C06_src_chunk_state_update.
Print Assumptions C06_src_chunk_state_update_model_fuel.
Print Assumptions C06_src_hasher_merge_cv_stack_loop1.
Print Assumptions C06_src_hasher_merge_cv_stack.
Print Assumptions C06_src_hasher_merge_cv_stack_shape.
Print Assumptions C06_src_hasher_push_cv.
Print Assumptions C06_src_blake3_hasher_finalize_seek_loop1.
Print Assumptions C06_src_blake3_hasher_finalize_seek.
Print Assumptions C06_src_blake3_hasher_finalize_seek_256.

(* the wide core of c/blake3.c, translated (gen/GenCHasherWide.v).
   compress_chunks_parallel, compress_parents_parallel, blake3_compress_subtree_wide (the non-TBB arm of its #if; the
   recursion is a Fixpoint on fuel with `match fuel` after the leading `if (..) { return ..; }`),
   compress_subtree_to_parent_node (its `#if MAX_SIMD_DEGREE_OR_2 > 2` block is an `if` on the build constant) and
   blake3_hasher_update_base (the empty-input return, the "finish the partial chunk" prefix with its nested `return`, the
   `while (input_len > BLAKE3_CHUNK_LEN)` loop with the shrink loop and the subtree_chunks computation INSIDE it, the
   two push_cv calls, the trailing chunk_state_update + merge), statement by statement (tools/gen_coq.py
   gen_c_hasher_wide).  A `(pointer, length)` pair is the list of all bytes from the pointer on plus the length; the
   `const uint8_t *a[N]` arrays are lists of such lists with a bounds assert at every store; writes through `out` carry
   a bounds assert with the model's code; `uint8_t *right_cvs = &cv_array[..]` splits the local array like
   split_at_mut; BLAKE3_TESTING asserts carry the model's codes.  blake3_hash_many / blake3_simd_degree /
   blake3_compress_in_place are parameters, instantiated with m_c_hash_many p / p_degree p / p_compress_in_place p.
   Each translated function equals the model with the translation's fuel discipline (c_*_with, defining equations
   below) on every argument of the declared shapes and every fuel, Panic and OutOfFuel included, EXCEPT where the model
   flags a read of stack bytes nobody wrote (Panic 306 / 307 / 309: the C text has no such check and the translation's
   zero-filled locals none either): the statements are `uninit_flag (model) \/ translation = model`.  The c_*_with
   models refine Model/CHasher.v as soon as the fuel suffices.  Hypotheses: plat_wf p (shapes of the kernels' results,
   Props/C01.v), p_max_degree p = c_MAX_SIMD_DEGREE (the build constant the text was translated with), an 8-word key,
   flat_shape for hashers, lengths below 2^64. *)
From V Require Import Base.Slice gen.GenCHasherWide Model.RsWide Proofs.GenLibWideP Proofs.GenCHasherWideP.

Theorem C06_src_wide_repr_def :
  (forall p inputs num_inputs blocks key counter incr flags fs fe out,
     m_c_hash_many p inputs num_inputs blocks key counter incr flags fs fe out =
     (cvs <- p_hash_many p (map (firstn (N.to_nat (blocks * 64))) (firstn (N.to_nat num_inputs) inputs)) key counter incr
               flags fs fe (nlen out / 32) ;;
      Ok (arr_store out 0 (concat cvs)))) /\
  (forall (A : Type) (r : res A), uninit_flag r <-> (r = Panic 306 \/ r = Panic 307 \/ r = Panic 309)) /\
  (forall (A : Type) (a : list A) i v, (i < length a)%nat -> firstn (S i) (pa_set a i v) = firstn i a ++ [v]) /\
  (forall (A : Type) (a : list A) i v, length (pa_set a i v) = length a).
Proof.
  split; [reflexivity|]. split; [intros; reflexivity|]. split; [intros; apply firstn_pa_set_snoc; assumption|].
  intros. apply pa_set_length.
Qed.
Print Assumptions C06_src_wide_repr_def.

Theorem C06_src_cs_update_with_def : forall fuel p cs input,
  c_cs_update_with fuel p cs input =
  ('(cs, input) <-
     (if 0 <? cs_buf_len cs then
        '(cs, take) <- c_cs_fill_buf cs input ;;
        let input := skipn (N.to_nat take) input in
        if 0 <? nlen input then
          let cv := p_compress_in_place p (cs_cv cs) (cs_buf cs) c_BLOCK_LEN (cs_ctr cs)
                      (N.lor (cs_flags cs) (c_cs_start_flag cs)) in
          blocks <- mi_add 8 (cs_blocks cs) 1 ;;
          Ok (mkCS cv (cs_ctr cs) c_zero_block 0 blocks (cs_flags cs), input)
        else Ok (cs, input)
      else Ok (cs, input)) ;;
   '(cs, input) <- c_cs_update_loop fuel p cs input ;;
   '(cs, _) <- c_cs_fill_buf cs input ;;
   Ok cs).
Proof. reflexivity. Qed.
Print Assumptions C06_src_cs_update_with_def.

Theorem C06_src_chunks_parents_with_def : forall fuel p input child_cvs key chunk_counter flags cap,
  c_compress_chunks_parallel_with fuel p input key chunk_counter flags cap =
    (assert! (0 <? nlen input) code 1600 ;;
     assert! (nlen input <=? p_max_degree p * c_CHUNK_LEN) code 1601 ;;
     let '(chunks, rem) := chunks_exact_of c_CHUNK_LEN input in
     if Nat.ltb fuel (length chunks) then OutOfFuel else
     assert! (nlen_l chunks <=? p_max_degree p) code 301 ;;
     cvs <- p_hash_many p chunks key chunk_counter true flags c_flag_CHUNK_START c_flag_CHUNK_END cap ;;
     let chunks_array_len := nlen_l chunks in
     if 0 <? nlen rem then
       counter <- mi_add 64 chunk_counter chunks_array_len ;;
       let cs0 := c_cs_init key flags in
       let cs0 := mkCS (cs_cv cs0) counter (cs_buf cs0) (cs_buf_len cs0) (cs_blocks cs0) (cs_flags cs0) in
       cs <- c_cs_update_with fuel p cs0 rem ;;
       assert! (chunks_array_len + 1 <=? cap) code 302 ;;
       Ok (cvs ++ [c_output_chaining_value p (c_cs_output cs)])
     else Ok cvs) /\
  c_compress_parents_parallel_with fuel p child_cvs key flags cap =
    (let num := nlen_l child_cvs in
     assert! (2 <=? num) code 1602 ;;
     assert! (num <=? 2 * max_degree_or_2 p) code 1603 ;;
     let '(parents, odd) := pair_blocks child_cvs in
     if Nat.ltb fuel (length parents) then OutOfFuel else
     assert! (nlen_l parents <=? max_degree_or_2 p) code 303 ;;
     outs <- p_hash_many p parents key 0 false (N.lor flags c_flag_PARENT) 0 0 cap ;;
     match odd with
     | Some cv => assert! (nlen_l parents + 1 <=? cap) code 304 ;; Ok (outs ++ [cv])
     | None => Ok outs
     end).
Proof. intros. split; reflexivity. Qed.
Print Assumptions C06_src_chunks_parents_with_def.

Theorem C06_src_wide_with_def : forall fuel p input key chunk_counter flags cap,
  c_compress_subtree_wide_with fuel p input key chunk_counter flags cap =
  if nlen input <=? p_degree p * c_CHUNK_LEN then
    c_compress_chunks_parallel_with fuel p input key chunk_counter flags cap
  else match fuel with
  | O => OutOfFuel
  | S fuel' =>
      left_len <- c_left_subtree_len (nlen input) ;;
      _ <- mi_sub 64 (nlen input) left_len ;;
      let left := firstn (N.to_nat left_len) input in
      let right := skipn (N.to_nat left_len) input in
      right_counter <- mi_add 64 chunk_counter (left_len / c_CHUNK_LEN) ;;
      let array_cap := 2 * max_degree_or_2 p in
      let degree := if (c_CHUNK_LEN <? left_len) && (p_degree p =? 1) then 2 else p_degree p in
      assert! (degree <=? array_cap) code 305 ;;
      lcvs <- c_compress_subtree_wide_with fuel' p left key chunk_counter flags degree ;;
      rcvs <- c_compress_subtree_wide_with fuel' p right key right_counter flags (array_cap - degree) ;;
      let left_n := nlen_l lcvs in
      let right_n := nlen_l rcvs in
      assert! (left_n =? degree) code 306 ;;
      if left_n =? 1 then
        assert! (1 <=? right_n) code 307 ;;
        assert! (2 <=? cap) code 308 ;;
        Ok (firstn 2 (lcvs ++ rcvs))
      else
        c_compress_parents_parallel_with fuel' p (lcvs ++ rcvs) key flags cap
  end.
Proof. intros [|fuel]; reflexivity. Qed.
Print Assumptions C06_src_wide_with_def.

Theorem C06_src_tpn_with_def : forall fuel p input cvs key chunk_counter flags,
  c_condense_loop_with fuel p cvs key flags =
    (if nlen_l cvs <=? 2 then Ok cvs
     else match fuel with
          | O => OutOfFuel
          | S fuel' =>
              outs <- c_compress_parents_parallel_with fuel' p cvs key flags (max_degree_or_2 p / 2) ;;
              c_condense_loop_with fuel' p outs key flags
          end) /\
  c_compress_subtree_to_parent_node_with fuel p input key chunk_counter flags =
    (assert! (c_CHUNK_LEN <? nlen input) code 1604 ;;
     cvs <- c_compress_subtree_wide_with fuel p input key chunk_counter flags (max_degree_or_2 p) ;;
     assert! (nlen_l cvs <=? max_degree_or_2 p) code 1605 ;;
     cvs <- (if 2 <? max_degree_or_2 p then c_condense_loop_with fuel p cvs key flags else Ok cvs) ;;
     match cvs with a :: b :: _ => Ok (a ++ b) | _ => Panic 309 end).
Proof. intros [|fuel]; intros; split; reflexivity. Qed.
Print Assumptions C06_src_tpn_with_def.

Theorem C06_src_update_with_def : forall fuel p h input new_cv chunk_counter,
  c_push_cv_with fuel p h new_cv chunk_counter =
    (h <- (post <- c_popcnt chunk_counter ;; c_merge_loop fuel p h post) ;;
     assert! (ch_stack_len h <? c_cv_stack_slots) code 322 ;;
     len' <- mi_add 8 (ch_stack_len h) 1 ;;
     Ok (mkCH (ch_key h) (ch_chunk h) len' (upd_nth (N.to_nat (ch_stack_len h)) new_cv (ch_stack h)))) /\
  c_update_loop_with fuel p h input =
    (if nlen input <=? c_CHUNK_LEN then Ok (h, input)
     else match fuel with
     | O => OutOfFuel
     | S fuel' =>
         let cs := ch_chunk h in
         subtree_len <- c_round_down_to_power_of_2 (nlen input) ;;
         count_so_far <- c_count_so_far (cs_ctr cs) ;;
         subtree_len <- c_shrink_loop fuel' subtree_len count_so_far ;;
         subtree_chunks <- c_subtree_chunks subtree_len ;;
         assert! (subtree_len <=? nlen input) code 323 ;;
         h <- (if subtree_len <=? c_CHUNK_LEN then
                 let cs0 := c_cs_init (ch_key h) (cs_flags cs) in
                 let cs0 := mkCS (cs_cv cs0) (cs_ctr cs) (cs_buf cs0) (cs_buf_len cs0) (cs_blocks cs0) (cs_flags cs0) in
                 cs1 <- c_cs_update_with fuel' p cs0 (firstn (N.to_nat subtree_len) input) ;;
                 c_push_cv_with fuel' p h (c_output_chaining_value p (c_cs_output cs1)) (cs_ctr cs1)
               else
                 cv_pair <- c_compress_subtree_to_parent_node_with fuel' p (firstn (N.to_nat subtree_len) input) (ch_key h)
                              (cs_ctr cs) (cs_flags cs) ;;
                 h <- c_push_cv_with fuel' p h (firstn 32 cv_pair) (cs_ctr cs) ;;
                 rc <- c_right_cv_counter (cs_ctr cs) subtree_chunks ;;
                 c_push_cv_with fuel' p h (firstn 32 (skipn 32 cv_pair)) rc) ;;
         ctr' <- mi_add 64 (cs_ctr cs) subtree_chunks ;;
         let cs' := mkCS (cs_cv cs) ctr' (cs_buf cs) (cs_buf_len cs) (cs_blocks cs) (cs_flags cs) in
         c_update_loop_with fuel' p (ch_with_chunk h cs') (skipn (N.to_nat subtree_len) input)
     end) /\
  c_hasher_update_with fuel p h input =
    (if nlen input =? 0 then Ok h else
     clen <- c_cs_len (ch_chunk h) ;;
     r <- (if 0 <? clen then
             take <- mi_sub 64 c_CHUNK_LEN clen ;;
             let take := N.min take (nlen input) in
             cs <- c_cs_update_with fuel p (ch_chunk h) (firstn (N.to_nat take) input) ;;
             let input := skipn (N.to_nat take) input in
             if 0 <? nlen input then
               let chunk_cv := c_output_chaining_value p (c_cs_output cs) in
               h <- c_push_cv_with fuel p (ch_with_chunk h cs) chunk_cv (cs_ctr cs) ;;
               ctr' <- mi_add 64 (cs_ctr cs) 1 ;;
               Ok (ch_with_chunk h (c_cs_reset cs (ch_key h) ctr'), input, false)
             else Ok (ch_with_chunk h cs, input, true)
           else Ok (h, input, false)) ;;
     let '(h, input, done) := r in
     if done then Ok h else
     '(h, input) <- c_update_loop_with fuel p h input ;;
     if 0 <? nlen input then
       cs <- c_cs_update_with fuel p (ch_chunk h) input ;;
       (post <- c_popcnt (cs_ctr cs) ;; c_merge_loop fuel p (ch_with_chunk h cs) post)
     else Ok h).
Proof. intros [|fuel]; intros; repeat split; reflexivity. Qed.
Print Assumptions C06_src_update_with_def.

(* chunk_state_update at every fuel; only the first input_len bytes of the list matter *)
Theorem C06_src_chunk_state_update_with : forall p fuel self input n, cs_shape self -> n <= nlen input ->
  res_map cs_of_src (src_chunk_state_update (p_compress_in_place p) fuel self input n)
  = c_cs_update_with fuel p (cs_of_src self) (firstn (N.to_nat n) input).
Proof. exact src_csu_with. Qed.
Print Assumptions C06_src_chunk_state_update_with.

Theorem C06_src_compress_chunks_parallel : forall p, plat_wf p -> forall fuel input input_len key chunk_counter flags out,
  p_max_degree p = c_MAX_SIMD_DEGREE -> length key = 8%nat -> input_len <= nlen input -> nlen input < 2 ^ 64 ->
  src_compress_chunks_parallel (m_c_hash_many p) (p_compress_in_place p) fuel input input_len key chunk_counter flags out
  = res_map (fun cvs => (arr_store out 0 (concat cvs), nlen_l cvs))
      (c_compress_chunks_parallel_with fuel p (firstn (N.to_nat input_len) input) key chunk_counter flags (nlen out / 32)).
Proof. intros p WF fuel input input_len key cc fl out Hmax Hkey Hle Hin. apply CvR_eq_c, src_chunks_sim; assumption. Qed.
Print Assumptions C06_src_compress_chunks_parallel.

(* the children: num_chaining_values CVs back to back at the front of the buffer *)
Theorem C06_src_compress_parents_parallel : forall p, plat_wf p -> forall fuel child_cvs ccv key flags out,
  p_max_degree p = c_MAX_SIMD_DEGREE -> length key = 8%nat -> cvs32 child_cvs ->
  firstn (32 * length child_cvs) ccv = concat child_cvs ->
  src_compress_parents_parallel (m_c_hash_many p) fuel ccv (nlen_l child_cvs) key flags out
  = res_map (fun cvs => (arr_store out 0 (concat cvs), nlen_l cvs))
      (c_compress_parents_parallel_with fuel p child_cvs key flags (nlen out / 32)).
Proof. intros p WF fuel child_cvs ccv key fl out Hmax Hkey H32 Hccv. apply CvR_eq_c, src_parents_sim; assumption. Qed.
Print Assumptions C06_src_compress_parents_parallel.

Theorem C06_src_compress_subtree_wide : forall p, plat_wf p -> forall key flags,
  p_max_degree p = c_MAX_SIMD_DEGREE -> length key = 8%nat ->
  forall fuel input input_len chunk_counter out use_tbb, input_len <= nlen input -> nlen input < 2 ^ 64 ->
  uninit_flag (c_compress_subtree_wide_with fuel p (firstn (N.to_nat input_len) input) key chunk_counter flags (nlen out / 32)) \/
  src_blake3_compress_subtree_wide (p_degree p) (m_c_hash_many p) (p_compress_in_place p) fuel input input_len key chunk_counter
    flags out use_tbb
  = res_map (fun cvs => (arr_store out 0 (concat cvs), nlen_l cvs))
      (c_compress_subtree_wide_with fuel p (firstn (N.to_nat input_len) input) key chunk_counter flags (nlen out / 32)).
Proof. intros p WF key fl Hmax Hkey fuel input input_len cc out use_tbb Hle Hin. apply rsimU_CvR_eq, src_wide_sim; assumption. Qed.
Print Assumptions C06_src_compress_subtree_wide.

Theorem C06_src_compress_subtree_to_parent_node : forall p, plat_wf p -> forall fuel input input_len key chunk_counter flags out use_tbb,
  p_max_degree p = c_MAX_SIMD_DEGREE -> length key = 8%nat -> length out = 64%nat ->
  input_len <= nlen input -> nlen input < 2 ^ 64 ->
  uninit_flag (c_compress_subtree_to_parent_node_with fuel p (firstn (N.to_nat input_len) input) key chunk_counter flags) \/
  src_compress_subtree_to_parent_node (p_degree p) (m_c_hash_many p) (p_compress_in_place p) fuel input input_len key
    chunk_counter flags out use_tbb
  = c_compress_subtree_to_parent_node_with fuel p (firstn (N.to_nat input_len) input) key chunk_counter flags.
Proof.
  intros p WF fuel input input_len key cc fl out use_tbb Hmax Hkey Hout Hle Hin.
  exact (rsimU_id_eq _ _ _ (src_tpn_sim p WF fuel input input_len key cc fl out use_tbb Hmax Hkey Hout Hle Hin)).
Qed.
Print Assumptions C06_src_compress_subtree_to_parent_node.

(* hasher_push_cv (with the hasher_merge_cv_stack inside it) at every fuel; C06_src_hasher_push_cv above is at the model's fuel *)
Theorem C06_src_hasher_push_cv_with : forall p fuel (self : src_blake3_hasher (list N)) new_cv chunk_counter,
  compress_len8 p -> flat_shape self -> length new_cv = 32%nat ->
  res_map hasher_of_flat (src_hasher_push_cv (p_compress_in_place p) fuel self new_cv chunk_counter)
  = c_push_cv_with fuel p (hasher_of_flat self) new_cv chunk_counter.
Proof. exact src_hasher_push_cv_with. Qed.
Print Assumptions C06_src_hasher_push_cv_with.

(* the shrink loop IS the model's, at every fuel *)
Theorem C06_src_shrink_loop : forall fuel subtree_len count_so_far, subtree_len < 2 ^ 64 ->
  src_blake3_hasher_update_base_loop2 fuel subtree_len count_so_far = c_shrink_loop fuel subtree_len count_so_far.
Proof. exact src_shrink_loop_eq. Qed.
Print Assumptions C06_src_shrink_loop.

Theorem C06_src_blake3_hasher_update_base : forall p, plat_wf p -> forall fuel (self : src_blake3_hasher (list N)) input input_len use_tbb,
  p_max_degree p = c_MAX_SIMD_DEGREE -> flat_shape self -> input_len <= nlen input -> nlen input < 2 ^ 64 ->
  uninit_flag (c_hasher_update_with fuel p (hasher_of_flat self) (firstn (N.to_nat input_len) input)) \/
  res_map hasher_of_flat
    (src_blake3_hasher_update_base (p_compress_in_place p) (p_degree p) (m_c_hash_many p) fuel self input input_len use_tbb)
  = c_hasher_update_with fuel p (hasher_of_flat self) (firstn (N.to_nat input_len) input).
Proof. exact src_blake3_hasher_update_base_eq. Qed.
Print Assumptions C06_src_blake3_hasher_update_base.

(* enough fuel.  16 / 17: the pointer-collecting loops make at most MAX_SIMD_DEGREE = 16 rounds, the block loop of a
   chunk 16 (17 is the bound of the Rust side, Props/C01.v); 81 = 64 levels of recursion (wide_fuel) + 17; 256 =
   c_merge_fuel, the model's fuel for the merge loop inside push_cv *)
Theorem C06_src_wide_enough : forall p key flags, p_max_degree p <= 16 ->
  (forall fuel input chunk_counter cap, (17 <= fuel)%nat ->
     c_compress_chunks_parallel_with fuel p input key chunk_counter flags cap
     = c_compress_chunks_parallel p input key chunk_counter flags cap) /\
  (forall fuel cvs cap, (16 <= fuel)%nat ->
     c_compress_parents_parallel_with fuel p cvs key flags cap = c_compress_parents_parallel p cvs key flags cap) /\
  (forall f fuel input chunk_counter cap, (f + 17 <= fuel)%nat ->
     refines (c_compress_subtree_wide f p input key chunk_counter flags cap)
             (c_compress_subtree_wide_with fuel p input key chunk_counter flags cap)) /\
  (forall fuel input chunk_counter, (81 <= fuel)%nat ->
     refines (c_compress_subtree_to_parent_node p input key chunk_counter flags)
             (c_compress_subtree_to_parent_node_with fuel p input key chunk_counter flags)).
Proof.
  intros p key flags Hmax. assert (Hor : max_degree_or_2 p <= 16) by (unfold max_degree_or_2; apply N.max_lub; [exact Hmax|discriminate]).
  split; [intros; apply c_chunks_with_enough; assumption|]. split; [intros; apply c_parents_with_enough; assumption|].
  split; [intros; apply c_wide_with_refines; assumption|]. intros. apply c_tpn_with_refines; assumption.
Qed.
Print Assumptions C06_src_wide_enough.

Theorem C06_src_hasher_update_enough : forall p fuel h input, p_max_degree p <= 16 ->
  (S (Nat.div (length input) 1024) + 256 <= fuel)%nat ->
  refines (c_hasher_update p h input) (c_hasher_update_with fuel p h input).
Proof. exact c_hasher_update_with_refines. Qed.
Print Assumptions C06_src_hasher_update_enough.

(* hence: whenever the model's blake3_hasher_update returns (it does on every valid state: C06_step_refines_spec), the
   translated blake3_hasher_update_base returns the same hasher *)
Theorem C06_src_blake3_hasher_update_base_model : forall p, plat_wf p -> forall fuel (self : src_blake3_hasher (list N)) input use_tbb h',
  p_max_degree p = c_MAX_SIMD_DEGREE -> flat_shape self -> nlen input < 2 ^ 64 ->
  (S (Nat.div (length input) 1024) + 256 <= fuel)%nat ->
  c_hasher_update p (hasher_of_flat self) input = Ok h' ->
  res_map hasher_of_flat
    (src_blake3_hasher_update_base (p_compress_in_place p) (p_degree p) (m_c_hash_many p) fuel self input (nlen input) use_tbb)
  = Ok h'.
Proof.
  intros p WF fuel self input use_tbb h' Hmax HS Hin HF Hm.
  assert (Hmax16 : p_max_degree p <= 16) by (rewrite Hmax; discriminate).
  pose proof (refines_eq _ _ (c_hasher_update_with_refines p fuel (hasher_of_flat self) input Hmax16 HF)) as HR.
  rewrite Hm in HR. specialize (HR ltac:(discriminate)).
  destruct (src_blake3_hasher_update_base_eq p WF fuel self input (nlen input) use_tbb Hmax HS (N.le_refl _) Hin) as [HFl|HE].
  - rewrite firstn_nlen, <- HR in HFl. destruct HFl as [H|[H|H]]; discriminate H.
  - rewrite firstn_nlen, <- HR in HE. exact HE.
Qed.
Print Assumptions C06_src_blake3_hasher_update_base_model.

(* output_root_bytes: `out += n` on the written pointer moves an offset variable (out_off); the two memcpy from wide_buf
   carry the model's bounds asserts 310 / 312, the writes to `out` an assert (code 313) that they stay inside it.
   blake3_compress_xof / blake3_xof_many are parameters (m_c_compress_xof p / m_c_xof_many p: the model's kernels, the
   latter stored at the pointer it is given).  The model returns the bytes written, the translation the buffer: the
   statement is the stand-in m_output_root_bytes that GenCHasherLoops.v's blake3_hasher_finalize_seek is instantiated
   with.  xof_wf p: compress_xof returns 64 bytes, xof_many 64 per block (what `uint8_t out[64]` / `outblocks` promise);
   proved for the platforms with the portable kernels, for no other. *)
Theorem C06_src_xof_repr_def :
  (forall p cv block bl ctr fl out n,
     m_c_xof_many p cv block bl ctr fl out n = (bs <- p_xof_many p cv block bl ctr fl n ;; Ok (arr_store out 0 bs))) /\
  (forall p cv block bl ctr fl out, m_c_compress_xof p cv block bl ctr fl out = p_compress_xof p cv block bl ctr fl) /\
  (forall p, xof_wf p <->
     ((forall cv block bl ctr fl, length cv = 8%nat -> length block = 64%nat ->
         length (p_compress_xof p cv block bl ctr fl) = 64%nat) /\
      (forall cv block bl ctr fl n bs, length cv = 8%nat -> length block = 64%nat ->
         p_xof_many p cv block bl ctr fl n = Ok bs -> length bs = (64 * N.to_nat n)%nat))) /\
  (forall d m, xof_wf (sim_platform d m)).
Proof.
  split; [reflexivity|]. split; [reflexivity|]. split; [|exact sim_platform_xof_wf].
  intros p. split; [intros [A B]; split; assumption|intros [A B]; constructor; assumption].
Qed.
Print Assumptions C06_src_xof_repr_def.

Theorem C06_src_output_root_bytes : forall p, xof_wf p -> forall self seek out out_len,
  length (output_t_input_cv self) = 8%nat -> length (output_t_block self) = 64%nat ->
  seek < 2 ^ 64 -> out_len <= nlen out -> nlen out < 2 ^ 64 ->
  src_output_root_bytes (m_c_compress_xof p) (m_c_xof_many p) self seek out out_len
  = m_output_root_bytes p self seek out out_len.
Proof. exact src_output_root_bytes_eq. Qed.
Print Assumptions C06_src_output_root_bytes.
