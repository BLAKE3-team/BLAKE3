(* C04: results do not depend on SIMD level, build flavour or feature set.
   A "platform" is the record (SIMD degree, MAX_SIMD_DEGREE, four kernels); PlatformOK says the kernels equal the
   portable ones on their domain and the degree is a power of two <= MAX_SIMD_DEGREE <= 16.  First part: every
   observation equals a specification value that does not mention the platform (C01, C02, C03, C09), so any two
   PlatformOK platforms agree.  Second part (from C04_src_compress_in_place_table on): the translated dispatch layer. *)
From Coq Require Import String.
From Coq Require Import NArith List Bool.
From V Require Import Base.Res Base.Word Spec.Tree Spec.Blake3 Model.Platform Model.Kernels Model.RsChunk Model.RsWide
  Model.RsHasher Model.RsXof Model.Machine Proofs.KernelsP Proofs.KernelsPlatformP Proofs.XofP Proofs.IoP Proofs.HasherP Proofs.C02P Proofs.C04P Model.SpecMachine Proofs.MachineRefinesP.
From V Require Import gen.GenConsts Model.Portable Model.DispatchSyntax gen.GenPlatform Model.PlatformDispatch Model.CHasher Proofs.GenPlatformP.
Import ListNotations.
Open Scope N_scope.

Theorem C04_hash : forall p1 p2 input, PlatformOK p1 -> PlatformOK p2 -> len input < 2 ^ 64 ->
  rs_hash p1 input = rs_hash p2 input.
Proof. exact hash_platform_independent. Qed.

Theorem C04_keyed_hash : forall p1 p2 key input, PlatformOK p1 -> PlatformOK p2 -> length key = 32%nat -> len input < 2 ^ 64 ->
  rs_keyed_hash p1 key input = rs_keyed_hash p2 key input.
Proof. exact keyed_hash_platform_independent. Qed.

Theorem C04_derive_key : forall p1 p2 ctx material, PlatformOK p1 -> PlatformOK p2 ->
  len ctx < 2 ^ 64 -> len material < 2 ^ 64 -> rs_derive_key p1 ctx material = rs_derive_key p2 ctx material.
Proof. exact derive_key_platform_independent. Qed.

Theorem C04_histories : forall p1 p2 K F pn1 pn2 m ops hs1 hs2 rs1 rs2 vs1 vs2 abs obs,
  PlatformOK p1 -> PlatformOK p2 -> length K = 8%nat ->
  Forall2 (InvS K F 0) hs1 abs -> Forall2 (InvS K F 0) hs2 abs -> arun_h K F abs ops = Some obs ->
  fst (run_ops p1 pn1 m K F (mkState hs1 rs1 vs1) (map hop_op ops) []) =
  fst (run_ops p2 pn2 m K F (mkState hs2 rs2 vs2) (map hop_op ops) []).
Proof. exact history_platform_independent. Qed.

Theorem C04_extended_output : forall p1 p2 ops r1 r2 o pos obs,
  PlatformOK p1 -> PlatformOK p2 -> Rd r1 o pos -> Rd r2 o pos -> pos <= max_pos -> arun o pos ops = Some obs ->
  rrun p1 r1 ops = rrun p2 r2 ops.
Proof. exact reader_platform_independent. Qed.

Theorem C04_subtree_cvs : forall p1 p2 K F c0 pieces,
  PlatformOK p1 -> PlatformOK p2 -> length K = 8%nat ->
  c0 < 2 ^ 54 -> 0 < len (concat pieces) -> len (concat pieces) <= 1024 * lim_of c0 -> len (concat pieces) < 2 ^ 64 ->
  exists h1 h2 cv, updates p1 (fresh K F c0) pieces = Ok h1 /\ updates p2 (fresh K F c0) pieces = Ok h2 /\
                   finalize_non_root p1 h1 = Ok cv /\ finalize_non_root p2 h2 = Ok cv.
Proof. exact subtree_cv_platform_independent. Qed.

(* the hypothesis holds for these records of Model/Kernels.v (kernel algorithms of C05; sse2_ffi_platform of
   Model/PlatformDispatch.v, which is not in the list, comes with C04_src_model_platform_ok below) and for the
   portable kernels at every degree / MAX_SIMD_DEGREE the build scripts can produce *)
Theorem C04_platforms_ok :
  PlatformOK sse2_platform /\ PlatformOK sse41_platform /\ PlatformOK avx2_platform /\ PlatformOK avx512_platform /\
  PlatformOK sse41_ffi_platform /\ PlatformOK avx2_ffi_platform /\
  PlatformOK (sim_platform 1 16) /\ PlatformOK (sim_platform 1 8) /\ PlatformOK (sim_platform 1 1) /\
  PlatformOK (sim_platform 4 8) /\ PlatformOK (sim_platform 8 8).
Proof.
  split; [exact sse2_platform_ok|]. split; [exact sse41_platform_ok|]. split; [exact avx2_platform_ok|].
  split; [exact avx512_platform_ok|]. split; [exact sse41_ffi_platform_ok|]. split; [exact avx2_ffi_platform_ok|].
  repeat split; apply sim_platform_ok; (reflexivity || (intro H; discriminate H)).
Qed.

Example C04_nonvacuous :
  let input := map (fun i => N.of_nat i mod 251) (seq 0 5000) in
  rs_hash sse41_platform input = rs_hash avx512_platform input /\ rs_hash avx2_platform input = rs_hash (sim_platform 1 16) input.
Proof.
  intros input.
  assert (L : len input < 2 ^ 64) by (unfold len, input; rewrite map_length, seq_length; reflexivity).
  split; apply C04_hash; try exact L.
  - exact sse41_platform_ok.
  - exact avx512_platform_ok.
  - exact avx2_platform_ok.
  - apply sim_platform_ok; (reflexivity || (intro H; discriminate H)).
Qed.

(* whole histories over the case language (hashers, readers, offsets, merges, trait operations): any two PlatformOK
   platforms produce identical observation sequences *)
Theorem C04_machine_platform_independent : forall p1 p2, PlatformOK p1 -> PlatformOK p2 -> forall pn1 pn2 m ops obs,
  mode_ok m -> spec_run_case m ops = Some obs ->
  Machine.run_case p1 pn1 m ops = Machine.run_case p2 pn2 m ops.
Proof. exact machine_platform_independent. Qed.

Print Assumptions C04_hash.
Print Assumptions C04_machine_platform_independent.
Print Assumptions C04_keyed_hash.
Print Assumptions C04_derive_key.
Print Assumptions C04_histories.
Print Assumptions C04_extended_output.
Print Assumptions C04_subtree_cvs.
Print Assumptions C04_platforms_ok.

(* the dispatch layer itself, translated from the source text (gen/GenPlatform.v, tools/gen_coq_platform.py).
   src_platform_* / src_detect / src_c_* are the translated functions; cfgs_of f is the set of cfg flags of the
   x86-64 build flavour f (default = assembly behind FFI, prefer-intrinsics, pure), defs_c_x86 the C library's build;
   src_cip / src_cx / src_hm / src_xm are the translated Platform methods with each `crate::<mod>::` callee bound to
   the kernel models of the file the translated module table of lib.rs selects. *)

(* which kernel each variant calls, for arbitrary kernels *)
Theorem C04_src_compress_in_place_table : forall f kp k2 k41 k512 kw v cv block bl ctr fl,
  src_platform_compress_in_place (cfgs_of f) k512 k2 k41 kw kp v cv block bl ctr fl =
  option_map (fun k : cip_fn => k cv block bl ctr fl) (rs_x86_compress_table (has_avx512 f) kp k2 k41 k512 v).
Proof. exact src_compress_in_place_table. Qed.

Theorem C04_src_compress_xof_table : forall f kp k2 k41 k512 kw v cv block bl ctr fl,
  src_platform_compress_xof (cfgs_of f) k512 k2 k41 kw kp v cv block bl ctr fl =
  option_map (fun k : cip_fn => k cv block bl ctr fl) (rs_x86_compress_table (has_avx512 f) kp k2 k41 k512 v).
Proof. exact src_compress_xof_table. Qed.

Theorem C04_src_hash_many_table : forall f kp k2 k41 k8 k512 kn kw v inputs key ctr incr fl fs fe cap,
  src_platform_hash_many (cfgs_of f) k8 k512 kn k2 k41 kw kp v inputs key ctr incr fl fs fe cap =
  option_map (fun k : hash_many_fn => k inputs key ctr incr fl fs fe cap)
             (rs_x86_hash_many_table (has_avx512 f) kp k2 k41 k8 k512 v).
Proof. exact src_hash_many_table. Qed.

Theorem C04_src_xof_many_table : forall f k512 (cx : variant -> cip_fn) v cv block bl ctr fl n,
  src_platform_xof_many (cfgs_of f) k512 cx v cv block bl ctr fl n =
  if n =? 0 then Ok []
  else match v with
       | AVX512 => if has_avx512 f then k512 cv block bl ctr fl n
                   else xof_many_loop (cx v) cv block bl ctr fl (N.to_nat n)
       | _ => xof_many_loop (cx v) cv block bl ctr fl (N.to_nat n)
       end.
Proof. exact src_xof_many_table. Qed.

(* every call site of both files passes the parameters of the enclosing function in their own order *)
Theorem C04_src_argorders_identity :
  forallb argorder_identity
    (src_platform_compress_in_place_arms ++ src_platform_compress_xof_arms ++ src_platform_hash_many_arms ++
     src_platform_xof_many_arms ++ src_c_compress_in_place_ladder ++ src_c_compress_xof_ladder ++
     src_c_xof_many_ladder ++ src_c_hash_many_ladder) = true.
Proof. exact src_argorders_identity. Qed.

(* the translated dispatch with the kernel models behind the callees = the platform record of (flavour, variant):
   degree, compress_in_place, compress_xof, hash_many, xof_many at every argument; variants without a record do
   not exist in the build *)
Theorem C04_src_platform_agrees : forall f v,
  match model_platform f v with
  | Some p => agrees (cfgs_of f) v p
  | None => absent (cfgs_of f) v
  end.
Proof. exact src_platform_agrees. Qed.

Theorem C04_src_model_platform_ok : forall f v p, model_platform f v = Some p -> PlatformOK p.
Proof. exact model_platform_ok. Qed.

(* degrees: the debug_assert of simd_degree holds in every build; the x86 table; MAX_SIMD_DEGREE(_OR_2) *)
Theorem C04_src_simd_degree_le_max : forall cfgs v d,
  src_platform_simd_degree cfgs v = Some d -> d <= src_MAX_SIMD_DEGREE cfgs.
Proof. exact src_simd_degree_le_max. Qed.

Theorem C04_src_simd_degree_x86 : forall f v,
  src_platform_simd_degree (cfgs_of f) v =
  rs_x86_hash_many_table (has_avx512 f) rs_degree_Portable rs_degree_SSE2 rs_degree_SSE41 rs_degree_AVX2 rs_degree_AVX512 v.
Proof. exact src_simd_degree_x86. Qed.

Theorem C04_src_max_degree_x86 : forall f, src_MAX_SIMD_DEGREE (cfgs_of f) = if has_avx512 f then 16 else 8.
Proof. exact src_max_degree_x86. Qed.

Theorem C04_src_max_degree_or_2 : forall cfgs, src_MAX_SIMD_DEGREE_OR_2 cfgs = N.max (src_MAX_SIMD_DEGREE cfgs) 2.
Proof. exact src_max_degree_or_2. Qed.

(* detect(): the ladder, highest available level, AVX512 iff both features, never a variant absent from the build,
   always a variant whose dispatch agrees with a PlatformOK record *)
Theorem C04_src_detect_x86 : forall f cpu forced,
  src_detect (cfgs_of f) cpu forced = detect_x86 (has_avx512 f) cpu.
Proof. exact src_detect_x86. Qed.

Theorem C04_src_detect_highest : forall a cpu,
  avail a cpu (detect_x86 a cpu) = true /\
  forall v, avail a cpu v = true -> level v <= level (detect_x86 a cpu).
Proof. exact detect_x86_highest. Qed.

Theorem C04_src_detect_avx512_iff : forall f cpu forced,
  src_detect (cfgs_of f) cpu forced = AVX512 <->
  has_avx512 f = true /\ cpu "avx512f"%string = true /\ cpu "avx512vl"%string = true.
Proof. exact src_detect_avx512_iff. Qed.

Theorem C04_src_detect_exists : forall cfgs cpu, variant_exists cfgs (src_detect cfgs cpu None) = true.
Proof. exact src_detect_exists. Qed.

Theorem C04_src_detect_ok : forall f cpu forced,
  exists p, model_platform f (src_detect (cfgs_of f) cpu forced) = Some p /\
            agrees (cfgs_of f) (src_detect (cfgs_of f) cpu forced) p /\ PlatformOK p.
Proof. exact src_detect_ok. Qed.

(* c/blake3_dispatch.c in the x86-64 build (IS_X86 defined, no BLAKE3_NO_*, no NEON), at every feature mask *)
Theorem C04_src_c_compress_in_place_table : forall (k512 k41 k2 kp : cip_fn) features cv block bl ctr fl,
  src_c_compress_in_place defs_c_x86 k512 kp k2 k41 features cv block bl ctr fl =
  c_x86_compress_table k512 k41 k2 kp features cv block bl ctr fl.
Proof. exact src_c_compress_in_place_table. Qed.

Theorem C04_src_c_compress_xof_table : forall (k512 k41 k2 kp : cip_fn) features cv block bl ctr fl,
  src_c_compress_xof defs_c_x86 k512 kp k2 k41 features cv block bl ctr fl =
  c_x86_compress_table k512 k41 k2 kp features cv block bl ctr fl.
Proof. exact src_c_compress_xof_table. Qed.

Theorem C04_src_c_hash_many_table : forall k512 k8 k41 k2 kn kp features inputs num_inputs blocks key ctr incr fl fs fe,
  src_c_hash_many defs_c_x86 k8 k512 kn kp k2 k41 features inputs num_inputs blocks key ctr incr fl fs fe =
  c_x86_wide_table k512 k8 k41 k2 kp features inputs num_inputs blocks key ctr incr fl fs fe.
Proof. exact src_c_hash_many_table. Qed.

Theorem C04_src_c_xof_many_table : forall k512 (cx : cip_fn) features cv block bl ctr fl n,
  src_c_xof_many defs_c_x86 cx k512 features cv block bl ctr fl n =
  if n =? 0 then Ok []
  else if has_bit features src_c_feature_AVX512VL then k512 cv block bl ctr fl n
  else xof_many_loop cx cv block bl ctr fl (N.to_nat n).
Proof. exact src_c_xof_many_table. Qed.

Theorem C04_src_c_degree_matches_hash_many : forall features,
  src_c_simd_degree defs_c_x86 features =
  snd (c_x86_wide_table (src_c_feature_AVX512F, 16) (src_c_feature_AVX2, 8) (src_c_feature_SSE41, 4)
                        (src_c_feature_SSE2, 4) (0, 1) features).
Proof. exact src_c_degree_matches_hash_many. Qed.

Theorem C04_src_c_simd_degree_ok : forall features, PlatformOK (c_platform (src_c_simd_degree defs_c_x86 features)).
Proof. exact src_c_simd_degree_ok. Qed.

Theorem C04_src_c_compress_in_place_ok : forall features cv block bl ctr fl,
  src_c_compress_in_place defs_c_x86 cip_rows compress_in_place cip_rows cip_rows features cv block bl ctr fl =
  compress_in_place cv block bl ctr fl.
Proof. exact src_c_compress_in_place_ok. Qed.

Theorem C04_src_c_compress_xof_ok : forall features cv block bl ctr fl,
  src_c_compress_xof defs_c_x86 cx_rows compress_xof cx_rows cx_rows features cv block bl ctr fl =
  compress_xof cv block bl ctr fl.
Proof. exact src_c_compress_xof_ok. Qed.

Theorem C04_src_c_hash_many_ok : forall kn features inputs blocks key ctr incr fl fs fe,
  length key = 8%nat -> (forall i, In i inputs -> length i = (N.to_nat blocks * 64)%nat) ->
  ctr + N.of_nat (length inputs) < 2 ^ 64 ->
  src_c_hash_many defs_c_x86
    (c_hm (hash_many_c8 (load_counters_cmp 8) (load_counters_cmp 4) compress_in_place_rows))
    (c_hm (hash_many_c16 compress_in_place_rows))
    kn (c_hm (hash_many_c1 compress_in_place))
    (c_hm (hash_many_c4 (load_counters_cmp 4) compress_in_place_rows))
    (c_hm (hash_many_c4 (load_counters_cmp 4) compress_in_place_rows))
    features inputs (N.of_nat (length inputs)) blocks key ctr incr fl fs fe =
  Ok (hm_spec inputs key ctr incr fl fs fe).
Proof. exact src_c_hash_many_ok. Qed.

Theorem C04_src_c_xof_many_ok : forall features cv block bl ctr fl n, ctr + n < 2 ^ 64 ->
  src_c_xof_many defs_c_x86
    (src_c_compress_xof defs_c_x86 cx_rows compress_xof cx_rows cx_rows features)
    (guard_xm (xof_many_avx512 compress_xof_rows))
    features cv block bl ctr fl n =
  portable_xof_many cv block bl ctr fl n.
Proof. exact src_c_xof_many_ok. Qed.

(* non-vacuity: the default build on a CPU with AVX2 but no AVX-512 selects AVX2, whose hash_many is the C/assembly
   cascade behind the FFI wrapper *)
Example C04_src_nonvacuous :
  let cpu := env_of ["sse2"; "sse4.1"; "avx2"]%string in
  src_detect (cfgs_of FlDefault) cpu None = AVX2 /\ model_platform FlDefault AVX2 = Some avx2_ffi_platform /\
  src_c_simd_degree defs_c_x86 (N.lor src_c_feature_SSE2 (N.lor src_c_feature_SSE41 src_c_feature_AVX2)) = 8.
Proof. cbv zeta. split; [reflexivity|]. split; [reflexivity|]. vm_compute. reflexivity. Qed.

Print Assumptions C04_src_compress_in_place_table.
Print Assumptions C04_src_compress_xof_table.
Print Assumptions C04_src_hash_many_table.
Print Assumptions C04_src_xof_many_table.
Print Assumptions C04_src_argorders_identity.
Print Assumptions C04_src_platform_agrees.
Print Assumptions C04_src_model_platform_ok.
Print Assumptions C04_src_simd_degree_le_max.
Print Assumptions C04_src_simd_degree_x86.
Print Assumptions C04_src_max_degree_x86.
Print Assumptions C04_src_max_degree_or_2.
Print Assumptions C04_src_detect_x86.
Print Assumptions C04_src_detect_highest.
Print Assumptions C04_src_detect_avx512_iff.
Print Assumptions C04_src_detect_exists.
Print Assumptions C04_src_detect_ok.
Print Assumptions C04_src_c_compress_in_place_table.
Print Assumptions C04_src_c_compress_xof_table.
Print Assumptions C04_src_c_hash_many_table.
Print Assumptions C04_src_c_xof_many_table.
Print Assumptions C04_src_c_degree_matches_hash_many.
Print Assumptions C04_src_c_simd_degree_ok.
Print Assumptions C04_src_c_compress_in_place_ok.
Print Assumptions C04_src_c_compress_xof_ok.
Print Assumptions C04_src_c_hash_many_ok.
Print Assumptions C04_src_c_xof_many_ok.
