(* Fixed-size arrays of words / bytes as lists, for code translated statement by statement
   (gen/GenPortable.v): `a[i]` is arr_get, `a[i] = v` is arr_set, storing a run of bytes at an
   offset is arr_store, `*array_ref!(a, off, len)` / `p + off` are arr_slice / skipn.
   Out-of-range accesses (a panic in Rust, undefined in C) read 0 / leave the array unchanged:
   the theorems about translated code are stated for arrays of the declared lengths, where every
   index of the source is a literal inside the bounds. *)
From Coq Require Import NArith List Lia Arith.
From V Require Import Base.Res Base.Word.
Import ListNotations.
Open Scope N_scope.

Definition arr_get (s : list N) (i : nat) : N := nth i s 0.

Fixpoint arr_set (s : list N) (i : nat) (v : N) : list N :=
  match s, i with
  | [], _ => []
  | _ :: tl, O => v :: tl
  | h :: tl, S i' => h :: arr_set tl i' v
  end.

Definition arr_slice (s : list N) (off len : nat) : list N := firstn len (skipn off s).

Definition arr_store (s : list N) (off : nat) (vs : list N) : list N :=
  firstn off s ++ vs ++ skipn (off + length vs) s.

(* `a[lo..hi].copy_from_slice(&src)` (Rust panics unless length src = hi - lo: the theorems are stated for the
   declared lengths) *)
Definition arr_copy (s : list N) (lo hi : nat) (src : list N) : list N := firstn lo s ++ src ++ skipn hi s.

(* value of a generated integer formula that cannot fail at its call sites *)
Definition res_val (r : res N) : N := match r with Ok v => v | _ => 0 end.

(* u32::from_le_bytes / load32: the first four bytes, little endian *)
Definition le_load32 (p : list N) : N :=
  match p with
  | b0 :: b1 :: b2 :: b3 :: _ => word_of_bytes4 b0 b1 b2 b3
  | _ => 0
  end.

Lemma arr_set_length s i v : length (arr_set s i v) = length s.
Proof.
  revert i. induction s as [|h tl IH]; intros [|i]; cbn [arr_set length]; try reflexivity.
  rewrite IH. reflexivity.
Qed.

Lemma arr_get_set s i j v : (j < length s)%nat ->
  arr_get (arr_set s j v) i = if Nat.eqb i j then v else arr_get s i.
Proof.
  unfold arr_get. revert i j. induction s as [|h tl IH]; intros i j H; [cbn in H; lia|].
  destruct j as [|j], i as [|i]; cbn [arr_set nth Nat.eqb]; try reflexivity.
  apply IH. cbn [length] in H. lia.
Qed.

Lemma arr_get_same s i v : (i < length s)%nat -> arr_get (arr_set s i v) i = v.
Proof. intros H. rewrite arr_get_set, Nat.eqb_refl by exact H. reflexivity. Qed.

Lemma arr_get_other s i j v : i <> j -> arr_get (arr_set s j v) i = arr_get s i.
Proof.
  unfold arr_get. revert i j. induction s as [|h tl IH]; intros [|i] [|j] H; cbn [arr_set nth]; try reflexivity.
  - contradiction.
  - apply IH. congruence.
Qed.

Lemma arr_set_same s i v w : arr_set (arr_set s i v) i w = arr_set s i w.
Proof. revert i. induction s as [|h tl IH]; intros [|i]; cbn [arr_set]; try reflexivity. rewrite IH. reflexivity. Qed.

Lemma arr_set_comm s i j v w : i <> j -> arr_set (arr_set s i v) j w = arr_set (arr_set s j w) i v.
Proof.
  revert i j. induction s as [|h tl IH]; intros [|i] [|j] H; cbn [arr_set]; try reflexivity.
  - contradiction.
  - rewrite IH by congruence. reflexivity.
Qed.

Lemma arr_set_get s i : arr_set s i (arr_get s i) = s.
Proof.
  unfold arr_get. revert i. induction s as [|h tl IH]; intros [|i]; cbn [arr_set nth]; try reflexivity.
  rewrite IH. reflexivity.
Qed.

Lemma arr_ext (s t : list N) : length s = length t ->
  (forall i, (i < length s)%nat -> arr_get s i = arr_get t i) -> s = t.
Proof.
  unfold arr_get. revert t. induction s as [|h tl IH]; intros [|h' tl'] Hl Hg; try discriminate; [reflexivity|].
  f_equal.
  - apply (Hg 0%nat). cbn. lia.
  - apply IH; [cbn in Hl; lia|]. intros i Hi. apply (Hg (S i)). cbn. lia.
Qed.
