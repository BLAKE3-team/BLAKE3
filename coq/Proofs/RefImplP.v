(* C15, reference implementation: the model of reference_impl.rs
   (Model/RefImpl.v) computes the specification for every mode, every splitting
   of the input into update calls and every output length; no index, slice or
   overflow check of the reference implementation can fail (in particular the
   54-entry CV stack never overflows) for inputs below 2^64 bytes. *)
From V Require Import Proofs.ListP Proofs.ResP.
From V Require Import Base.Res Base.Word Base.MachInt gen.GenConsts
  Spec.Compress Spec.Tree Spec.Blake3 Model.RefImpl Proofs.PortableP Proofs.TreeP Proofs.FormulasP
  Proofs.WideP Proofs.StackArithP Proofs.HasherP Proofs.C01P Proofs.XofP Proofs.WordP Proofs.RefCompressP Proofs.RefChunkP Proofs.RefStackP.
Open Scope N_scope.

Lemma stream_block_prefix o k (j : nat) : wf_out o -> (j <= 64)%nat ->
  stream spec_c64 o (64 * k) j = firstn j (root_block spec_c64 o k).
Proof.
  intros (H1 & H2 & _) Hj.
  rewrite <- (N.add_0_r (64 * k)), (stream_in_block o k 0 j (conj H1 H2)) by lia. reflexivity.
Qed.

Lemma nth_byte l i : all_bytes l = true -> nth i l 0 < 256.
Proof.
  intros HB. unfold all_bytes in HB. rewrite forallb_forall in HB.
  destruct (nth_in_or_default i l 0) as [Hin|E]; [|rewrite E; lia].
  specialize (HB _ Hin). unfold is_byte in HB. lia.
Qed.

Lemma stream_byte_lt o i : stream_byte spec_c64 o i < 256.
Proof.
  unfold stream_byte, root_block, spec_c64. apply nth_byte. apply bytes_of_words_all_bytes.
Qed.

Lemma stream_bytes o p (n : nat) : Forall (fun b => b < 256) (stream spec_c64 o p n).
Proof.
  unfold stream. apply Forall_forall. intros b Hb. apply in_map_iff in Hb.
  destruct Hb as (i & Hi & _). rewrite <- Hi. apply stream_byte_lt.
Qed.

Lemma ref_fill_words_spec : forall ws n,
  ref_fill_words ws n = firstn (N.to_nat n) (bytes_of_words ws).
Proof.
  induction ws as [|w ws IH]; intros n.
  - cbn [ref_fill_words]. unfold bytes_of_words. cbn [flat_map]. rewrite firstn_nil. reflexivity.
  - cbn [ref_fill_words]. destruct (n =? 0) eqn:E.
    + replace (N.to_nat n) with 0%nat by lia. reflexivity.
    + unfold bytes_of_words in *. cbn [flat_map]. rewrite firstn_app, IH.
      assert (Hl : length (bytes_of_word w) = 4%nat) by reflexivity. rewrite Hl.
      f_equal.
      * destruct (N.le_gt_cases 4 n) as [H|H].
        -- replace (N.min 4 n) with 4 by lia. rewrite !firstn_all2 by (rewrite Hl; lia). reflexivity.
        -- replace (N.min 4 n) with n by lia. reflexivity.
      * f_equal. lia.
Qed.

Lemma root_loop_unfold fuel r k rem :
  ref_root_loop (S fuel) r k rem =
  if rem =? 0 then Ok []
  else
    words <- ref_compress (ro_input_chaining_value r) (ro_block_words r) k
               (ro_block_len r) (N.lor (ro_flags r) ref_flag_ROOT) ;;
    let n := N.min (2 * ref_OUT_LEN) rem in
    let out_block := ref_fill_words words n in
    output_block_counter <- mi_add 64 k 1 ;;
    rest <- ref_root_loop fuel r output_block_counter (rem - n) ;;
    Ok (out_block ++ rest).
Proof. reflexivity. Qed.

Lemma root_compress o k : wf_out o ->
  exists ws, ref_compress (ro_input_chaining_value (ro_of o)) (ro_block_words (ro_of o)) k
               (ro_block_len (ro_of o)) (N.lor (ro_flags (ro_of o)) ref_flag_ROOT) = Ok ws /\
             bytes_of_words ws = root_block spec_c64 o k.
Proof.
  intros (H1 & H2 & _). unfold ro_of.
  cbn [ro_input_chaining_value ro_block_words ro_block_len ro_flags].
  rewrite (ref_compress_words_is_spec (o_cv o) _ (o_block o)); [|exact H1| |reflexivity].
  - eexists. split; [reflexivity|]. unfold root_block, spec_c64. reflexivity.
  - apply words_of_bytes_length. rewrite H2. reflexivity.
Qed.

Lemma root_loop_spec o : wf_out o -> forall fuel k rem,
  rem <= 64 * N.of_nat fuel -> k + rem < 2 ^ 64 ->
  ref_root_loop fuel (ro_of o) k rem = Ok (stream spec_c64 o (64 * k) (N.to_nat rem)).
Proof.
  intros Hwf.
  induction fuel as [|fuel IH]; intros k rem Hf H64.
  - assert (rem = 0) by lia. subst rem. reflexivity.
  - rewrite root_loop_unfold. destruct (rem =? 0) eqn:E.
    + replace rem with 0 by lia. reflexivity.
    + destruct (root_compress o k Hwf) as (ws & -> & Hws). cbn [bind]. cbv zeta.
      rewrite add_small by lia. cbn [bind].
      change (2 * ref_OUT_LEN) with 64.
      rewrite IH by lia. cbn [bind]. f_equal.
      rewrite ref_fill_words_spec, Hws.
      replace (N.to_nat rem) with (N.to_nat (N.min 64 rem) + N.to_nat (rem - N.min 64 rem))%nat by lia.
      rewrite stream_app. f_equal.
      * symmetry. apply stream_block_prefix; [exact Hwf|lia].
      * destruct (N.le_gt_cases 64 rem) as [H|H].
        -- replace (N.min 64 rem) with 64 by lia. f_equal. lia.
        -- replace (rem - N.min 64 rem) with 0 by lia. reflexivity.
Qed.

Lemma root_output_bytes_spec o out_len : wf_out o -> out_len < 2 ^ 64 ->
  ro_root_output_bytes (ro_of o) out_len = Ok (stream spec_c64 o 0 (N.to_nat out_len)).
Proof.
  intros Hwf H. unfold ro_root_output_bytes.
  rewrite (root_loop_spec o Hwf) by lia. reflexivity.
Qed.

(* the `if self.chunk_state.len() == CHUNK_LEN` step of Hasher::update, and the loop body around it *)
Definition ref_roll (h : ref_hasher) : res ref_hasher :=
  if rcs_len (rh_chunk_state h) =? ref_CHUNK_LEN then
    o <- rcs_output (rh_chunk_state h) ;;
    chunk_cv <- ro_chaining_value o ;;
    total_chunks <- mi_add 64 (rcs_chunk_counter (rh_chunk_state h)) 1 ;;
    h <- ref_add_chunk_chaining_value h chunk_cv total_chunks ;;
    Ok (rh_with_cs h (rcs_new (rh_key_words h) total_chunks (rh_flags h)))
  else Ok h.

Lemma ref_update_loop_unfold fuel h x input' :
  ref_update_loop (S fuel) h (x :: input') =
  (let input := x :: input' in
   h <- ref_roll h ;;
   want <- mi_sub 64 ref_CHUNK_LEN (rcs_len (rh_chunk_state h)) ;;
   let take := N.min want (rlen input) in
   cs <- rcs_update (rh_chunk_state h) (firstn (N.to_nat take) input) ;;
   ref_update_loop fuel (rh_with_cs h cs) (skipn (N.to_nat take) input)).
Proof. reflexivity. Qed.

Section RefHasher.
  Variables (K : list N) (F : N).
  Hypothesis HK : length K = 8%nat.
  Hypothesis HKW : Forall W K.
  Hypothesis HF : W F.

  (* h has absorbed P ++ R: the complete chunks P on the stack (subtrees of 2^e chunks, e in es, merged down to
     the binary decomposition of their number), the bytes R in the chunk state *)
  Definition HRel (h : ref_hasher) (es : list N) (P R : list N) : Prop :=
    len P = 1024 * sum2 es /\ SDom es /\ RTight K F (sum2 es) (rh_chunk_state h) R /\
    rh_key_words h = K /\ rh_flags h = F /\
    StackRel K F (rh_cv_stack h) (rh_cv_stack_len h) (trees_of 0 P es).

  Definition HInv (h : ref_hasher) (m : list N) : Prop :=
    exists es P R, m = P ++ R /\ HRel h es P R /\ (R = [] -> es = []).

  Lemma HInv_new : HInv (ref_new_internal K F) [].
  Proof.
    exists [], [], []. split; [reflexivity|]. split; [|auto].
    unfold HRel, ref_new_internal. cbn [rh_chunk_state rh_key_words rh_flags rh_cv_stack rh_cv_stack_len].
    split; [reflexivity|]. split; [exact I|]. split; [apply RTight_new|]. split; [reflexivity|]. split; [reflexivity|].
    split; [|reflexivity]. split; [eexists; reflexivity|]. split; [reflexivity|constructor].
  Qed.

  Lemma roll_spec h es P R : HRel h es P R -> len (P ++ R) < 2 ^ 64 ->
    exists h1 es1 P1 R1, ref_roll h = Ok h1 /\ HRel h1 es1 P1 R1 /\ P1 ++ R1 = P ++ R /\ len R1 < 1024.
  Proof.
    intros (HP & HSD & HT & HKh & HFh & HS) H64. unfold ref_roll.
    destruct (RTight_fields _ _ _ HK _ _ HT) as (Hlen & Hctr & H1024). rewrite Hlen. change ref_CHUNK_LEN with 1024.
    destruct (len R =? 1024) eqn:E.
    - assert (HR : len R = 1024) by lia.
      rewrite (rcs_output_spec K F _ HK _ _ HT). cbn [bind].
      assert (Hw : wf_tree (Leaf (sum2 es) R)) by (cbn [wf_tree]; lia).
      change (chunk_output spec_c8 K F (sum2 es) R) with (tout K F (Leaf (sum2 es) R)).
      rewrite (ro_cv_tree K F HK HKW HF _ Hw). cbn [bind]. rewrite Hctr.
      assert (Hc : sum2 es + 1 < 2 ^ 54).
      { rewrite len_app in H64. change (2 ^ 64) with (1024 * 2 ^ 54) in H64. lia. }
      assert (2 ^ 54 < 2 ^ 64) by (apply N.pow_lt_mono_r; lia).
      rewrite add_small by lia. cbn [bind].
      destruct (add_chunk_spec K F HK HKW HF h es P R HKh HFh HS HSD HP HR H64)
        as (h2 & es2 & Hrun & HS2 & HSD2 & Hsum2 & (Hc2 & Hk2 & Hf2)).
      rewrite Hrun. cbn [bind].
      eexists. exists es2, (P ++ R), []. split; [reflexivity|].
      split; [|split; [rewrite app_nil_r; reflexivity|change (len []) with 0; lia]].
      unfold HRel, rh_with_cs. cbn [rh_chunk_state rh_key_words rh_flags rh_cv_stack rh_cv_stack_len].
      split; [rewrite len_app; lia|]. rewrite Hk2, Hf2, HKh, HFh, Hsum2. split; [exact HSD2|].
      split; [apply RTight_new|]. split; [reflexivity|]. split; [reflexivity|exact HS2].
    - exists h, es, P, R. split; [reflexivity|]. split; [exact (conj HP (conj HSD (conj HT (conj HKh (conj HFh HS)))))|].
      split; [reflexivity|lia].
  Qed.

  Lemma ref_update_loop_spec : forall fuel input h m,
    HInv h m -> len (m ++ input) < 2 ^ 64 -> (length input < fuel)%nat ->
    exists h', ref_update_loop fuel h input = Ok h' /\ HInv h' (m ++ input).
  Proof.
    induction fuel as [|fuel IH]; intros input h m HI H64 Hfuel; [lia|].
    destruct input as [|x input'].
    - exists h. split; [reflexivity|]. rewrite app_nil_r. exact HI.
    - rewrite ref_update_loop_unfold. cbv zeta.
      set (input := x :: input') in *.
      assert (Hpos : 0 < len input) by (unfold input, len; cbn [length]; lia).
      destruct HI as (es & P & R & Em & HR & _).
      rewrite len_app in H64.
      destruct (roll_spec h es P R HR ltac:(rewrite <- Em; lia)) as (h1 & es1 & P1 & R1 & Hrun & HR1 & Eq & Hlt).
      rewrite Hrun. cbn [bind].
      destruct HR1 as (HP1 & HSD1 & HT1 & HKh1 & HFh1 & HS1).
      destruct (RTight_fields _ _ _ HK _ _ HT1) as (Hlen1 & _). rewrite Hlen1. change ref_CHUNK_LEN with 1024.
      rewrite sub_small by lia. cbn [bind].
      unfold rlen. fold (len input).
      set (tk := N.min (1024 - len R1) (len input)).
      assert (Htk1 : 1 <= tk) by (unfold tk; lia).
      assert (Htk2 : tk <= 1024 - len R1) by (unfold tk; lia).
      assert (Htk3 : tk <= len input) by (unfold tk; lia).
      rewrite firstn_N, skipn_N.
      destruct (rcs_update_spec K F _ HK _ R1 (take tk input) HT1) as (cs' & Hupd & HT2).
      { rewrite len_app, len_take. lia. }
      rewrite Hupd. cbn [bind].
      destruct (IH (drop tk input) (rh_with_cs h1 cs') (m ++ take tk input)) as (h' & Hrun' & HI').
      + exists es1, P1, (R1 ++ take tk input). split; [rewrite app_assoc, Eq, <- Em; reflexivity|].
        split.
        * unfold HRel, rh_with_cs. cbn [rh_chunk_state rh_key_words rh_flags rh_cv_stack rh_cv_stack_len].
          exact (conj HP1 (conj HSD1 (conj HT2 (conj HKh1 (conj HFh1 HS1))))).
        * intros Hnil. assert (Hz : len (R1 ++ take tk input) = 0) by (rewrite Hnil; reflexivity).
          rewrite len_app, len_take in Hz. lia.
      + rewrite <- app_assoc, take_drop, len_app. lia.
      + pose proof (len_drop tk input) as Hd. unfold len in Hd, Htk1, Hpos. lia.
      + exists h'. split; [exact Hrun'|]. rewrite <- app_assoc, take_drop in HI'. exact HI'.
  Qed.

  Theorem ref_update_spec h m input : HInv h m -> len (m ++ input) < 2 ^ 64 ->
    exists h', ref_update h input = Ok h' /\ HInv h' (m ++ input).
  Proof. intros HI H. apply ref_update_loop_spec; [exact HI|exact H|lia]. Qed.

  Theorem ref_update_all_spec : forall pieces h m, HInv h m -> len (m ++ concat pieces) < 2 ^ 64 ->
    exists h', ref_update_all h pieces = Ok h' /\ HInv h' (m ++ concat pieces).
  Proof.
    induction pieces as [|p tl IH]; intros h m HI H.
    - exists h. split; [reflexivity|]. cbn [concat]. rewrite app_nil_r. exact HI.
    - cbn [concat ref_update_all] in *. rewrite app_assoc in H.
      destruct (ref_update_spec h m p HI) as (h1 & Hrun & HI1).
      { rewrite !len_app in H. rewrite len_app. lia. }
      rewrite Hrun. cbn [bind].
      destruct (IH h1 (m ++ p) HI1 H) as (h' & Hrun' & HI').
      exists h'. split; [exact Hrun'|]. rewrite app_assoc. exact HI'.
  Qed.

  Lemma tout_st ctr bytes : tout K F (st ctr bytes) = subtree_output spec_c8 tree_height K F ctr bytes.
  Proof. rewrite st_unfold. symmetry. apply subtree_output_tree. Qed.

  Theorem ref_finalize_spec h m out_len : HInv h m -> len m < 2 ^ 64 -> out_len < 2 ^ 64 ->
    ref_finalize h out_len =
    Ok (stream spec_c64 (subtree_output spec_c8 tree_height K F 0 m) 0 (N.to_nat out_len)).
  Proof.
    intros (es & P & R & Em & (HP & HSD & HT & HKh & HFh & HS) & Hnil) H64 Hout.
    unfold ref_finalize.
    rewrite (rcs_output_spec K F _ HK _ _ HT). cbn [bind].
    destruct (RTight_fields _ _ _ HK _ _ HT) as (_ & _ & H1024).
    change (chunk_output spec_c8 K F (sum2 es) R) with (tout K F (Leaf (sum2 es) R)).
    rewrite <- (st_leaf (sum2 es) R) by exact H1024.
    destruct HS as [HA ->]. rewrite Nat2N.id.
    rewrite (finalize_loop_spec K F HK HKW HF h HKh HFh _ _ HA (st_wf64 _ R ltac:(lia))). cbn [bind].
    assert (Etree : spine (trees_of 0 P es) (st (sum2 es) R) = st 0 m).
    { destruct (N.eq_dec (len R) 0) as [Hz|Hnz].
      - apply len_0_nil in Hz. subst R. rewrite (Hnil eq_refl) in *.
        assert (P = []) by (apply len_0_nil; exact HP). subst P m. reflexivity.
      - subst m. rewrite len_app, HP in H64. rewrite <- (spine_st es 0 (P ++ R)); rewrite ?len_app, ?HP; try lia.
        + rewrite trees_of_ext, N.add_0_l, drop_app_ge, HP, N.sub_diag, drop_0 by lia. reflexivity.
        + replace (1024 * sum2 es + len R - 1024 * sum2 es) with (len R) by lia. apply SDom_DomR; assumption. }
    rewrite Etree, tout_st.
    apply root_output_bytes_spec; [|exact Hout].
    rewrite <- tout_st. apply tout_wf; try assumption. apply st_wf64. exact H64.
  Qed.

  Theorem ref_internal_spec pieces out_len :
    len (concat pieces) < 2 ^ 64 -> out_len < 2 ^ 64 ->
    (h <- ref_update_all (ref_new_internal K F) pieces ;; ref_finalize h out_len) =
    Ok (stream spec_c64 (subtree_output spec_c8 tree_height K F 0 (concat pieces)) 0 (N.to_nat out_len)).
  Proof.
    intros H64 Hout.
    destruct (ref_update_all_spec pieces _ [] HInv_new H64) as (h & Hrun & HI).
    rewrite Hrun. cbn [bind]. cbn [app] in HI.
    apply ref_finalize_spec; assumption.
  Qed.
End RefHasher.

Definition ref_spec_mode (m : ref_mode) : mode :=
  match m with
  | RHash => Hash
  | RKeyed k => KeyedHash k
  | RDerive c => DeriveKeyMaterial (b3_hash_mode DeriveKeyContext c)
  end.

Definition ref_mode_ok (m : ref_mode) : Prop :=
  match m with
  | RHash => True
  | RKeyed k => length k = 32%nat /\ Forall (fun b => b < 256) k
  | RDerive c => len c < 2 ^ 64
  end.

Lemma subtree_root_wf K F m : length K = 8%nat -> Forall W K -> W F -> len m < 2 ^ 64 ->
  wf_out (subtree_output spec_c8 tree_height K F 0 m).
Proof.
  intros HK HKW HF H. rewrite <- (tout_st K F). apply tout_wf; try assumption. apply st_wf64. exact H.
Qed.

Lemma ref_new_mode_spec m : ref_mode_ok m ->
  exists K F, ref_new_mode m = Ok (ref_new_internal K F) /\
              length K = 8%nat /\ Forall W K /\ W F /\
              K = mode_key (ref_spec_mode m) /\ F = mode_flags (ref_spec_mode m).
Proof.
  destruct m as [|k|c]; cbn [ref_mode_ok ref_new_mode ref_spec_mode mode_key mode_flags].
  - intros _. exists ref_IV, 0. split; [reflexivity|].
    split; [reflexivity|]. split; [apply IV_words|]. split; [unfold W; lia|]. split; reflexivity.
  - intros [Hl HB]. exists (words_of_bytes k), ref_flag_KEYED_HASH.
    unfold ref_new_keyed. rewrite (ref_words_from_le_bytes_ok k 8) by (rewrite Hl; reflexivity).
    cbn [bind]. split; [reflexivity|].
    split; [apply words_of_bytes_length; rewrite Hl; reflexivity|].
    split; [apply words_of_bytes_lt, HB|].
    split; [unfold W, ref_flag_KEYED_HASH; lia|]. split; reflexivity.
  - intros Hc. unfold ref_new_derive_key.
    pose proof (ref_internal_spec ref_IV ref_flag_DERIVE_KEY_CONTEXT eq_refl IV_words
                  ltac:(unfold W, ref_flag_DERIVE_KEY_CONTEXT; lia) [c] ref_KEY_LEN) as Hctx.
    cbn [concat ref_update_all] in Hctx. rewrite app_nil_r in Hctx.
    specialize (Hctx Hc ltac:(unfold ref_KEY_LEN; lia)).
    destruct (ref_update (ref_new_internal ref_IV ref_flag_DERIVE_KEY_CONTEXT) c) as [h1| |];
      cbn [bind] in Hctx; try discriminate.
    cbn [bind]. rewrite Hctx. cbn [bind].
    change (N.to_nat ref_KEY_LEN) with 32%nat.
    assert (Eck : stream spec_c64 (subtree_output spec_c8 tree_height ref_IV ref_flag_DERIVE_KEY_CONTEXT 0 c) 0 32
                  = b3_hash_mode DeriveKeyContext c).
    { unfold b3_hash_mode, hash_mode, root_output. cbn [mode_key mode_flags].
      change ref_IV with IV. change ref_flag_DERIVE_KEY_CONTEXT with DERIVE_KEY_CONTEXT. reflexivity. }
    rewrite Eck. clear Eck.
    set (ck := b3_hash_mode DeriveKeyContext c).
    assert (Hlen : length ck = 32%nat) by (unfold ck, b3_hash_mode, hash_mode; apply stream_length).
    assert (HB : Forall (fun b => b < 256) ck).
    { unfold ck, b3_hash_mode, hash_mode.
      apply stream_bytes. }
    rewrite (ref_words_from_le_bytes_ok ck 8) by (rewrite Hlen; reflexivity). cbn [bind].
    exists (words_of_bytes ck), ref_flag_DERIVE_KEY_MATERIAL. split; [reflexivity|].
    split; [apply words_of_bytes_length; rewrite Hlen; reflexivity|].
    split; [apply words_of_bytes_lt, HB|].
    split; [unfold W, ref_flag_DERIVE_KEY_MATERIAL; lia|]. split; reflexivity.
Qed.

(* reference_impl.rs refines the specification: constructor for any mode, any list of update pieces,
   finalize into out_len bytes = the specification's extendable output of the
   concatenated input; `Ok` = no panic anywhere (CV stack within its 54 entries,
   no u8/u64/usize overflow, no index or slice out of range). *)
Theorem ref_refines m pieces out_len :
  ref_mode_ok m -> len (concat pieces) < 2 ^ 64 -> out_len < 2 ^ 64 ->
  ref_run m pieces out_len = Ok (b3_xof_mode (ref_spec_mode m) (concat pieces) 0 (N.to_nat out_len)).
Proof.
  intros Hm H64 Hout. unfold ref_run.
  destruct (ref_new_mode_spec m Hm) as (K & F & Hnew & HK & HKW & HF & EK & EF).
  rewrite Hnew. cbn [bind].
  rewrite (ref_internal_spec K F HK HKW HF pieces out_len H64 Hout).
  unfold b3_xof_mode, xof_mode, root_output. rewrite <- EK, <- EF. reflexivity.
Qed.

Corollary ref_hash_spec pieces : len (concat pieces) < 2 ^ 64 ->
  ref_run RHash pieces 32 = Ok (b3_hash (concat pieces)).
Proof. intros H. apply (ref_refines RHash pieces 32 I H). lia. Qed.

Corollary ref_keyed_hash_spec key pieces :
  length key = 32%nat -> Forall (fun b => b < 256) key -> len (concat pieces) < 2 ^ 64 ->
  ref_run (RKeyed key) pieces 32 = Ok (b3_keyed_hash key (concat pieces)).
Proof. intros H1 H2 H. apply (ref_refines (RKeyed key) pieces 32 (conj H1 H2) H). lia. Qed.

Corollary ref_derive_key_spec context pieces :
  len context < 2 ^ 64 -> len (concat pieces) < 2 ^ 64 ->
  ref_run (RDerive context) pieces 32 = Ok (b3_derive_key context (concat pieces)).
Proof. intros H1 H. apply (ref_refines (RDerive context) pieces 32 H1 H). lia. Qed.
