(* The compression function on words held as eight hex digits (an inductive with sixteen
   constructors), equal to Spec.Compress.compress on all arguments; Proofs/TestVectorsP.v evaluates
   it.  N.land / N.lxor / N.add on binary numbers take one reduction step per bit; here xor and
   add-with-carry are 16 x 16 tables, one step per digit, and the rotations by 16, 12 and 8 only
   re-index the digits.  The tables are the normal forms of the obvious definitions over N,
   tabulated by `tab`. *)
From Coq Require Import NArith List Bool Lia.
From V Require Import Base.Word Spec.Compress gen.GenConsts Model.Portable Model.Kernels
  Proofs.ListP Proofs.WordP Proofs.PortableP Proofs.RoundHomP.
Import ListNotations.
Open Scope N_scope.

Inductive hex := h0 | h1 | h2 | h3 | h4 | h5 | h6 | h7 | h8 | h9 | hA | hB | hC | hD | hE | hF.

Definition hv (d : hex) : N :=
  match d with
  | h0 => 0 | h1 => 1 | h2 => 2 | h3 => 3 | h4 => 4 | h5 => 5 | h6 => 6 | h7 => 7
  | h8 => 8 | h9 => 9 | hA => 10 | hB => 11 | hC => 12 | hD => 13 | hE => 14 | hF => 15
  end.

Definition hex_of (n : N) : hex :=
  match n with
  | 0 => h0 | 1 => h1 | 2 => h2 | 3 => h3 | 4 => h4 | 5 => h5 | 6 => h6 | 7 => h7
  | 8 => h8 | 9 => h9 | 10 => hA | 11 => hB | 12 => hC | 13 => hD | 14 => hE | _ => hF
  end.

Definition tab {T} (f : hex -> T) (d : hex) : T :=
  match d with
  | h0 => f h0 | h1 => f h1 | h2 => f h2 | h3 => f h3 | h4 => f h4 | h5 => f h5 | h6 => f h6 | h7 => f h7
  | h8 => f h8 | h9 => f h9 | hA => f hA | hB => f hB | hC => f hC | hD => f hD | hE => f hE | hF => f hF
  end.
Definition tabb {T} (f : bool -> T) (c : bool) : T := if c then f true else f false.

Definition b2n (c : bool) : N := if c then 1 else 0.

Definition hxor : hex -> hex -> hex :=
  Eval vm_compute in tab (fun a => tab (fun b => hex_of (N.lxor (hv a) (hv b)))).
Definition hadc : hex -> hex -> bool -> hex * bool :=
  Eval vm_compute in tab (fun a => tab (fun b => tabb (fun c =>
    let s := hv a + hv b + b2n c in (hex_of (s mod 16), 16 <=? s)))).
Definition hshl1 : hex -> bool -> hex * bool :=
  Eval vm_compute in tab (fun a => tabb (fun c => (hex_of ((2 * hv a + b2n c) mod 16), 8 <=? hv a))).

Record hword := HW { d0 : hex; d1 : hex; d2 : hex; d3 : hex; d4 : hex; d5 : hex; d6 : hex; d7 : hex }.

Definition wv (w : hword) : N :=
  let '(HW a0 a1 a2 a3 a4 a5 a6 a7) := w in
  hv a0 + 16 * (hv a1 + 16 * (hv a2 + 16 * (hv a3 + 16 * (hv a4 + 16 * (hv a5 + 16 * (hv a6 + 16 * hv a7)))))).

Definition lo4 (x : N) : hex := hex_of (N.land x 15).
Definition hw_of (x : N) : hword :=
  let x1 := N.shiftr x 4 in let x2 := N.shiftr x1 4 in let x3 := N.shiftr x2 4 in
  let x4 := N.shiftr x3 4 in let x5 := N.shiftr x4 4 in let x6 := N.shiftr x5 4 in
  let x7 := N.shiftr x6 4 in
  HW (lo4 x) (lo4 x1) (lo4 x2) (lo4 x3) (lo4 x4) (lo4 x5) (lo4 x6) (lo4 x7).

Definition hxorw (a b : hword) : hword :=
  let '(HW a0 a1 a2 a3 a4 a5 a6 a7) := a in
  let '(HW b0 b1 b2 b3 b4 b5 b6 b7) := b in
  HW (hxor a0 b0) (hxor a1 b1) (hxor a2 b2) (hxor a3 b3) (hxor a4 b4) (hxor a5 b5) (hxor a6 b6) (hxor a7 b7).

Definition haddw (a b : hword) : hword :=
  let '(HW a0 a1 a2 a3 a4 a5 a6 a7) := a in
  let '(HW b0 b1 b2 b3 b4 b5 b6 b7) := b in
  let '(s0, c) := hadc a0 b0 false in
  let '(s1, c) := hadc a1 b1 c in
  let '(s2, c) := hadc a2 b2 c in
  let '(s3, c) := hadc a3 b3 c in
  let '(s4, c) := hadc a4 b4 c in
  let '(s5, c) := hadc a5 b5 c in
  let '(s6, c) := hadc a6 b6 c in
  let '(s7, _) := hadc a7 b7 c in
  HW s0 s1 s2 s3 s4 s5 s6 s7.

Definition hrotw (a : hword) (r : N) : hword :=
  let '(HW a0 a1 a2 a3 a4 a5 a6 a7) := a in
  match r with
  | 16 => HW a4 a5 a6 a7 a0 a1 a2 a3
  | 12 => HW a3 a4 a5 a6 a7 a0 a1 a2
  | 8 => HW a2 a3 a4 a5 a6 a7 a0 a1
  | 7 => (* by 8, then left by 1 *)
      let '(_, t) := hshl1 a1 false in
      let '(s0, c) := hshl1 a2 t in
      let '(s1, c) := hshl1 a3 c in
      let '(s2, c) := hshl1 a4 c in
      let '(s3, c) := hshl1 a5 c in
      let '(s4, c) := hshl1 a6 c in
      let '(s5, c) := hshl1 a7 c in
      let '(s6, c) := hshl1 a0 c in
      let '(s7, _) := hshl1 a1 c in
      HW s0 s1 s2 s3 s4 s5 s6 s7
  | _ => hw_of (rotr32 (wv a) r)
  end.

Definition hw0 := HW h0 h0 h0 h0 h0 h0 h0 h0.
Definition hround := roundS haddw hxorw hrotw hw0.

(* One round with the message words taken in order, and the permutation applied to the message
   between rounds (the shape of Spec.Compress.rounds): `roundS` looks every message word up in the
   schedule table, which is most of what a round costs to evaluate. *)
Section RoundP.
  Context {T : Type} (add xor : T -> T -> T) (rot : T -> N -> T).

  Definition roundP (s m : list T) : list T :=
    match s, m with
    | [s0; s1; s2; s3; s4; s5; s6; s7; s8; s9; s10; s11; s12; s13; s14; s15],
      [m0; m1; m2; m3; m4; m5; m6; m7; m8; m9; m10; m11; m12; m13; m14; m15] =>
        let '(s0, s4, s8, s12) := gS add xor rot s0 s4 s8 s12 m0 m1 in
        let '(s1, s5, s9, s13) := gS add xor rot s1 s5 s9 s13 m2 m3 in
        let '(s2, s6, s10, s14) := gS add xor rot s2 s6 s10 s14 m4 m5 in
        let '(s3, s7, s11, s15) := gS add xor rot s3 s7 s11 s15 m6 m7 in
        let '(s0, s5, s10, s15) := gS add xor rot s0 s5 s10 s15 m8 m9 in
        let '(s1, s6, s11, s12) := gS add xor rot s1 s6 s11 s12 m10 m11 in
        let '(s2, s7, s8, s13) := gS add xor rot s2 s7 s8 s13 m12 m13 in
        let '(s3, s4, s9, s14) := gS add xor rot s3 s4 s9 s14 m14 m15 in
        [s0; s1; s2; s3; s4; s5; s6; s7; s8; s9; s10; s11; s12; s13; s14; s15]
    | _, _ => s
    end.

  Definition permuteP (m : list T) : list T :=
    match m with
    | [m0; m1; m2; m3; m4; m5; m6; m7; m8; m9; m10; m11; m12; m13; m14; m15] =>
        [m2; m6; m3; m10; m7; m0; m4; m13; m1; m11; m12; m5; m9; m14; m15; m8]
    | _ => m
    end.

  Lemma roundS_roundP d s m r : length s = 16%nat -> length m = 16%nat -> (r < 7)%nat ->
    roundS add xor rot d s m r = roundP s (Nat.iter r permuteP m).
  Proof.
    intros Hs Hm Hr.
    destruct (length16_inv s Hs) as (s0&s1&s2&s3&s4&s5&s6&s7&s8&s9&s10&s11&s12&s13&s14&s15&->).
    destruct (length16_inv m Hm) as (m0&m1&m2&m3&m4&m5&m6&m7&m8&m9&m10&m11&m12&m13&m14&m15&->).
    do 7 (destruct r as [|r]; [reflexivity|]). lia.
  Qed.
End RoundP.

(* a block of bytes < 256 as little-endian words, without passing through N *)
Definition hword_of_bytes (b0 b1 b2 b3 : N) : hword :=
  let hi b := hex_of (N.shiftr b 4) in
  HW (lo4 b0) (hi b0) (lo4 b1) (hi b1) (lo4 b2) (hi b2) (lo4 b3) (hi b3).
Fixpoint hwords_of_bytes (l : list N) : list hword :=
  match l with
  | b0 :: b1 :: b2 :: b3 :: tl => hword_of_bytes b0 b1 b2 b3 :: hwords_of_bytes tl
  | _ => []
  end.

Definition hrounds7 (s m : list hword) : list hword :=
  let rnd s r := roundP haddw hxorw hrotw s (Nat.iter r permuteP m) in
  (rnd (rnd (rnd (rnd (rnd (rnd (rnd s 0) 1) 2) 3) 4) 5) 6)%nat.

Definition hxor_pairs (a b : list hword) : list hword := map (fun p => hxorw (fst p) (snd p)) (combine a b).

(* Spec.Compress.compress, computed on hex words where the arguments are in range *)
Definition fast_compress (cv block : list N) (bl ctr fl : N) : list N :=
  let s := cv ++ firstn 4 rs_IV ++ [ctr_lo ctr; ctr_hi ctr; bl; fl] in
  if Nat.eqb (length cv) 8 && Nat.eqb (length block) 64 && all_words s && all_bytes block then
    let hs := map hw_of s in
    let st := hrounds7 hs (hwords_of_bytes block) in
    map wv (hxor_pairs (firstn 8 st) (skipn 8 st) ++ hxor_pairs (skipn 8 st) (firstn 8 hs))
  else compress cv block bl ctr fl.

Lemma hv_lt d : hv d < 16.
Proof. destruct d; reflexivity. Qed.
Lemma hv_hex_of n : n < 16 -> hv (hex_of n) = n.
Proof.
  intros H. destruct n as [|p]; [reflexivity|].
  do 4 (destruct p as [p|p|]; try reflexivity); lia.
Qed.

Lemma hxor_spec a b : hv (hxor a b) = N.lxor (hv a) (hv b).
Proof. destruct a, b; reflexivity. Qed.
Lemma hadc_spec a b c : hv (fst (hadc a b c)) + 16 * b2n (snd (hadc a b c)) = hv a + hv b + b2n c.
Proof. destruct a, b, c; reflexivity. Qed.
Lemma hshl1_spec a c :
  hv (fst (hshl1 a c)) = 2 * (hv a mod 8) + b2n c /\ b2n (snd (hshl1 a c)) = hv a / 8.
Proof. destruct a, c; split; reflexivity. Qed.

Lemma wv_lt w : wv w < 4294967296.
Proof.
  destruct w as [a0 a1 a2 a3 a4 a5 a6 a7]. cbn [wv].
  pose proof (hv_lt a0); pose proof (hv_lt a1); pose proof (hv_lt a2); pose proof (hv_lt a3);
  pose proof (hv_lt a4); pose proof (hv_lt a5); pose proof (hv_lt a6); pose proof (hv_lt a7). lia.
Qed.

Lemma hv_lo4 x : hv (lo4 x) = x mod 16.
Proof.
  unfold lo4. change 15 with (N.ones 4). rewrite N.land_ones.
  apply hv_hex_of, N.mod_lt. discriminate.
Qed.

Lemma wv_hw_of x : wv (hw_of x) = w32 x.
Proof.
  rewrite w32_mod. change 4294967296 with (16 * (16 * (16 * (16 * (16 * (16 * (16 * 16))))))).
  rewrite !N.mod_mul_r by discriminate.
  unfold hw_of. cbv zeta. cbn [wv]. rewrite !hv_lo4, !N.shiftr_div_pow2. reflexivity.
Qed.

(* digits are bit fields: bitwise operations act digit by digit *)
Lemma digit_bits a x n : a < 16 ->
  N.testbit (a + 16 * x) n = if n <? 4 then N.testbit a n else N.testbit x (n - 4).
Proof.
  intros Ha. destruct (N.ltb_spec n 4) as [L|L].
  - rewrite <- (N.mod_pow2_bits_low (a + 16 * x) 4 n L). f_equal.
    change (2 ^ 4) with 16. lia.
  - replace n with (n - 4 + 4) at 1 by lia. rewrite <- N.div_pow2_bits. f_equal.
    change (2 ^ 4) with 16. lia.
Qed.

Lemma lxor_digit a b x y :
  N.lxor (hv a + 16 * x) (hv b + 16 * y) = hv (hxor a b) + 16 * N.lxor x y.
Proof.
  apply N.bits_inj. intros n.
  rewrite N.lxor_spec, !digit_bits by apply hv_lt. rewrite hxor_spec.
  destruct (n <? 4); rewrite N.lxor_spec; reflexivity.
Qed.

Lemma hxorw_spec a b : wv (hxorw a b) = xor32 (wv a) (wv b).
Proof.
  destruct a, b. unfold xor32. cbn [wv hxorw]. rewrite !lxor_digit, <- hxor_spec. reflexivity.
Qed.

Lemma haddw_spec a b : wv (haddw a b) = add32 (wv a) (wv b).
Proof.
  destruct a as [a0 a1 a2 a3 a4 a5 a6 a7], b as [b0 b1 b2 b3 b4 b5 b6 b7].
  unfold add32. rewrite w32_mod. unfold haddw.
  pose proof (hadc_spec a0 b0 false) as E0. destruct (hadc a0 b0 false) as [s0 c0].
  pose proof (hadc_spec a1 b1 c0) as E1. destruct (hadc a1 b1 c0) as [s1 c1].
  pose proof (hadc_spec a2 b2 c1) as E2. destruct (hadc a2 b2 c1) as [s2 c2].
  pose proof (hadc_spec a3 b3 c2) as E3. destruct (hadc a3 b3 c2) as [s3 c3].
  pose proof (hadc_spec a4 b4 c3) as E4. destruct (hadc a4 b4 c3) as [s4 c4].
  pose proof (hadc_spec a5 b5 c4) as E5. destruct (hadc a5 b5 c4) as [s5 c5].
  pose proof (hadc_spec a6 b6 c5) as E6. destruct (hadc a6 b6 c5) as [s6 c6].
  pose proof (hadc_spec a7 b7 c6) as E7. destruct (hadc a7 b7 c6) as [s7 c7].
  cbn [fst snd wv b2n] in *.
  pose proof (wv_lt (HW s0 s1 s2 s3 s4 s5 s6 s7)) as L. cbn [wv] in L.
  apply (N.mod_unique _ _ (b2n c7)); [exact L|lia].
Qed.

Lemma hrotw_spec a r : wv (hrotw a r) = rotr32 (wv a) r.
Proof.
  assert (F : wv (hw_of (rotr32 (wv a) r)) = rotr32 (wv a) r).
  { rewrite wv_hw_of. apply w32_id, rotr32_lt, wv_lt. }
  destruct a as [a0 a1 a2 a3 a4 a5 a6 a7].
  pose proof (hv_lt a0); pose proof (hv_lt a1); pose proof (hv_lt a2); pose proof (hv_lt a3);
  pose proof (hv_lt a4); pose proof (hv_lt a5); pose proof (hv_lt a6); pose proof (hv_lt a7).
  unfold hrotw.
  destruct (N.eq_dec r 16) as [->|N16]; [|destruct (N.eq_dec r 12) as [->|N12];
    [|destruct (N.eq_dec r 8) as [->|N8]; [|destruct (N.eq_dec r 7) as [->|N7]]]]; cbv beta iota.
  - cbn [wv].
    rewrite (rotr32_split 16 65536 65536 (hv a0 + 16 * (hv a1 + 16 * (hv a2 + 16 * hv a3)))
                                (hv a4 + 16 * (hv a5 + 16 * (hv a6 + 16 * hv a7)))) by (reflexivity || lia). lia.
  - cbn [wv].
    rewrite (rotr32_split 12 4096 1048576 (hv a0 + 16 * (hv a1 + 16 * hv a2))
               (hv a3 + 16 * (hv a4 + 16 * (hv a5 + 16 * (hv a6 + 16 * hv a7))))) by (reflexivity || lia). lia.
  - cbn [wv].
    rewrite (rotr32_split 8 256 16777216 (hv a0 + 16 * hv a1)
               (hv a2 + 16 * (hv a3 + 16 * (hv a4 + 16 * (hv a5 + 16 * (hv a6 + 16 * hv a7))))))
      by (reflexivity || lia). lia.
  - destruct (hshl1_spec a1 false) as [_ T]. destruct (hshl1 a1 false) as [x t].
    destruct (hshl1_spec a2 t) as [E0 C0]. destruct (hshl1 a2 t) as [s0 c0].
    destruct (hshl1_spec a3 c0) as [E1 C1]. destruct (hshl1 a3 c0) as [s1 c1].
    destruct (hshl1_spec a4 c1) as [E2 C2]. destruct (hshl1 a4 c1) as [s2 c2].
    destruct (hshl1_spec a5 c2) as [E3 C3]. destruct (hshl1 a5 c2) as [s3 c3].
    destruct (hshl1_spec a6 c3) as [E4 C4]. destruct (hshl1 a6 c3) as [s4 c4].
    destruct (hshl1_spec a7 c4) as [E5 C5]. destruct (hshl1 a7 c4) as [s5 c5].
    destruct (hshl1_spec a0 c5) as [E6 C6]. destruct (hshl1 a0 c5) as [s6 c6].
    destruct (hshl1_spec a1 c6) as [E7 _]. destruct (hshl1 a1 c6) as [s7 c7].
    cbn [fst snd] in *. cbn [wv]. rewrite E0, E1, E2, E3, E4, E5, E6, E7, C0, C1, C2, C3, C4, C5, C6, T.
    (* each digit is its top bit and its low three bits; in those the goal is linear *)
    repeat match goal with |- context [hv ?a / 8] =>
      let q := fresh "q" in let l := fresh "l" in
      pose proof (N.div_mod (hv a) 8 ltac:(discriminate)); pose proof (N.mod_lt (hv a) 8 ltac:(discriminate));
      set (q := hv a / 8) in *; set (l := hv a mod 8) in *; clearbody q l
    end.
    rewrite (rotr32_split 7 128 33554432 (hv a0 + 16 * l)
               (q + 2 * (hv a2 + 16 * (hv a3 + 16 * (hv a4 + 16 * (hv a5 + 16 * (hv a6 + 16 * hv a7)))))))
      by (reflexivity || lia). lia.
  - etransitivity; [|exact F]. destruct r as [|p]; [reflexivity|].
    do 5 (try (destruct p as [p|p|]; try reflexivity)); congruence.
Qed.

Lemma hround_spec s m r : length s = 16%nat -> length m = 16%nat -> (r < 7)%nat ->
  length (hround s m r) = 16%nat /\
  map wv (hround s m r) = Portable.round (map wv s) (map wv m) r.
Proof.
  intros Hs Hm Hr. split; [unfold hround; rewrite roundS_length; exact Hs|].
  rewrite <- roundS_scalar.
  refine (proj2 (roundS_hom haddw hxorw hrotw hw0 add32 xor32 rotr32 0 wv (fun _ => True) _ _ _ s m r Hm _ _)).
  - intros a b _ _. split; [exact I|apply haddw_spec].
  - intros a b _ _. split; [exact I|apply hxorw_spec].
  - intros a k _ _. split; [exact I|apply hrotw_spec].
  - apply Forall_forall. intros; exact I.
  - apply Forall_forall. intros; exact I.
Qed.

Lemma hroundP_spec s m r : length s = 16%nat -> length m = 16%nat -> (r < 7)%nat ->
  let s' := roundP haddw hxorw hrotw s (Nat.iter r permuteP m) in
  length s' = 16%nat /\ map wv s' = Portable.round (map wv s) (map wv m) r.
Proof.
  intros Hs Hm Hr. cbv zeta. rewrite <- (roundS_roundP _ _ _ hw0) by assumption.
  apply hround_spec; assumption.
Qed.

Lemma map_wv_hw_of l : all_words l = true -> map wv (map hw_of l) = l.
Proof.
  unfold all_words. induction l as [|x l IH]; [reflexivity|]. cbn [forallb map].
  rewrite andb_true_iff. intros [Hx Hl]. rewrite wv_hw_of, IH by exact Hl. f_equal.
  apply w32_id, N.ltb_lt, Hx.
Qed.

Lemma hword_of_bytes_spec b0 b1 b2 b3 : b0 < 256 -> b1 < 256 -> b2 < 256 -> b3 < 256 ->
  wv (hword_of_bytes b0 b1 b2 b3) = word_of_bytes4 b0 b1 b2 b3.
Proof.
  intros H0 H1 H2 H3. unfold word_of_bytes4. rewrite !N.shiftl_mul_pow2.
  replace (b2 * 2 ^ 16) with (2 ^ 16 * b2) by lia. replace (b3 * 2 ^ 24) with (2 ^ 24 * b3) by lia.
  replace (b1 * 2 ^ 8) with (2 ^ 8 * b1) by lia.
  rewrite (lor_disjoint_add (2 ^ 16 * b2) b3 24) by (change (2 ^ 24) with (2 ^ 16 * 256); lia).
  replace (2 ^ 16 * b2 + 2 ^ 24 * b3) with (2 ^ 16 * (b2 + 256 * b3)) by (change (2 ^ 24) with (2 ^ 16 * 256); lia).
  rewrite (lor_disjoint_add (2 ^ 8 * b1) _ 16) by (change (2 ^ 16) with (2 ^ 8 * 256); lia).
  replace (2 ^ 8 * b1 + 2 ^ 16 * (b2 + 256 * b3)) with (2 ^ 8 * (b1 + 256 * (b2 + 256 * b3)))
    by (change (2 ^ 16) with (2 ^ 8 * 256); lia).
  rewrite (lor_disjoint_add b0 _ 8) by exact H0. change (2 ^ 8) with 256.
  unfold hword_of_bytes. cbv zeta. cbn [wv]. rewrite !hv_lo4, !N.shiftr_div_pow2, !hv_hex_of by
    (apply N.div_lt_upper_bound; [discriminate|assumption]).
  change (2 ^ 4) with 16. lia.
Qed.

Lemma hwords_of_bytes_spec n : forall l, length l = (4 * n)%nat -> all_bytes l = true ->
  map wv (hwords_of_bytes l) = words_of_bytes l.
Proof.
  induction n as [|n IH]; intros l Hl Hb; [destruct l; [reflexivity|discriminate]|].
  destruct l as [|b0 [|b1 [|b2 [|b3 l]]]]; try (cbn in Hl; lia).
  unfold all_bytes in *. cbn [forallb] in Hb. rewrite !andb_true_iff in Hb. unfold is_byte in Hb.
  rewrite !N.ltb_lt in Hb. destruct Hb as (H0 & H1 & H2 & H3 & Hb).
  cbn [hwords_of_bytes words_of_bytes map]. rewrite hword_of_bytes_spec, IH; auto. cbn [length] in Hl. lia.
Qed.

Lemma hxor_pairs_spec a b : map wv (hxor_pairs a b) = xor_pairs (map wv a) (map wv b).
Proof.
  unfold hxor_pairs, xor_pairs. revert b. induction a as [|x a IH]; intros [|y b]; try reflexivity.
  cbn [combine map fst snd]. rewrite hxorw_spec, IH. reflexivity.
Qed.

Lemma hrounds7_spec cv block bl ctr fl :
  length cv = 8%nat -> length block = 64%nat ->
  let s := cv ++ firstn 4 rs_IV ++ [ctr_lo ctr; ctr_hi ctr; bl; fl] in
  all_words s = true -> all_bytes block = true ->
  map wv (hrounds7 (map hw_of s) (hwords_of_bytes block)) = compress_pre cv block bl ctr fl.
Proof.
  intros Hcv Hb s Ws Wb. unfold hrounds7, compress_pre. cbv zeta. fold s.
  pose proof (hwords_of_bytes_spec 16 block Hb Wb) as Em.
  assert (Lm : length (hwords_of_bytes block) = 16%nat).
  { rewrite <- (map_length wv), Em. apply words_of_bytes_length. rewrite Hb. reflexivity. }
  assert (Ls : length (map hw_of s) = 16%nat).
  { unfold s. rewrite map_length, !app_length, Hcv. reflexivity. }
  destruct (hroundP_spec _ _ 0 Ls Lm ltac:(lia)) as [L0 E0].
  destruct (hroundP_spec _ _ 1 L0 Lm ltac:(lia)) as [L1 E1].
  destruct (hroundP_spec _ _ 2 L1 Lm ltac:(lia)) as [L2 E2].
  destruct (hroundP_spec _ _ 3 L2 Lm ltac:(lia)) as [L3 E3].
  destruct (hroundP_spec _ _ 4 L3 Lm ltac:(lia)) as [L4 E4].
  destruct (hroundP_spec _ _ 5 L4 Lm ltac:(lia)) as [L5 E5].
  destruct (hroundP_spec _ _ 6 L5 Lm ltac:(lia)) as [_ E6].
  rewrite E6, E5, E4, E3, E2, E1, E0, Em, (map_wv_hw_of s Ws). reflexivity.
Qed.

Theorem fast_compress_spec cv block bl ctr fl :
  fast_compress cv block bl ctr fl = compress cv block bl ctr fl.
Proof.
  unfold fast_compress. cbv zeta.
  destruct (Nat.eqb_spec (length cv) 8) as [Hcv|]; [|reflexivity].
  destruct (Nat.eqb_spec (length block) 64) as [Hb|]; [|reflexivity].
  destruct (all_words (cv ++ _)) eqn:Ws; [|reflexivity].
  destruct (all_bytes block) eqn:Wb; [|reflexivity].
  cbn [andb]. rewrite <- (compress_pre_is_spec cv block bl ctr fl Hcv Hb). cbv zeta.
  rewrite <- (hrounds7_spec cv block bl ctr fl Hcv Hb Ws Wb).
  rewrite map_app, !hxor_pairs_spec, <- !firstn_map, <- !skipn_map, (map_wv_hw_of _ Ws).
  replace (firstn 8 (cv ++ _)) with cv; [reflexivity|].
  rewrite firstn_app, firstn_all2, Hcv, app_nil_r by lia. reflexivity.
Qed.
