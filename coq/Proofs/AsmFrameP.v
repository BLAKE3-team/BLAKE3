(* Frames of the hand-written assembly (Model/AsmFrame.v): every rsp-based access stays inside the function's frame and
   the pops / xmm reloads of the epilogue give the callee-saved registers their values back, for the Unix files and,
   with the xmm save slots, for the Windows-GNU files; the deciders frame_ok and win_ok are sound for these. *)
From Coq Require Import NArith ZArith List Bool Arith Lia ZifyBool ZifyN.
From V Require Import Proofs.ListP Model.AsmFrame.
Import ListNotations.
Open Scope N_scope.

(* n + 63: `and rsp, -64` lowers the stack pointer by at most 63 bytes beyond the n of `sub rsp, n` *)
Theorem frame_access_inside : forall realigned sp0 n off w,
  n + 63 <= sp0 -> off + w <= n ->
  let sp := frame_sp realigned sp0 n in
  sp <= sp + off /\ sp + off + w <= sp0 /\ sp0 - n - 63 <= sp.
Proof.
  intros realigned sp0 n off w Hs Ha. unfold frame_sp. destruct realigned; cbn zeta; lia.
Qed.

Lemma mem_In x l : mem x l = true <-> In x l.
Proof.
  unfold mem. rewrite existsb_exists. split.
  - intros (y & Hy & E). apply N.eqb_eq in E. subst. exact Hy.
  - intros H. exists x. split; [exact H|apply N.eqb_refl].
Qed.

Lemma list_eqb_eq : forall a b, list_eqb a b = true -> a = b.
Proof.
  induction a as [|x a IH]; intros [|y b] H; cbn in H; try discriminate; [reflexivity|].
  apply andb_true_iff in H. destruct H as [E H]. apply N.eqb_eq in E. subst. f_equal. apply IH. exact H.
Qed.

Fixpoint restored (rg0 rg1 : regs) (ps : list N) : regs :=
  match ps with [] => rg1 | p :: tl => set_reg (restored rg0 rg1 tl) p (rg0 p) end.

Lemma pops_pushes : forall ps (rg0 rg1 : regs) rest stack,
  do_pops rg1 (rev ps ++ rest) (do_pushes rg0 ps stack) = do_pops (restored rg0 rg1 ps) rest stack.
Proof.
  induction ps as [|p ps IH]; intros; [reflexivity|]. cbn [rev do_pushes]. rewrite <- app_assoc. apply IH.
Qed.

Lemma restored_spec (rg0 rg1 : regs) ps r : restored rg0 rg1 ps r = if mem r ps then rg0 r else rg1 r.
Proof.
  induction ps as [|p ps IH]; [reflexivity|]. unfold mem in *. cbn [restored existsb]. unfold set_reg.
  destruct (r =? p) eqn:E; [apply N.eqb_eq in E; subst; reflexivity|exact IH].
Qed.

Theorem callee_saved_preserved : forall pushes pops written (rg0 rg1 : regs) stack,
  list_eqb pops (rev pushes) = true -> nodup pushes = true ->
  forallb (fun w => mem w pushes) written = true ->
  (forall r, mem r written = false -> rg1 r = rg0 r) ->         (* the body writes only `written` *)
  forall r, do_pops rg1 pops (do_pushes rg0 pushes stack) r = rg0 r.
Proof.
  intros pushes pops written rg0 rg1 stack Hp Hn Hw Hbody r.
  apply list_eqb_eq in Hp. subst pops. rewrite <- (app_nil_r (rev pushes)), pops_pushes. cbn [do_pops].
  rewrite restored_spec.
  destruct (mem r pushes) eqn:E; [reflexivity|].
  apply Hbody. destruct (mem r written) eqn:Ew; [|reflexivity].
  rewrite forallb_forall in Hw. apply mem_In in Ew. specialize (Hw r Ew). rewrite E in Hw. discriminate.
Qed.

Lemma pairs_eqb_eq : forall a b, pairs_eqb a b = true -> a = b.
Proof.
  induction a as [|[x1 y1] a IH]; intros [|[x2 y2] b] H; cbn in H; try discriminate; [reflexivity|].
  apply andb_true_iff in H. destruct H as [H H3]. apply andb_true_iff in H. destruct H as [H1 H2].
  apply N.eqb_eq in H1, H2. subst. f_equal. apply IH. exact H3.
Qed.

Lemma restores_other : forall svs (xr : xregs) m r, ~ In r (map fst svs) -> do_restores xr svs m r = xr r.
Proof.
  induction svs as [|[r0 off] tl IH]; intros xr m r Hn; [reflexivity|]. cbn [do_restores map fst] in *.
  rewrite IH by (intros H; apply Hn; right; exact H).
  destruct (r =? r0) eqn:E; [|reflexivity]. apply N.eqb_eq in E. subst. exfalso. apply Hn. left. reflexivity.
Qed.

Lemma slots_disjoint_NoDup : forall offs, slots_disjoint offs = true -> NoDup offs.
Proof.
  induction offs as [|o tl IH]; intros H; [constructor|]. cbn in H. apply andb_true_iff in H. destruct H as [H1 H2].
  constructor; [|apply IH; exact H2]. intros Hin. rewrite forallb_forall in H1. specialize (H1 o Hin).
  unfold disjoint16 in H1. lia.
Qed.

Lemma restores_app a : forall b (xr : xregs) m, do_restores xr (a ++ b) m = do_restores (do_restores xr a m) b m.
Proof. induction a as [|[r o] a IH]; intros; [reflexivity|]. cbn [app do_restores]. apply IH. Qed.

Lemma saves_app a : forall b (xr : xregs) m, do_saves xr (a ++ b) m = do_saves xr b (do_saves xr a m).
Proof. induction a as [|[r o] a IH]; intros; [reflexivity|]. cbn [app do_saves]. apply IH. Qed.

(* A register may be saved twice: the last pair for it wins in both directions, since the slots are distinct.
   Hence the induction from the right end of the list. *)
Lemma restores_saves (x0 x1 : xregs) (m0 m1 : slots) r : forall svs, NoDup (map snd svs) ->
  (forall off, In off (map snd svs) -> m1 off = do_saves x0 svs m0 off) ->
  In r (map fst svs) -> do_restores x1 svs m1 r = x0 r.
Proof.
  induction svs as [|[r0 o0] svs IH] using rev_ind; intros Hd Hm Hin; [destruct Hin|].
  rewrite map_app in *. cbn [map fst snd] in *. rewrite restores_app. cbn [do_restores].
  destruct (N.eqb_spec r r0) as [->|NE].
  - rewrite Hm by (apply in_or_app; right; left; reflexivity). rewrite saves_app. cbn [do_saves]. rewrite N.eqb_refl. reflexivity.
  - apply NoDup_remove in Hd as [Hd Hn]. rewrite app_nil_r in *.
    apply IH; [exact Hd| |apply in_app_or in Hin as [H|[H|[]]]; [exact H|congruence]].
    intros off Ho. rewrite Hm by (apply in_or_app; left; exact Ho). rewrite saves_app. cbn [do_saves].
    destruct (N.eqb_spec off o0) as [->|]; [contradiction|reflexivity].
Qed.

Theorem xmm_preserved : forall saves restores written (x0 x1 : xregs) (m0 m1 : slots),
  pairs_eqb saves restores = true -> nodup (map fst saves) = true -> slots_disjoint (map snd saves) = true ->
  forallb (fun x => mem x (map fst saves)) written = true ->
  (forall off, In off (map snd saves) -> m1 off = do_saves x0 saves m0 off) ->   (* the body does not store into a save slot *)
  (forall r, mem r written = false -> x1 r = x0 r) ->                            (* the body writes only `written` *)
  forall r, do_restores x1 restores m1 r = x0 r.
Proof.
  intros saves restores written x0 x1 m0 m1 He _ Hd Hw Hm Hx r.
  apply pairs_eqb_eq in He. subst restores. apply slots_disjoint_NoDup in Hd.
  destruct (in_dec N.eq_dec r (map fst saves)) as [Hin|Hnin]; [exact (restores_saves x0 x1 m0 m1 r saves Hd Hm Hin)|].
  rewrite restores_other by exact Hnin. apply Hx.
  destruct (mem r written) eqn:E; [|reflexivity].
  rewrite forallb_forall in Hw. apply mem_In in E. specialize (Hw r E). apply mem_In in Hw. contradiction.
Qed.

Theorem frame_ok_sound r : frame_ok r = true ->
  (forall a, In a (f_accesses r) -> forall sp0, f_frame r + 63 <= sp0 ->
     let sp := frame_sp (f_realigned r) sp0 (f_frame r) in sp <= sp + fst a /\ sp + fst a + snd a <= sp0) /\
  (forall (rg0 rg1 : regs) stack, (forall x, mem x (f_written r) = false -> rg1 x = rg0 x) ->
     forall x, do_pops rg1 (f_pops r) (do_pushes rg0 (f_pushes r) stack) x = rg0 x).
Proof.
  unfold frame_ok. rewrite !andb_true_iff, forallb_forall. intros [[[A P] D] W]. split.
  - intros a Ha sp0 Hs. specialize (A a Ha). apply N.leb_le in A.
    destruct (frame_access_inside (f_realigned r) sp0 (f_frame r) (fst a) (snd a) Hs A) as (G1 & G2 & _). split; assumption.
  - intros rg0 rg1 stack. exact (callee_saved_preserved _ _ _ rg0 rg1 stack P D W).
Qed.

(* win_ok also decides that no rsp-based store of the body overlaps a save slot (the second half of ST below).  The
   statement does not use it: that the slots hold at the epilogue what the prologue saved stays a hypothesis. *)
Theorem win_ok_sound r : win_ok r = true ->
  (forall (x0 x1 : xregs) (m0 m1 : slots),
     (forall off, In off (map snd (w_saves r)) -> m1 off = do_saves x0 (w_saves r) m0 off) ->
     (forall x, mem x (w_xwritten r) = false -> x1 x = x0 x) ->
     forall x, do_restores x1 (w_restores r) m1 x = x0 x) /\
  (forall (rg0 rg1 : regs) stack, (forall x, mem x (w_gwritten r) = false -> rg1 x = rg0 x) ->
     forall x, do_pops rg1 (w_pops r) (do_pushes rg0 (w_pushes r) stack) x = rg0 x) /\
  (forall s, In s (w_saves r) -> snd s + 16 <= w_frame r) /\
  (forall st, In st (w_stores r) -> fst st + snd st <= w_frame r).
Proof.
  unfold win_ok. rewrite !andb_true_iff, !forallb_forall.
  intros [[[[[[[[P D] GW] E] NR] SD] SF] ST] XW]. repeat split.
  - intros x0 x1 m0 m1. apply xmm_preserved; [exact E|exact NR|exact SD|]. apply forallb_forall, XW.
  - intros rg0 rg1 stack. apply callee_saved_preserved; [exact P|exact D|]. apply forallb_forall, GW.
  - intros s Hs. apply N.leb_le, SF, Hs.
  - intros st Hs. specialize (ST st Hs). apply andb_true_iff in ST. apply N.leb_le, ST.
Qed.
