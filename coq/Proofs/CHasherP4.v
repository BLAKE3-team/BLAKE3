(* C06: the full hasher invariant of the C library.  CInv h m: the hasher h has absorbed exactly the
   bytes m (in-place CV stack = the specification subtrees of the completed chunks, chunk state = the rest).
   It is the invariant Inv of the Rust Hasher (Proofs/HasherP.v) at offset 0, held by a Rust hasher that h simulates
   (CInv_Inv0, Inv0_CInv; CRel of Proofs/CSimP.v): so hasher_init_base establishes it for the empty message,
   hasher_update preserves it from ANY such state and finalize_seek of such a state is the specification stream of m
   because the Rust functions do and the C ones follow them. *)
From V Require Import Proofs.ListP.
From V Require Import Base.Res Base.Word Base.MachInt gen.GenConsts gen.GenFormulas
  Spec.Compress Spec.Tree Spec.Blake3 Model.Portable Model.Platform Model.RsChunk Model.RsWide Model.RsXof Model.CHasher
  Proofs.WordP Proofs.PortableP Proofs.ChunkP Proofs.TreeP Proofs.FormulasP Proofs.WideP Proofs.C01P Proofs.XofP
  Proofs.StackArithP Proofs.HasherP Proofs.C02P Proofs.CFormulasP Proofs.CHasherP Proofs.CHasherP2 Proofs.CSimP Proofs.CHasherP3.
From V Require Import Proofs.ResP Model.RsHasher.
Open Scope N_scope.

Lemma Segs_wf : forall l ctr bs, len bs < 2 ^ 64 -> Segs ctr l bs -> Forall wf_tree (map snd l).
Proof.
  induction l as [|[e t] l IH]; intros ctr bs H64 H; [constructor|].
  cbn [Segs] in H. destruct H as (H1 & H2 & H3). cbn [map snd]. constructor.
  - rewrite H2, sp_st. apply st_wf. rewrite len_take. rewrite two64 in H64.
    change (1024 * 2 ^ 64) with 18889465931478580854784. lia.
  - apply (IH (ctr + 2 ^ e) (drop (1024 * 2 ^ e) bs)); [rewrite len_drop; lia|exact H3].
Qed.

Section Full.
  Variable p : platform.
  Hypothesis POK : PlatformOK p.
  Variables (K : list N) (F : N).
  Hypothesis HK : length K = 8%nat.

  Notation tcv := (tree_cv spec_c8 K F).
  Notation tout := (tree_out spec_c8 K F).
  Notation TightC := (Tight spec_c8 K F).

  (* Clauses 6 and 7 are the two cases of blake3_hasher_finalize_seek (c/blake3.c) on a non-empty stack.  With bytes
     in the chunk state it folds the whole stack, which the extra merge loop at the end of blake3_hasher_update has
     merged down (SDom).  With none it takes the top two CVs as the last parent ("There are always at least 2 CVs in
     the stack in this case"): merging is lazy, so the subtree pushed last is still unmerged. *)
  Definition CInv (h : c_hasher) (m : list N) : Prop :=
    exists l,
      StackRel K F h l /\ Dom (exps l) /\ 1024 * sum2 (exps l) <= len m /\
      Segs 0 l (take (1024 * sum2 (exps l)) m) /\
      TightC (sum2 (exps l)) (ch_chunk h) (drop (1024 * sum2 (exps l)) m) /\
      (0 < len m - 1024 * sum2 (exps l) -> SDom (exps l)) /\
      (len m = 1024 * sum2 (exps l) -> sum2 (exps l) = 0 \/ (2 <= length l)%nat) /\
      len m < 2 ^ 64.

  Notation Inv0 := (InvS K F 0).

  Lemma CInv_Inv0 h m : CInv h m -> exists rh, CRel h rh /\ Inv0 rh m.
  Proof.
    intros (l & HS & HD & Hle & HSeg & HT & Hpart & Hempty & H64).
    exists (mkHasher K (ch_chunk h) 0 (cvs_of spec_c8 K F l)). split; [exact (StackRel_CRel K F h l HS)|].
    destruct HS as (_ & _ & _ & _ & _ & S6). exists (exps l). unfold StackRep, stack_of, HasherP.cvs_of.
    cbn [h_key h_cs h_init h_stack]. rewrite (Segs_trees _ _ _ HSeg), <- (trees_of_ext 0 _ (drop (1024 * sum2 (exps l)) m)), take_drop by (rewrite len_take; lia).
    rewrite exps_length, lim0, two64 in *. repeat split; try assumption; lia.
  Qed.

  Lemma Inv0_CInv h rh m : CRel h rh -> Inv0 rh m -> CInv h m.
  Proof.
    intros HR (es & (Hk & Hf & Hi & Hst & HD & Hl) & HT & Hpart & Hempty & _ & H64). pose proof HR as (_ & R2 & _).
    set (X := 1024 * sum2 es) in *. set (l := segs_of 0 (take X m) es).
    assert (He : exps l = es) by apply segs_of_fst.
    assert (Hlen : length l = length es) by (rewrite <- He, exps_length; reflexivity).
    exists l. rewrite He, Hlen, <- R2.
    assert (Ht : trees_of 0 (take X m) es = trees_of 0 m es).
    { rewrite <- (take_drop X m) at 2. symmetry. apply trees_of_ext. rewrite len_take. lia. }
    split; [|repeat split; try assumption; apply segs_of_Segs; rewrite len_take; lia].
    apply (CRel_StackRel K F h rh l HR Hk Hf); unfold HasherP.cvs_of, l; rewrite segs_of_snd, Ht; [exact Hst|].
    apply trees_of_wf, exps_le. rewrite two64 in H64. change (2 ^ 64) with 18446744073709551616. lia.
  Qed.

  Theorem c_final_output_spec h m : CInv h m -> c_final_output p h = Ok (tout (st 0 m)).
  Proof.
    intros HI. destruct (CInv_Inv0 h m HI) as (rh & HR & HI0). apply (c_final_output_sim p h rh _ HR).
    rewrite (InvS_output p POK K F HK 0 (pow2_pos 54) rh m HI0), subtree_output_tree, (st_unfold 0 m). reflexivity.
  Qed.

  Lemma CInv_fields h m : CInv h m -> ch_key h = K /\ ch_flags h = F /\ length (ch_stack h) = 55%nat.
  Proof. intros (l & (_ & _ & S3 & _ & S5 & S6) & _). auto. Qed.

  Theorem c_finalize_seek_spec h m seek out_len : CInv h m -> seek + out_len <= 2 ^ 64 - 1 ->
    c_hasher_finalize_seek p h seek out_len =
    Ok (stream spec_c64 (subtree_output spec_c8 tree_height K F 0 m) seek (N.to_nat out_len)).
  Proof.
    intros HI Hmax. destruct (CInv_Inv0 h m HI) as (rh & HR & HI0). exact (c_finalize_seek_sim_Inv0 p POK K F HK h rh m seek out_len HR HI0 Hmax).
  Qed.

  Lemma CInv_init mem : length mem = 55%nat -> CInv (c_hasher_init_base mem K F) [].
  Proof. intros Hm. exact (Inv0_CInv _ _ [] (CRel_init K F mem Hm) (new_internal_Inv K F)). Qed.

  Theorem c_hasher_update_spec h m input :
    CInv h m -> len (m ++ input) < 2 ^ 64 ->
    exists h', c_hasher_update p h input = Ok h' /\ CInv h' (m ++ input).
  Proof.
    intros HI Htot. destruct (CInv_Inv0 h m HI) as (rh & HR & HI0).
    destruct (c_update_sim_Inv0 p POK K F HK h rh m input HR HI0 Htot) as (h' & rh' & Hu & HR' & HI').
    exists h'. split; [exact Hu|exact (Inv0_CInv h' rh' _ HR' HI')].
  Qed.

  Definition c_updates (h : c_hasher) (pieces : list (list N)) : res c_hasher :=
    fold_left (fun r x => h <- r ;; c_hasher_update p h x) pieces (Ok h).

  Lemma c_updates_spec : forall pieces h m,
    CInv h m -> len (m ++ concat pieces) < 2 ^ 64 ->
    exists h', c_updates h pieces = Ok h' /\ CInv h' (m ++ concat pieces).
  Proof.
    unfold c_updates. induction pieces as [|x tl IH]; intros h m HI Hl.
    - exists h. cbn [concat fold_left]. rewrite app_nil_r. auto.
    - cbn [concat fold_left] in *. rewrite app_assoc in Hl. rewrite bind_Ok_l.
      destruct (c_hasher_update_spec h m x HI) as (h1 & Hu & HI1).
      { rewrite !len_app in *. lia. }
      rewrite Hu. destruct (IH h1 (m ++ x) HI1 Hl) as (h' & Hr & HI').
      exists h'. rewrite <- app_assoc in HI'. auto.
  Qed.

  Theorem c_update_refines mem pieces seek out_len :
    length mem = 55%nat -> len (concat pieces) < 2 ^ 64 -> seek + out_len <= 2 ^ 64 - 1 ->
    exists h, c_updates (c_hasher_init_base mem K F) pieces = Ok h /\
      c_hasher_finalize_seek p h seek out_len =
      Ok (stream spec_c64 (subtree_output spec_c8 tree_height K F 0 (concat pieces)) seek (N.to_nat out_len)).
  Proof.
    intros Hmem Hl Hmax.
    destruct (c_updates_spec pieces (c_hasher_init_base mem K F) [] (CInv_init mem Hmem) Hl) as (h & Hu & HI).
    exists h. split; [exact Hu|]. cbn [app] in HI. apply c_finalize_seek_spec; assumption.
  Qed.

  Lemma CInv_reset h m : CInv h m -> CInv (c_hasher_reset h) [].
  Proof.
    intros HI. destruct (CInv_fields h m HI) as (Hk & Hf & Hl).
    replace (c_hasher_reset h) with (c_hasher_init_base (ch_stack h) K F); [apply CInv_init; exact Hl|].
    unfold c_hasher_reset, c_hasher_init_base, c_cs_reset, c_cs_init, ch_flags in *. rewrite Hk, Hf. reflexivity.
  Qed.

  Theorem c_reset_refines mem pieces1 pieces2 seek out_len :
    length mem = 55%nat -> len (concat pieces1) < 2 ^ 64 -> len (concat pieces2) < 2 ^ 64 ->
    seek + out_len <= 2 ^ 64 - 1 ->
    exists h1 h, c_updates (c_hasher_init_base mem K F) pieces1 = Ok h1 /\
      c_updates (c_hasher_reset h1) pieces2 = Ok h /\
      c_hasher_finalize_seek p h seek out_len =
      Ok (stream spec_c64 (subtree_output spec_c8 tree_height K F 0 (concat pieces2)) seek (N.to_nat out_len)).
  Proof.
    intros Hmem Hl1 Hl2 Hmax.
    destruct (c_updates_spec pieces1 (c_hasher_init_base mem K F) [] (CInv_init mem Hmem) Hl1) as (h1 & Hu1 & HI1).
    destruct (c_updates_spec pieces2 (c_hasher_reset h1) [] (CInv_reset h1 _ HI1) Hl2) as (h & Hu & HI).
    exists h1, h. split; [exact Hu1|]. split; [exact Hu|]. cbn [app] in HI. apply c_finalize_seek_spec; assumption.
  Qed.

  Theorem c_finalize_then_continue mem pieces1 pieces2 seek1 n1 seek2 n2 :
    length mem = 55%nat -> len (concat (pieces1 ++ pieces2)) < 2 ^ 64 ->
    seek1 + n1 <= 2 ^ 64 - 1 -> seek2 + n2 <= 2 ^ 64 - 1 ->
    exists h1 h2, c_updates (c_hasher_init_base mem K F) pieces1 = Ok h1 /\
      c_hasher_finalize_seek p h1 seek1 n1 =
      Ok (stream spec_c64 (subtree_output spec_c8 tree_height K F 0 (concat pieces1)) seek1 (N.to_nat n1)) /\
      c_updates h1 pieces2 = Ok h2 /\
      c_hasher_finalize_seek p h2 seek2 n2 =
      Ok (stream spec_c64 (subtree_output spec_c8 tree_height K F 0 (concat (pieces1 ++ pieces2))) seek2 (N.to_nat n2)).
  Proof.
    intros Hmem Hl Hm1 Hm2. rewrite concat_app in *. rewrite len_app in Hl.
    destruct (c_updates_spec pieces1 (c_hasher_init_base mem K F) [] (CInv_init mem Hmem)) as (h1 & Hu1 & HI1).
    { cbn [app]. lia. }
    cbn [app] in HI1.
    destruct (c_updates_spec pieces2 h1 _ HI1) as (h2 & Hu2 & HI2).
    { rewrite len_app. exact Hl. }
    exists h1, h2. split; [exact Hu1|]. split; [apply c_finalize_seek_spec; assumption|].
    split; [exact Hu2|]. apply c_finalize_seek_spec; assumption.
  Qed.
End Full.

Section Modes.
  Variable p : platform.
  Hypothesis POK : PlatformOK p.

  Lemma c_init_keyed_spec mem key : length key = 32%nat ->
    c_hasher_init_keyed mem key = Ok (c_hasher_init_base mem (words_of_bytes key) c_flag_KEYED_HASH) /\
    length (words_of_bytes key) = 8%nat.
  Proof.
    intros Hk. unfold c_hasher_init_keyed, nlen. rewrite Hk. change (c_KEY_LEN <=? N.of_nat 32) with true.
    cbn [check bind]. change (N.to_nat c_KEY_LEN) with 32%nat. rewrite firstn_all2 by lia.
    split; [reflexivity|]. apply words_of_bytes_length. rewrite Hk. reflexivity.
  Qed.

  Lemma c_init_derive_key_raw_spec mem ctx : len ctx < 2 ^ 64 ->
    c_hasher_init_derive_key_raw p mem ctx =
    Ok (c_hasher_init_base mem
          (words_of_bytes (stream spec_c64 (subtree_output spec_c8 tree_height c_IV c_flag_DERIVE_KEY_CONTEXT 0 ctx) 0 32))
          c_flag_DERIVE_KEY_MATERIAL).
  Proof.
    intros Hl. unfold c_hasher_init_derive_key_raw.
    destruct (c_hasher_update_spec p POK c_IV c_flag_DERIVE_KEY_CONTEXT eq_refl
                (c_hasher_init_base c_local_stack c_IV c_flag_DERIVE_KEY_CONTEXT) [] ctx
                (CInv_init c_IV c_flag_DERIVE_KEY_CONTEXT eq_refl c_local_stack eq_refl) Hl) as (h & Hu & HI).
    rewrite Hu, bind_Ok_l. unfold c_hasher_finalize. cbn [app] in HI.
    rewrite (c_finalize_seek_spec p POK c_IV c_flag_DERIVE_KEY_CONTEXT eq_refl h ctx 0 c_KEY_LEN HI)
      by (rewrite two64; change c_KEY_LEN with 32; lia).
    rewrite bind_Ok_l. reflexivity.
  Qed.

  Lemma derive_key_len ctx :
    length (words_of_bytes (stream spec_c64 (subtree_output spec_c8 tree_height c_IV c_flag_DERIVE_KEY_CONTEXT 0 ctx) 0 32)) = 8%nat.
  Proof. apply words_of_bytes_length. rewrite stream_length. reflexivity. Qed.

  Theorem c_update_refines_hash mem pieces seek out_len :
    length mem = 55%nat -> len (concat pieces) < 2 ^ 64 -> seek + out_len <= 2 ^ 64 - 1 ->
    exists h, c_updates p (c_hasher_init mem) pieces = Ok h /\
      c_hasher_finalize_seek p h seek out_len = Ok (b3_xof_mode Hash (concat pieces) seek (N.to_nat out_len)).
  Proof. exact (c_update_refines p POK IV 0 eq_refl mem pieces seek out_len). Qed.

  Theorem c_update_refines_keyed mem key pieces seek out_len :
    length key = 32%nat -> length mem = 55%nat -> len (concat pieces) < 2 ^ 64 -> seek + out_len <= 2 ^ 64 - 1 ->
    exists h0 h, c_hasher_init_keyed mem key = Ok h0 /\ c_updates p h0 pieces = Ok h /\
      c_hasher_finalize_seek p h seek out_len = Ok (b3_xof_mode (KeyedHash key) (concat pieces) seek (N.to_nat out_len)).
  Proof.
    intros Hk Hmem Hl Hmax. destruct (c_init_keyed_spec mem key Hk) as [Hi H8].
    destruct (c_update_refines p POK (words_of_bytes key) c_flag_KEYED_HASH H8 mem pieces seek out_len Hmem Hl Hmax)
      as (h & Hu & Hf).
    exists (c_hasher_init_base mem (words_of_bytes key) c_flag_KEYED_HASH), h.
    split; [exact Hi|]. split; [exact Hu|]. exact Hf.
  Qed.

  Theorem c_update_refines_derive_key mem ctx pieces seek out_len :
    len ctx < 2 ^ 64 -> length mem = 55%nat -> len (concat pieces) < 2 ^ 64 -> seek + out_len <= 2 ^ 64 - 1 ->
    exists h0 h, c_hasher_init_derive_key_raw p mem ctx = Ok h0 /\ c_updates p h0 pieces = Ok h /\
      c_hasher_finalize_seek p h seek out_len =
      Ok (b3_xof_mode (DeriveKeyMaterial (b3_hash_mode DeriveKeyContext ctx)) (concat pieces) seek (N.to_nat out_len)).
  Proof.
    intros Hc Hmem Hl Hmax.
    destruct (c_update_refines p POK _ c_flag_DERIVE_KEY_MATERIAL (derive_key_len ctx) mem pieces seek out_len Hmem Hl Hmax)
      as (h & Hu & Hf).
    eexists. exists h. split; [apply (c_init_derive_key_raw_spec mem ctx Hc)|]. split; [exact Hu|]. exact Hf.
  Qed.
End Modes.
