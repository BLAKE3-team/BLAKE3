(* The chunk lemma: feeding a chunk's bytes to the ChunkState model in any
   number of update calls yields the specification's chunk Output; no assertion,
   index or u8 overflow check in ChunkState::{update, fill_buf} can fail. *)
From V Require Import Proofs.ListP Proofs.ResP.
From V Require Import Base.Res Base.Word Base.MachInt gen.GenConsts gen.GenFormulas
  Spec.Compress Spec.Tree Model.Portable Model.Platform Model.RsChunk.
Open Scope N_scope.

Lemma pad64_split d : len d <= 64 ->
  pad64 d = d ++ repeat 0 (N.to_nat (64 - len d)).
Proof. intros H. unfold pad64. f_equal. f_equal. unfold len in *. lia. Qed.

(* the specification's chunk as a left fold over whole blocks, and the chunk states that stand for a point of
   that fold: no platform is involved yet *)
Section ChunkSpec.
  Variable c8 : list N -> list N -> N -> N -> N -> list N.
  Variables (K : list N) (F T : N).

  Fixpoint cvfold (n : nat) (cv : list N) (first : bool) (bs : list N) : list N * bool :=
    match n with
    | O => (cv, first)
    | S n' => cvfold n' (c8 cv (take 64 bs) 64 T (N.lor F (start_flag first))) false (drop 64 bs)
    end.

  Definition final (st : list N * bool) (rest : list N) : output :=
    mkOutput (fst st) (pad64 rest) (len rest) T (N.lor (N.lor F (start_flag (snd st))) CHUNK_END).

  Lemma chunk_go_cvfold : forall (nb fuel : nat) cv first bs,
    (nb < fuel)%nat ->
    64 * N.of_nat nb <= len bs <= 64 * N.of_nat nb + 64 ->
    (nb <> 0%nat -> 64 * N.of_nat nb < len bs) ->
    chunk_go c8 fuel F T cv first bs = final (cvfold nb cv first bs) (drop (64 * N.of_nat nb) bs).
  Proof.
    induction nb as [|nb IH]; intros fuel cv first bs Hf Hl Hnz.
    - destruct fuel as [|fuel]; [lia|]. cbn [chunk_go cvfold].
      replace (len bs <=? 64) with true by lia. reflexivity.
    - destruct fuel as [|fuel]; [lia|]. cbn [chunk_go cvfold].
      specialize (Hnz ltac:(lia)).
      replace (len bs <=? 64) with false by lia.
      rewrite (IH fuel) by (rewrite ?len_drop; lia).
      rewrite drop_drop. f_equal. f_equal. lia.
  Qed.

  Lemma cvfold_snd n : forall cv first bs, snd (cvfold n cv first bs) = match n with O => first | _ => false end.
  Proof.
    induction n as [|n IH]; intros; [reflexivity|]. cbn [cvfold]. rewrite IH. destruct n; reflexivity.
  Qed.

  Lemma cvfold_S_end n : forall cv first bs,
    cvfold (S n) cv first bs =
    (c8 (fst (cvfold n cv first bs)) (take 64 (drop (64 * N.of_nat n) bs)) 64 T
        (N.lor F (start_flag (snd (cvfold n cv first bs)))), false).
  Proof.
    induction n as [|n IH]; intros cv first bs.
    - reflexivity.
    - change (cvfold (S (S n)) cv first bs) with
        (cvfold (S n) (c8 cv (take 64 bs) 64 T (N.lor F (start_flag first))) false (drop 64 bs)).
      rewrite IH. cbn [cvfold]. rewrite drop_drop.
      replace (64 + 64 * N.of_nat n) with (64 * N.of_nat (S n)) by lia. reflexivity.
  Qed.

  Lemma cvfold_app n : forall cv first bs ext,
    64 * N.of_nat n <= len bs -> cvfold n cv first (bs ++ ext) = cvfold n cv first bs.
  Proof.
    induction n as [|n IH]; intros cv first bs ext H; [reflexivity|].
    cbn [cvfold]. rewrite take_app_le by lia. rewrite drop_app_le by lia.
    apply IH. rewrite len_drop. lia.
  Qed.

  Lemma cvfold_inv (P : list N -> Prop) n : forall cv first bs,
    (forall cv b first, P cv -> length b = 64%nat -> P (c8 cv b 64 T (N.lor F (start_flag first)))) ->
    P cv -> 64 * N.of_nat n <= len bs -> P (fst (cvfold n cv first bs)).
  Proof.
    induction n as [|n IH]; intros cv first bs HP Hcv Hl; [exact Hcv|].
    cbn [cvfold]. apply IH; [exact HP| |rewrite len_drop; lia].
    apply HP; [exact Hcv|]. pose proof (len_take 64 bs) as H. unfold len in *. lia.
  Qed.

  Lemma cvfold_len n cv first bs :
    (forall cv b bl c f, length cv = 8%nat -> length b = 64%nat -> length (c8 cv b bl c f) = 8%nat) ->
    length cv = 8%nat -> 64 * N.of_nat n <= len bs -> length (fst (cvfold n cv first bs)) = 8%nat.
  Proof. intros Hc8len. apply (cvfold_inv (fun cv => length cv = 8%nat)). intros. apply Hc8len; assumption. Qed.

  (* the representation relation: cs has absorbed bs, nb blocks compressed *)
  Definition Repr (cs : chunk_state) (bs : list N) (nb : nat) : Prop :=
    cs = mkCS (fst (cvfold nb K true bs)) T (pad64 (drop (64 * N.of_nat nb) bs))
              (len bs - 64 * N.of_nat nb) (N.of_nat nb) F /\
    64 * N.of_nat nb <= len bs <= 64 * N.of_nat nb + 64 /\ len bs <= 1024.

  (* as many blocks compressed as ChunkState::update compresses: it keeps the last block in the buffer even when
     that is full, so nb is the largest value with 64 * nb < len bs.  That is where chunk_go stops too, which makes
     cs_output the specification's output (cs_output_chunk). *)
  Definition Tight (cs : chunk_state) (bs : list N) : Prop :=
    exists nb, Repr cs bs nb /\ (bs = [] /\ nb = 0%nat \/ 64 * N.of_nat nb < len bs).

  Lemma Tight_cs_new : Tight (cs_new K T F) [].
  Proof.
    exists 0%nat. split; [|left; auto]. split; [reflexivity|]. change (len []) with 0. lia.
  Qed.

  Lemma Tight_nil cs : Tight cs [] -> cs = cs_new K T F.
  Proof.
    intros (nb & [-> [Hl _]] & _). change (len []) with 0 in Hl.
    replace nb with 0%nat by lia. reflexivity.
  Qed.

  Lemma Tight_fields cs bs : Tight cs bs -> cs_ctr cs = T /\ cs_flags cs = F /\ len bs <= 1024.
  Proof. intros (nb & [-> [Hl H1024]] & _). cbn. auto. Qed.

  Lemma Repr_count cs bs nb : Repr cs bs nb -> cs_count cs = Ok (len bs).
  Proof.
    intros [-> [Hl H1024]]. unfold cs_count, rs_chunk_count. cbn [cs_blocks cs_buf_len].
    unfold mb, mu. change rs_BLOCK_LEN with 64. assert (H64 : 2 ^ 64 = 18446744073709551616) by reflexivity.
    cbn [bind]. rewrite cast_small by lia. cbn [bind]. rewrite mul_small by lia. cbn [bind].
    rewrite cast_small by lia. cbn [bind]. rewrite add_small by lia. f_equal. lia.
  Qed.

  Lemma fill_buf_spec cs bs nb input :
    Repr cs bs nb -> len (bs ++ input) <= 1024 ->
    let take_n := N.min (64 - (len bs - 64 * N.of_nat nb)) (len input) in
    exists cs', cs_fill_buf cs input = Ok (cs', drop take_n input) /\
                Repr cs' (bs ++ take take_n input) nb.
  Proof.
    intros [-> [Hl H1024]] Hin take_n.
    unfold cs_fill_buf. cbn [cs_buf_len cs_buf cs_cv cs_ctr cs_blocks cs_flags].
    change rs_BLOCK_LEN with 64.
    set (bl := len bs - 64 * N.of_nat nb) in *.
    assert (Hbl : bl <= 64) by (unfold bl; lia).
    rewrite sub_small by lia. cbn [bind].
    fold (len input). unfold nlen. fold (len input). fold take_n.
    set (d := drop (64 * N.of_nat nb) bs).
    assert (Hd : len d = bl) by (unfold d; rewrite len_drop; reflexivity).
    fold (len (pad64 d)). rewrite pad64_length by lia.
    assert (Htk : take_n <= 64 - bl) by (unfold take_n; lia).
    rewrite check_leb by lia. rewrite check_leb by lia.
    rewrite add_small by (change (2 ^ 8) with 256; lia). cbn [bind].
    eexists. split; [reflexivity|].
    split; [|rewrite len_app, len_take; rewrite len_app in Hin; fold take_n; lia].
    rewrite cvfold_app by lia.
    f_equal.
    - rewrite drop_app_le by lia. fold d.
      rewrite !firstn_N, !skipn_N.
      rewrite (pad64_split d) by lia. rewrite Hd.
      rewrite take_app_ge by lia. rewrite Hd, N.sub_diag, take_0, app_nil_r.
      rewrite drop_app_ge by lia. rewrite Hd.
      rewrite (pad64_split (d ++ take take_n input)) by (rewrite len_app, len_take, Hd; lia).
      rewrite <- app_assoc. f_equal. f_equal.
      unfold drop. rewrite skipn_repeat. f_equal. rewrite len_app, len_take, Hd. lia.
    - rewrite len_app, len_take. fold take_n. unfold bl. lia.
  Qed.

  Lemma Tight_count cs bs : Tight cs bs -> cs_count cs = Ok (len bs).
  Proof. intros (nb & HR & _). exact (Repr_count cs bs nb HR). Qed.

  Theorem cs_output_chunk cs bs : Tight cs bs -> cs_output cs = chunk_output c8 K F T bs.
  Proof.
    intros (nb & [-> [Hl H1024]] & Ht). unfold cs_output, chunk_output.
    cbn [cs_buf_len cs_buf cs_cv cs_ctr cs_blocks cs_flags].
    rewrite (chunk_go_cvfold nb 16). (* 16 = 1024 / 64, the fuel of chunk_output *)
    - unfold final. rewrite cvfold_snd. rewrite len_drop. f_equal.
      unfold cs_start_flag. cbn [cs_blocks]. destruct nb; reflexivity.
    - lia.
    - lia.
    - intros Hnz. destruct Ht as [[_ ->]|Ht]; [contradiction|exact Ht].
  Qed.
End ChunkSpec.

Section BlockStep.
  Variable c8 cip : list N -> list N -> N -> N -> N -> list N.
  Hypothesis Hcip : forall cv b bl c f, length cv = 8%nat -> length b = 64%nat -> cip cv b bl c f = c8 cv b bl c f.
  Hypothesis Hc8len : forall cv b bl c f, length cv = 8%nat -> length b = 64%nat ->
    length (c8 cv b bl c f) = 8%nat.
  Variables (K : list N) (F T : N).
  Hypothesis HK : length K = 8%nat.

  Notation cvfold := (cvfold c8 F T).
  Notation Repr := (Repr c8 K F T).

  (* bs' is the absorbed bs with block nb complete: bs itself when the block comes from the buffer, longer when it
     comes straight from the input *)
  Lemma compress_next cs bs nb bs' :
    Repr cs bs nb -> cvfold nb K true bs' = cvfold nb K true bs -> 64 * N.of_nat nb + 64 <= len bs' ->
    cip (cs_cv cs) (take 64 (drop (64 * N.of_nat nb) bs')) 64 (cs_ctr cs)
      (N.lor (cs_flags cs) (cs_start_flag cs)) = fst (cvfold (S nb) K true bs').
  Proof.
    intros [-> [Hl _]] He Hb. cbn [cs_cv cs_ctr cs_flags]. rewrite cvfold_S_end, He. cbn [fst].
    rewrite Hcip.
    - f_equal. unfold cs_start_flag. cbn [cs_blocks]. rewrite cvfold_snd. destruct nb; reflexivity.
    - apply cvfold_len; [exact Hc8len|exact HK|lia].
    - pose proof (len_take 64 (drop (64 * N.of_nat nb) bs')) as Ht. rewrite len_drop in Ht.
      unfold len in *. lia.
  Qed.

  Lemma compress_buf_spec cs bs nb :
    Repr cs bs nb -> len bs = 64 * N.of_nat nb + 64 ->
    Repr (mkCS (cip (cs_cv cs) (cs_buf cs) 64 (cs_ctr cs) (N.lor (cs_flags cs) (cs_start_flag cs)))
               (cs_ctr cs) zero_block 0 (cs_blocks cs + 1) (cs_flags cs)) bs (S nb).
  Proof.
    intros HR Hfull. pose proof HR as [Hcs [Hl H1024]].
    assert (Hbuf : cs_buf cs = take 64 (drop (64 * N.of_nat nb) bs)).
    { rewrite Hcs. cbn [cs_buf]. rewrite take_all, pad64_full by (rewrite len_drop; lia). reflexivity. }
    rewrite Hbuf, (compress_next cs bs nb bs HR eq_refl) by lia.
    rewrite Hcs. cbn [cs_ctr cs_blocks cs_flags]. split; [|lia].
    f_equal; [rewrite drop_all by lia; reflexivity|lia|lia].
  Qed.

  Lemma compress_input_spec cs bs nb input :
    Repr cs bs nb -> len bs = 64 * N.of_nat nb -> 64 < len input -> len (bs ++ input) <= 1024 ->
    Repr (mkCS (cip (cs_cv cs) (take 64 input) 64 (cs_ctr cs) (N.lor (cs_flags cs) (cs_start_flag cs)))
               (cs_ctr cs) (cs_buf cs) (cs_buf_len cs) (cs_blocks cs + 1) (cs_flags cs))
         (bs ++ take 64 input) (S nb).
  Proof.
    intros HR Hfull Hin Htot. pose proof HR as [Hcs [Hl H1024]].
    rewrite len_app in Htot.
    assert (Hlen : len (bs ++ take 64 input) = 64 * N.of_nat nb + 64) by (rewrite len_app, len_take; lia).
    assert (Hblk : take 64 input = take 64 (drop (64 * N.of_nat nb) (bs ++ take 64 input))).
    { rewrite drop_app_ge by lia. replace (64 * N.of_nat nb - len bs) with 0 by lia.
      rewrite drop_0, take_take. reflexivity. }
    rewrite Hblk at 1. rewrite (compress_next cs bs nb _ HR) by (try apply cvfold_app; lia).
    rewrite Hcs. cbn [cs_ctr cs_buf cs_buf_len cs_blocks cs_flags]. split; [|lia].
    f_equal; [rewrite (drop_all _ bs), drop_all by lia; reflexivity|lia|lia].
  Qed.
End BlockStep.

Section ChunkProof.
  Variable c8 : list N -> list N -> N -> N -> N -> list N.
  Variable p : platform.
  Hypothesis Hcip : forall cv b bl c f, length cv = 8%nat -> length b = 64%nat ->
    p_compress_in_place p cv b bl c f = c8 cv b bl c f.
  Hypothesis Hc8len : forall cv b bl c f, length cv = 8%nat -> length b = 64%nat ->
    length (c8 cv b bl c f) = 8%nat.
  Variables (K : list N) (F T : N).
  Hypothesis HK : length K = 8%nat.

  Notation cvfold := (cvfold c8 F T).
  Notation Repr := (Repr c8 K F T).
  Notation Tight := (Tight c8 K F T).
  Notation Repr_count := (Repr_count c8 K F T).
  Notation fill_buf_spec := (fill_buf_spec c8 K F T).
  Notation compress_buf_spec := (compress_buf_spec c8 (p_compress_in_place p) Hcip Hc8len K F T HK).
  Notation compress_input_spec := (compress_input_spec c8 (p_compress_in_place p) Hcip Hc8len K F T HK).

  Lemma cs_update_loop_spec : forall fuel cs bs nb input,
    Repr cs bs nb -> len bs = 64 * N.of_nat nb -> len (bs ++ input) <= 1024 ->
    (N.to_nat (len input / 64) < fuel)%nat ->
    exists cs' nb' k,
      cs_update_loop fuel p cs input = Ok (cs', drop k input) /\
      Repr cs' (bs ++ take k input) nb' /\ len (bs ++ take k input) = 64 * N.of_nat nb' /\
      k <= len input /\ len input - k <= 64 /\ (0 < len input -> 0 < len input - k).
  Proof.
    induction fuel as [|fuel IH]; intros cs bs nb input HR Hfull Htot Hfuel; [lia|].
    cbn [cs_update_loop]. unfold nlen. fold (len input). change rs_BLOCK_LEN with 64.
    destruct (len input <=? 64) eqn:E.
    - exists cs, nb, 0. rewrite drop_0, take_0, app_nil_r. split; [reflexivity|]. split; [exact HR|]. lia.
    - pose proof (compress_input_spec cs bs nb input HR Hfull ltac:(lia) Htot) as HR'.
      destruct HR as [Hcs [Hl H1024]].
      assert (Hbl : cs_buf_len cs = 0) by (rewrite Hcs; cbn [cs_buf_len]; lia).
      assert (Hblk : cs_blocks cs = N.of_nat nb) by (rewrite Hcs; reflexivity).
      rewrite len_app in Htot.
      rewrite check_eqb by exact Hbl. rewrite add_small by (rewrite Hblk; change (2 ^ 8) with 256; lia).
      cbn [bind]. rewrite !firstn_N, !skipn_N.
      destruct (IH _ (bs ++ take 64 input) (S nb) (drop 64 input) HR') as (cs' & nb' & k & Hrun & HR'' & Hlen'' & Hk1 & Hk2 & Hk3);
        rewrite ?len_app, ?len_take, ?len_drop in *; try lia.
      clear IH. exists cs', nb', (64 + k).
      rewrite drop_drop in Hrun. split; [exact Hrun|].
      rewrite <- app_assoc, take_add in HR''. split; [exact HR''|].
      rewrite len_app, len_take. lia.
  Qed.

  Lemma cs_update_tail_spec cs bs nb input :
    Repr cs bs nb -> len bs = 64 * N.of_nat nb -> len (bs ++ input) <= 1024 ->
    (0 < len input \/ bs = []) ->
    exists cs', cs_update_tail p cs input = Ok cs' /\ Tight cs' (bs ++ input).
  Proof.
    intros HR Hfull Htot Hne. unfold cs_update_tail.
    destruct (cs_update_loop_spec (S (Nat.div (length input) 64)) cs bs nb input HR Hfull Htot (div_fuel input 64))
      as (cs1 & nb1 & k & Hrun & HR1 & Hlen1 & Hk1 & Hk2 & Hk3).
    rewrite Hrun. cbn [bind].
    destruct (fill_buf_spec cs1 (bs ++ take k input) nb1 (drop k input) HR1) as (cs2 & Hfill & HR2).
    { rewrite <- app_assoc, take_drop. exact Htot. }
    rewrite Hlen1, N.sub_diag, N.sub_0_r, len_drop in Hfill, HR2.
    replace (N.min 64 (len input - k)) with (len input - k) in Hfill, HR2 by lia.
    rewrite Hfill. cbn [bind].
    rewrite (drop_all _ (drop k input)) by (rewrite len_drop; lia).
    change (nlen [] =? 0) with true. cbn [check bind].
    rewrite (take_all _ (drop k input)), <- app_assoc, take_drop in HR2 by (rewrite len_drop; lia).
    rewrite (Repr_count _ _ _ HR2). cbn [bind]. change rs_CHUNK_LEN with 1024.
    rewrite check_leb by lia.
    exists cs2. split; [reflexivity|]. exists nb1. split; [exact HR2|].
    rewrite len_app in Hlen1. rewrite len_take in Hlen1. rewrite len_app.
    destruct Hne as [Hpos| ->].
    - right. lia.
    - destruct (N.eq_dec (len input) 0) as [Hz|Hnz].
      + left. apply len_0_nil in Hz. subst input. split; [reflexivity|].
        change (len []) with 0 in Hlen1. lia.
      + right. change (len []) with 0 in *. lia.
  Qed.

  Theorem cs_update_spec cs bs input :
    Tight cs bs -> len (bs ++ input) <= 1024 ->
    exists cs', cs_update p cs input = Ok cs' /\ Tight cs' (bs ++ input).
  Proof.
    intros (nb & HR & Ht) Htot. unfold cs_update.
    assert (Hbl : cs_buf_len cs = len bs - 64 * N.of_nat nb) by (destruct HR as [-> _]; reflexivity).
    destruct Ht as [[-> ->]|Ht].
    - (* empty buffer, nothing absorbed *)
      rewrite Hbl. cbn [len length]. change (0 <? _) with false. cbn iota. cbn [bind].
      apply (cs_update_tail_spec cs [] 0%nat input HR); [reflexivity|exact Htot|right; reflexivity].
    - replace (0 <? cs_buf_len cs) with true by lia. cbn iota.
      destruct (fill_buf_spec cs bs nb input HR Htot) as (cs1 & Hfill & HR1).
      set (t := N.min (64 - (len bs - 64 * N.of_nat nb)) (len input)) in *.
      rewrite Hfill. cbn [bind]. unfold nlen. fold (len (drop t input)). rewrite len_drop.
      destruct HR as [_ [Hl H1024]].
      destruct (len input - t =? 0) eqn:E; cbn [negb].
      + (* everything fitted in the buffer: the tail only re-checks the count *)
        cbn [bind]. rewrite (take_all t input) in HR1 by lia. rewrite (drop_all t input) by lia.
        unfold cs_update_tail. cbn [length Nat.div cs_update_loop].
        change (nlen [] <=? rs_BLOCK_LEN) with true. cbn iota. cbn [bind].
        destruct (fill_buf_spec cs1 (bs ++ input) nb [] HR1) as (cs2 & Hfill2 & HR2).
        { rewrite app_nil_r. exact Htot. }
        cbn [len length] in Hfill2, HR2. rewrite N.min_0_r in Hfill2, HR2.
        rewrite drop_0 in Hfill2. rewrite take_0, app_nil_r in HR2.
        rewrite Hfill2. cbn [bind]. change (nlen [] =? 0) with true. cbn [check bind].
        rewrite (Repr_count _ _ _ HR2). cbn [bind]. change rs_CHUNK_LEN with 1024.
        rewrite check_leb by lia.
        exists cs2. split; [reflexivity|]. exists nb. split; [exact HR2|]. right. rewrite len_app. lia.
      + (* buffer full and more input: compress it, continue *)
        assert (Hfull : len (bs ++ take t input) = 64 * N.of_nat nb + 64) by (rewrite len_app, len_take; lia).
        assert (Hbl1 : cs_buf_len cs1 = 64) by (destruct HR1 as [-> _]; cbn [cs_buf_len]; lia).
        assert (Hblk : cs_blocks cs1 = N.of_nat nb) by (destruct HR1 as [-> _]; reflexivity).
        pose proof (compress_buf_spec cs1 _ nb HR1 Hfull) as HR2.
        rewrite check_eqb by exact Hbl1.
        rewrite add_small by (rewrite Hblk; change (2 ^ 8) with 256; lia). cbn [bind].
        change rs_BLOCK_LEN with 64.
        destruct (cs_update_tail_spec _ (bs ++ take t input) (S nb) (drop t input) HR2) as (cs3 & Hrun & HT).
        * lia.
        * rewrite <- app_assoc, take_drop. exact Htot.
        * left. rewrite len_drop. lia.
        * rewrite <- app_assoc, take_drop in HT. exists cs3. split; assumption.
  Qed.
End ChunkProof.
