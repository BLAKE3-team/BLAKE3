(* C04: results do not depend on the platform record (SIMD level / kernels): every
   observation is equal to a specification value that does not mention the platform.
   C07: output footprints of the kernel models and of the reader. *)
From V Require Import Proofs.ListP.
From V Require Import Base.Res Base.Word Base.MachInt gen.GenConsts gen.GenFormulas
  Spec.Compress Spec.Tree Spec.Blake3 Model.Portable Model.Platform Model.RsChunk Model.RsWide
  Model.RsHasher Model.RsXof Model.RsIo Model.Machine
  Proofs.C01P Proofs.XofP Proofs.IoP Proofs.HasherP Proofs.C02P Proofs.C09P.
Open Scope N_scope.

Lemma hash_platform_independent p1 p2 input :
  PlatformOK p1 -> PlatformOK p2 -> len input < 2 ^ 64 -> rs_hash p1 input = rs_hash p2 input.
Proof. intros H1 H2 Hl. rewrite (rs_hash_spec p1 H1 input Hl), (rs_hash_spec p2 H2 input Hl). reflexivity. Qed.

Lemma keyed_hash_platform_independent p1 p2 key input :
  PlatformOK p1 -> PlatformOK p2 -> length key = 32%nat -> len input < 2 ^ 64 ->
  rs_keyed_hash p1 key input = rs_keyed_hash p2 key input.
Proof.
  intros H1 H2 Hk Hl. rewrite (rs_keyed_hash_spec p1 H1 key input Hk Hl), (rs_keyed_hash_spec p2 H2 key input Hk Hl). reflexivity.
Qed.

Lemma derive_key_platform_independent p1 p2 ctx material :
  PlatformOK p1 -> PlatformOK p2 -> len ctx < 2 ^ 64 -> len material < 2 ^ 64 ->
  rs_derive_key p1 ctx material = rs_derive_key p2 ctx material.
Proof.
  intros H1 H2 Hc Hm. rewrite (rs_derive_key_spec p1 H1 ctx material Hc Hm), (rs_derive_key_spec p2 H2 ctx material Hc Hm).
  reflexivity.
Qed.

(* call histories: two machines on different platforms, started from states that have absorbed the
   same bytes, produce identical observations *)
Lemma history_platform_independent p1 p2 K F pn1 pn2 m ops hs1 hs2 rs1 rs2 vs1 vs2 abs obs :
  PlatformOK p1 -> PlatformOK p2 -> length K = 8%nat ->
  Forall2 (InvS K F 0) hs1 abs -> Forall2 (InvS K F 0) hs2 abs -> arun_h K F abs ops = Some obs ->
  fst (run_ops p1 pn1 m K F (mkState hs1 rs1 vs1) (map hop_op ops) []) =
  fst (run_ops p2 pn2 m K F (mkState hs2 rs2 vs2) (map hop_op ops) []).
Proof.
  intros H1 H2 HK F1 F2 Ha.
  rewrite (history_refines p1 H1 K F HK pn1 m ops hs1 rs1 vs1 abs obs F1 Ha).
  rewrite (history_refines p2 H2 K F HK pn2 m ops hs2 rs2 vs2 abs obs F2 Ha). reflexivity.
Qed.

Lemma reader_platform_independent p1 p2 ops r1 r2 o pos obs :
  PlatformOK p1 -> PlatformOK p2 -> Rd r1 o pos -> Rd r2 o pos -> pos <= max_pos -> arun o pos ops = Some obs ->
  rrun p1 r1 ops = rrun p2 r2 ops.
Proof.
  intros H1 H2 R1 R2 Hp Ha.
  rewrite (reader_refines p1 H1 ops r1 o pos obs R1 Hp Ha), (reader_refines p2 H2 ops r2 o pos obs R2 Hp Ha). reflexivity.
Qed.

Lemma subtree_cv_platform_independent p1 p2 K F c0 pieces :
  PlatformOK p1 -> PlatformOK p2 -> length K = 8%nat ->
  c0 < 2 ^ 54 -> 0 < len (concat pieces) -> len (concat pieces) <= 1024 * lim_of c0 -> len (concat pieces) < 2 ^ 64 ->
  exists h1 h2 cv, updates p1 (fresh K F c0) pieces = Ok h1 /\ updates p2 (fresh K F c0) pieces = Ok h2 /\
                   finalize_non_root p1 h1 = Ok cv /\ finalize_non_root p2 h2 = Ok cv.
Proof.
  intros H1 H2 HK Hc Hpos Hlim H64.
  destruct (subtree_cv_spec p1 H1 K F HK c0 pieces Hc Hpos Hlim H64) as (h1 & U1 & F1).
  destruct (subtree_cv_spec p2 H2 K F HK c0 pieces Hc Hpos Hlim H64) as (h2 & U2 & F2).
  eauto 10.
Qed.

Lemma hash1_length input key ctr fl fs fe cv : hash1 input key ctr fl fs fe = Ok cv ->
  length cv = (4 * length (hash1_go (S (Nat.div (length input) 64)) key input ctr fl (N.lor fl fs) fe))%nat.
Proof.
  unfold hash1. destruct (N.of_nat (length input) mod rs_BLOCK_LEN =? 0); cbn [check bind]; [|discriminate].
  intros H. inversion H. apply bytes_of_words_length.
Qed.

(* hash_many writes exactly one CV per input: out[0 .. 32 * num_inputs) *)
Lemma hash_many_go_count : forall inputs key ctr incr fl fs fe outs,
  hash_many_go inputs key ctr incr fl fs fe = Ok outs -> length outs = length inputs.
Proof.
  induction inputs as [|x tl IH]; intros key ctr incr fl fs fe outs H.
  - cbn in H. inversion H. reflexivity.
  - cbn [hash_many_go] in H.
    destruct (hash1 x key ctr fl fs fe) as [cv| |]; cbn [bind] in H; try discriminate.
    destruct (if incr then mi_add 64 ctr 1 else Ok ctr) as [c'| |]; cbn [bind] in H; try discriminate.
    destruct (hash_many_go tl key c' incr fl fs fe) as [rest| |] eqn:E; cbn [bind] in H; try discriminate.
    inversion H. cbn [length]. f_equal. eapply IH. exact E.
Qed.

Lemma hash_many_footprint inputs key ctr incr fl fs fe cap outs :
  hash_many inputs key ctr incr fl fs fe cap = Ok outs ->
  length outs = length inputs /\ N.of_nat (length inputs) <= cap.
Proof.
  unfold hash_many. destruct (N.of_nat (length inputs) <=? cap) eqn:E; cbn [check bind]; [|discriminate].
  intros H. split; [eapply hash_many_go_count; exact H|lia].
Qed.

(* fill writes exactly the n requested bytes *)
Lemma reader_fill_footprint p : PlatformOK p -> forall r o pos n,
  Rd r o pos -> pos + n <= 2 ^ 64 - 1 ->
  exists r' bs, reader_fill p r n = Ok (r', bs) /\ length bs = N.to_nat n.
Proof.
  intros POK r o pos n HR Hn. destruct (reader_fill_spec p POK r o pos n HR Hn) as (r' & Hf & _).
  exists r', (stream spec_c64 o pos (N.to_nat n)). split; [exact Hf|apply stream_length].
Qed.
