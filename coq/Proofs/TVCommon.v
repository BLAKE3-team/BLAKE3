(* Published test vectors (test_vectors/test_vectors.json, read into
   gen/GenTestVectors.v by the translator) against the SPECIFICATION: the input
   pattern and the check of one case.  TestVectorsP.v evaluates it on all cases. *)
From Coq Require Import NArith List Bool Lia.
From V Require Import Base.Word Spec.Compress Spec.Tree Spec.Blake3 gen.GenTestVectors.
Import ListNotations.
Open Scope N_scope.

(* the input pattern of test_vectors/src/lib.rs::paint_test_input: byte i = i mod 251.
   Built by iteration over N (no unary numerals). *)
Definition paint_step (st : N * list N) : N * list N := (fst st + 1, (fst st mod 251) :: snd st).
Definition paint (n : N) : list N := rev_append (snd (N.iter n paint_step (0, []))) [].

Lemma paint_iter n :
  N.iter n paint_step (0, []) = (n, rev (map (fun i => N.of_nat i mod 251) (seq 0 (N.to_nat n)))).
Proof.
  induction n as [|n IH] using N.peano_ind; [reflexivity|].
  rewrite N.iter_succ, IH. unfold paint_step. cbn [fst snd].
  rewrite N2Nat.inj_succ, seq_S, map_app, rev_app_distr. cbn [map rev app Nat.add].
  rewrite N2Nat.id. f_equal. lia.
Qed.

Theorem paint_spec n : paint n = map (fun i => N.of_nat i mod 251) (seq 0 (N.to_nat n)).
Proof. unfold paint. rewrite paint_iter. cbn [snd]. rewrite rev_append_rev, app_nil_r. apply rev_involutive. Qed.

Lemma paint_length n : length (paint n) = N.to_nat n.
Proof. rewrite paint_spec, map_length, seq_length. reflexivity. Qed.

Fixpoint leqb (a b : list N) : bool :=
  match a, b with
  | [], [] => true
  | x :: a', y :: b' => (x =? y) && leqb a' b'
  | _, _ => false
  end.

Lemma leqb_eq a : forall b, leqb a b = true -> a = b.
Proof.
  induction a as [|x a IH]; intros [|y b] H; cbn in H; try discriminate; [reflexivity|].
  apply andb_true_iff in H. destruct H as [H1 H2]. apply N.eqb_eq in H1. subst y.
  f_equal. apply IH. exact H2.
Qed.

Definition tv_context_key : list N := b3_hash_mode DeriveKeyContext tv_context.

Definition tv_out_len : nat := 131.

Definition check_case (c : N * list N * list N * list N) : bool :=
  let '(n, h, k, d) := c in
  let input := paint n in
  leqb (b3_xof_mode Hash input 0 tv_out_len) h
  && leqb (b3_xof_mode (KeyedHash tv_key) input 0 tv_out_len) k
  && leqb (b3_xof_mode (DeriveKeyMaterial tv_context_key) input 0 tv_out_len) d.

Lemma check_case_sound n h k d : check_case (n, h, k, d) = true ->
  b3_xof_mode Hash (paint n) 0 131 = h /\
  b3_xof_mode (KeyedHash tv_key) (paint n) 0 131 = k /\
  stream spec_c64 (root_output spec_c8 (DeriveKeyMaterial (b3_hash_mode DeriveKeyContext tv_context)) (paint n)) 0 131 = d.
Proof.
  unfold check_case. rewrite !andb_true_iff. intros [[H1 H2] H3].
  repeat split; apply leqb_eq; assumption.
Qed.
