(* C03: the OutputReader model refines (stream S, position p). *)
From V Require Import Proofs.ListP Proofs.ResP.
From V Require Import Base.Res Base.Word Base.MachInt gen.GenConsts gen.GenFormulas
  Spec.Compress Spec.Tree Spec.Blake3 Model.Portable Model.Platform Model.RsChunk Model.RsXof
  Proofs.PortableP Proofs.FormulasP Proofs.C01P.
Open Scope N_scope.

(* the same predicate as WideP.wf_output (convertible) *)
Definition wf_out (o : output) : Prop := length (o_cv o) = 8%nat /\ length (o_block o) = 64%nat.

Definition rblock (o : output) (k : N) : list N := root_block spec_c64 o k.

Lemma rblock_with_counter o c k : rblock (with_counter o c) k = rblock o k.
Proof. unfold rblock, root_block, with_counter. cbn [o_cv o_block o_blen o_flags]. reflexivity. Qed.

Lemma rblock_length o k : wf_out o -> length (rblock o k) = 64%nat.
Proof.
  intros [H1 H2]. unfold rblock, root_block, spec_c64.
  rewrite bytes_of_words_length, compress_length by assumption. reflexivity.
Qed.

Lemma stream_app c64 o p n m :
  stream c64 o p (n + m) = stream c64 o p n ++ stream c64 o (p + N.of_nat n) m.
Proof. unfold stream. rewrite nrange_app, map_app. reflexivity. Qed.

Lemma nth_skipn {A} (l : list A) n i d : nth i (skipn n l) d = nth (n + i) l d.
Proof. apply nth_skipn_add. Qed.

Lemma map_nth_range {A} (l : list A) d : forall n a, (a + n <= length l)%nat ->
  map (fun i => nth i l d) (seq a n) = firstn n (skipn a l).
Proof.
  induction n as [|n IH]; intros a H; [reflexivity|].
  cbn [seq map]. rewrite IH by lia.
  assert (Hs : skipn a l = nth a l d :: skipn (S a) l).
  { clear IH. revert a H. induction l as [|x l IHl]; intros a H; [cbn in H; lia|].
    destruct a as [|a]; [reflexivity|]. cbn [skipn nth]. apply IHl. cbn [length] in H. lia. }
  rewrite Hs. reflexivity.
Qed.

Lemma stream_in_block o k q n : wf_out o -> q + N.of_nat n <= 64 ->
  stream spec_c64 o (64 * k + q) n = firstn n (skipn (N.to_nat q) (rblock o k)).
Proof.
  intros Hwf Hq. unfold stream.
  rewrite <- (map_nth_range (rblock o k) 0 n (N.to_nat q)) by (rewrite rblock_length by exact Hwf; lia).
  assert (Hr : forall a m, a + N.of_nat m <= 64 ->
     map (stream_byte spec_c64 o) (nrange (64 * k + a) m) = map (fun i => nth i (rblock o k) 0) (seq (N.to_nat a) m)).
  { intros a m. revert a. induction m as [|m IHm]; intros a Ha; [reflexivity|].
    cbn [nrange seq map]. f_equal.
    - unfold stream_byte, rblock.
      replace ((64 * k + a) / 64) with k by lia. replace ((64 * k + a) mod 64) with a by lia. reflexivity.
    - replace (64 * k + a + 1) with (64 * k + (a + 1)) by lia.
      rewrite IHm by lia. f_equal. f_equal. lia. }
  apply Hr. exact Hq.
Qed.

Lemma stream_block o k : wf_out o -> stream spec_c64 o (64 * k) 64 = rblock o k.
Proof.
  intros Hwf. replace (64 * k) with (64 * k + 0) by lia.
  rewrite stream_in_block by (try assumption; lia).
  cbn [N.to_nat skipn]. change (N.to_nat 0) with 0%nat. cbn [skipn].
  apply firstn_all2. rewrite rblock_length by assumption. lia.
Qed.

Section Xof.
  Variable p : platform.
  Hypothesis POK : PlatformOK p.

  Lemma root_output_block_spec o : wf_out o ->
    out_root_output_block p o = rblock o (o_ctr o).
  Proof.
    intros [H1 H2]. unfold out_root_output_block, rblock, root_block.
    rewrite (ok_cx p POK). rewrite compress_xof_is_spec by assumption.
    change rs_flag_ROOT with ROOT. unfold spec_c64. reflexivity.
  Qed.

  Definition Rd (r : reader) (o : output) (pos : N) : Prop :=
    wf_out o /\ r_out r = with_counter o (pos / 64) /\ r_pwb r = pos mod 64.

  Lemma Rd_new o : wf_out o -> o_ctr o = 0 -> Rd (reader_new o) o 0.
  Proof.
    intros Hwf Hc. split; [exact Hwf|]. split; [|reflexivity].
    unfold reader_new, with_counter. cbn [r_out]. change (0 / 64) with 0. rewrite <- Hc.
    destruct o; reflexivity.
  Qed.

  Lemma fill_one_block_spec r o pos n :
    Rd r o pos -> 0 < n -> pos + N.min n (64 - pos mod 64) <= 2 ^ 64 - 1 ->
    let take := N.min n (64 - pos mod 64) in
    exists r', fill_one_block p r n = Ok (r', stream spec_c64 o pos (N.to_nat take)) /\ Rd r' o (pos + take).
  Proof.
    intros (Hwf & Ho & Hp) Hn Hmax take. unfold fill_one_block.
    destruct r as [ro rp]. cbn [r_out r_pwb] in *. subst ro rp. rewrite root_output_block_spec by (destruct Hwf; split; assumption).
    cbn [with_counter o_ctr]. rewrite rblock_with_counter.
    unfold nlen. rewrite rblock_length by assumption. change (N.of_nat 64) with 64.
    rewrite check_leb by lia.
    rewrite skipn_length, rblock_length by assumption.
    replace (N.of_nat (64 - N.to_nat (pos mod 64))) with (64 - pos mod 64) by lia. fold take.
    rewrite add_small by (change (2 ^ 8) with 256; unfold take; lia). cbn [bind]. change rs_BLOCK_LEN with 64.
    assert (Hs : stream spec_c64 o pos (N.to_nat take) =
                 firstn (N.to_nat take) (skipn (N.to_nat (pos mod 64)) (rblock o (pos / 64)))).
    { rewrite <- stream_in_block by (try assumption; unfold take; lia). f_equal. lia. }
    rewrite two64 in Hmax.
    destruct (pos mod 64 + take =? 64) eqn:E.
    - rewrite add_small by (rewrite two64; lia). cbn [bind].
      eexists. split; [rewrite Hs; reflexivity|].
      split; [exact Hwf|]. cbn [r_out r_pwb with_counter o_cv o_block o_blen o_ctr o_flags].
      split; [unfold with_counter; f_equal; lia|lia].
    - eexists. split; [rewrite Hs; reflexivity|].
      split; [exact Hwf|]. cbn [r_out r_pwb]. unfold take in *. split; [unfold with_counter; f_equal; lia|lia].
  Qed.

  (* 2^58 blocks are 2^64 bytes *)
  Lemma xof_loop_spec o : wf_out o -> forall n c fl,
    fl = N.lor (o_flags o) ROOT -> c + N.of_nat n <= 2 ^ 58 ->
    xof_many_loop compress_xof (o_cv o) (o_block o) (o_blen o) c fl n = Ok (stream spec_c64 o (64 * c) (64 * n)).
  Proof.
    intros Hwf n. induction n as [|n IH]; intros c fl Hfl Hc; [reflexivity|].
    cbn [xof_many_loop]. change (2 ^ 58) with 288230376151711744 in Hc.
    rewrite add_small by (rewrite two64; lia). cbn [bind].
    rewrite IH by (try assumption; change (2 ^ 58) with 288230376151711744; lia). cbn [bind].
    replace (64 * S n)%nat with (64 + 64 * n)%nat by lia. rewrite stream_app.
    rewrite stream_block by assumption. f_equal. f_equal.
    - destruct Hwf as [H1 H2]. rewrite compress_xof_is_spec by assumption. subst fl.
      unfold rblock, root_block, spec_c64. reflexivity.
    - f_equal. lia.
  Qed.

  Theorem reader_fill_spec r o pos n :
    Rd r o pos -> pos + n <= 2 ^ 64 - 1 ->
    exists r', reader_fill p r n = Ok (r', stream spec_c64 o pos (N.to_nat n)) /\ Rd r' o (pos + n).
  Proof.
    intros HR Hmax. unfold reader_fill. rewrite two64 in Hmax.
    destruct (n =? 0) eqn:En.
    - exists r. replace n with 0 by lia. split; [reflexivity|]. replace (pos + 0) with pos by lia. exact HR.
    - (* head: what is left of a block already begun *)
      assert (Hhead : exists r1 a, (if negb (r_pwb r =? 0) then
                        '(r', bs) <- fill_one_block p r n ;; Ok (r', bs, n - nlen bs) else Ok (r, [], n))
                       = Ok (r1, stream spec_c64 o pos (N.to_nat a), n - a) /\ Rd r1 o (pos + a) /\ a <= n /\
                       (a < n -> (pos + a) mod 64 = 0)).
      { destruct HR as (Hwf & Ho & Hp). rewrite Hp. destruct (pos mod 64 =? 0) eqn:E0; cbn [negb].
        - exists r, 0. replace (pos + 0) with pos by lia. replace (n - 0) with n by lia.
          split; [reflexivity|]. split; [exact (conj Hwf (conj Ho Hp))|]. split; lia.
        - destruct (fill_one_block_spec r o pos n) as (r1 & Hf & HR1); [exact (conj Hwf (conj Ho Hp))|lia|rewrite two64; lia|].
          cbn zeta in Hf, HR1. set (a := N.min n (64 - pos mod 64)) in *.
          exists r1, a. rewrite Hf. cbn [bind]. unfold nlen. rewrite stream_length.
          replace (N.of_nat (N.to_nat a)) with a by lia.
          split; [reflexivity|]. split; [exact HR1|]. unfold a. split; lia. }
      destruct Hhead as (r1 & a & Hh & HR1 & Ha & Hal). rewrite Hh. cbn [bind]. clear Hh.
      set (n1 := n - a). change rs_BLOCK_LEN with 64.
      (* middle: whole blocks through xof_many *)
      assert (Hmid : exists r2, (if 0 <? n1 / 64 then
                         assert! (r_pwb r1 =? 0) code 1500 ;;
                         bs <- p_xof_many p (o_cv (r_out r1)) (o_block (r_out r1)) (o_blen (r_out r1)) (o_ctr (r_out r1))
                                 (N.lor (o_flags (r_out r1)) rs_flag_ROOT) (n1 / 64) ;;
                         c <- mi_add 64 (o_ctr (r_out r1)) (n1 / 64) ;;
                         Ok (mkReader (with_counter (r_out r1) c) (r_pwb r1), bs, n1 - n1 / 64 * 64)
                       else Ok (r1, [], n1))
                      = Ok (r2, stream spec_c64 o (pos + a) (N.to_nat (n1 / 64 * 64)), n1 - n1 / 64 * 64) /\
                      Rd r2 o (pos + a + n1 / 64 * 64)).
      { destruct (0 <? n1 / 64) eqn:Eb.
        - assert (Han : a < n) by (unfold n1 in Eb; lia). specialize (Hal Han).
          destruct HR1 as (Hwf & Ho1 & Hp1). rewrite Hp1, Hal. change (0 =? 0) with true. cbn [check bind].
          rewrite Ho1. cbn [with_counter o_cv o_block o_blen o_ctr o_flags].
          rewrite (ok_xm p POK) by (rewrite two64; unfold n1; lia).
          unfold portable_xof_many.
          change rs_flag_ROOT with ROOT.
          rewrite (xof_loop_spec o Hwf) by (try reflexivity; change (2 ^ 58) with 288230376151711744; unfold n1; lia).
          cbn [bind]. rewrite add_small by (rewrite two64; unfold n1; lia). cbn [bind].
          eexists. split.
          + f_equal. f_equal. f_equal. f_equal; lia.
          + split; [exact Hwf|]. cbn [r_out r_pwb]. unfold with_counter. cbn [o_cv o_block o_blen o_ctr o_flags].
            split; [f_equal; lia|lia].
        - exists r1. replace (n1 / 64 * 64) with 0 by lia. change (N.to_nat 0) with 0%nat.
          replace (n1 - 0) with n1 by lia. replace (pos + a + 0) with (pos + a) by lia. split; [reflexivity|exact HR1]. }
      destruct Hmid as (r2 & Hm & HR2). rewrite Hm. cbn [bind]. clear Hm.
      set (b := n1 / 64 * 64) in *. set (n2 := n1 - b).
      assert (Hn2 : n2 < 64) by (unfold n2, b; lia).
      assert (Hsplit : stream spec_c64 o pos (N.to_nat n) =
                       stream spec_c64 o pos (N.to_nat a) ++ stream spec_c64 o (pos + a) (N.to_nat b)
                       ++ stream spec_c64 o (pos + a + b) (N.to_nat n2)).
      { replace (N.to_nat n) with (N.to_nat a + (N.to_nat b + N.to_nat n2))%nat by (unfold n2, b, n1 in *; lia).
        rewrite stream_app, stream_app. repeat f_equal; lia. }
      destruct (n2 =? 0) eqn:E2; cbn [negb].
      + exists r2. split.
        * f_equal. f_equal. rewrite Hsplit. replace n2 with 0 by lia. change (N.to_nat 0) with 0%nat.
          cbn [stream nrange map]. rewrite app_nil_r. reflexivity.
        * replace (pos + n) with (pos + a + b) by (unfold n2, b, n1 in *; lia). exact HR2.
      + rewrite check_ltb by lia.
        assert (Hal2 : (pos + a + b) mod 64 = 0).
        { destruct (N.eq_dec a n) as [->|Hne]; [unfold n2, b, n1 in *; lia|].
          specialize (Hal ltac:(lia)). unfold b. lia. }
        destruct (fill_one_block_spec r2 o (pos + a + b) n2 HR2) as (r3 & Hf & HR3); [lia| |].
        { rewrite two64. unfold n2, b, n1 in *. lia. }
        cbn zeta in Hf, HR3. rewrite Hal2 in Hf, HR3.
        replace (N.min n2 (64 - 0)) with n2 in Hf, HR3 by lia.
        rewrite Hf. cbn [bind]. unfold nlen. rewrite stream_length.
        replace (N.of_nat (N.to_nat n2) =? n2) with true by lia. cbn [check bind].
        exists r3. split; [rewrite Hsplit; reflexivity|].
        replace (pos + n) with (pos + a + b + n2) by (unfold n2, b, n1 in *; lia). exact HR3.
  Qed.

  Lemma reader_position_spec r o pos : Rd r o pos -> pos <= 2 ^ 64 - 1 -> reader_position r = Ok pos.
  Proof.
    intros (Hwf & Ho & Hp) Hmax. rewrite two64 in Hmax. unfold reader_position, rs_position. rewrite Ho, Hp.
    cbn [with_counter o_ctr]. unfold mb, mu. cbn [bind]. change (mi_cast 64 rs_BLOCK_LEN) with (Ok 64 : res N). cbn [bind].
    rewrite mul_small by (rewrite two64; lia). cbn [bind]. rewrite cast_small by (rewrite two64; lia). cbn [bind].
    rewrite add_small by (rewrite two64; lia). f_equal. lia.
  Qed.

  Lemma reader_set_position_spec r o pos q : Rd r o pos -> q <= 2 ^ 64 - 1 ->
    exists r', reader_set_position r q = Ok r' /\ Rd r' o q.
  Proof.
    intros (Hwf & Ho & Hp) Hq. rewrite two64 in Hq.
    unfold reader_set_position, rs_set_position_pwb, rs_set_position_ctr.
    unfold mb, mu, mi_cast, mi_rem, mi_div. cbn [bind]. change rs_BLOCK_LEN with 64. rewrite !N.land_ones.
    change (64 mod 2 ^ 64) with 64. change (64 =? 0) with false. cbn iota. cbn [bind].
    eexists. split; [reflexivity|]. split; [exact Hwf|]. cbn [r_out r_pwb].
    rewrite Ho. unfold with_counter. cbn [o_cv o_block o_blen o_ctr o_flags]. split; [reflexivity|].
    rewrite N.land_ones. change (2 ^ 8) with 256. lia.
  Qed.

  (* Seek: End and negative targets fail and leave the reader unchanged; otherwise the new
     position is min(target, 2^64-1) *)
  Theorem reader_seek_spec r o pos s : Rd r o pos -> pos <= 2 ^ 64 - 1 ->
    match s with
    | SeekEnd _ => reader_seek r s = Ok (r, None)
    | SeekStart x => exists r', reader_seek r s = Ok (r', Some (N.min x (2 ^ 64 - 1))) /\ Rd r' o (N.min x (2 ^ 64 - 1))
    | SeekCurrent d =>
        if (Z.of_N pos + d <? 0)%Z then reader_seek r s = Ok (r, None)
        else let q := N.min (Z.to_N (Z.of_N pos + d)) (2 ^ 64 - 1) in
             exists r', reader_seek r s = Ok (r', Some q) /\ Rd r' o q
    end.
  Proof.
    intros HR Hpos. destruct s as [x|d|d]; [| |reflexivity].
    - cbn [reader_seek].
      replace (Z.to_N (Z.min (Z.of_N x) (Z.of_N (2 ^ 64 - 1)))) with (N.min x (2 ^ 64 - 1)) by lia.
      destruct (reader_set_position_spec r o pos (N.min x (2 ^ 64 - 1)) HR ltac:(lia)) as (r' & Hs & HR').
      rewrite Hs. cbn [bind]. rewrite (reader_position_spec r' o _ HR') by lia. cbn [bind]. eauto.
    - cbn [reader_seek]. rewrite (reader_position_spec r o pos HR Hpos). cbn [bind].
      destruct (Z.of_N pos + d <? 0)%Z eqn:E; [reflexivity|].
      replace (Z.to_N (Z.min (Z.of_N pos + d) (Z.of_N (2 ^ 64 - 1)))) with (N.min (Z.to_N (Z.of_N pos + d)) (2 ^ 64 - 1)) by lia.
      cbn zeta.
      destruct (reader_set_position_spec r o pos (N.min (Z.to_N (Z.of_N pos + d)) (2 ^ 64 - 1)) HR ltac:(lia)) as (r' & Hs & HR').
      rewrite Hs. cbn [bind]. rewrite (reader_position_spec r' o _ HR') by lia. cbn [bind]. eauto.
  Qed.
End Xof.

Inductive rop := RFill (n : N) | RRead (n : N) | RSetPos (q : N) | RSeek (s : seek_from) | RPos.
Inductive robs := RoBytes (b : list N) | RoRead (n : N) (b : list N) | RoNum (q : N) | RoErr | RoNone.

Definition rstep (p : platform) (r : reader) (o : rop) : res (reader * robs) :=
  match o with
  | RFill n => '(r', bs) <- reader_fill p r n ;; Ok (r', RoBytes bs)
  | RRead n => '(r', bs) <- reader_fill p r n ;; Ok (r', RoRead n bs)
  | RSetPos q => r' <- reader_set_position r q ;; Ok (r', RoNone)
  | RSeek s => '(r', x) <- reader_seek r s ;; Ok (r', match x with Some q => RoNum q | None => RoErr end)
  | RPos => q <- reader_position r ;; Ok (r, RoNum q)
  end.

Fixpoint rrun (p : platform) (r : reader) (ops : list rop) : res (list robs) :=
  match ops with
  | [] => Ok []
  | o :: tl => '(r', x) <- rstep p r o ;; rest <- rrun p r' tl ;; Ok (x :: rest)
  end.

(* abstract machine: a position into the stream S of the root output o *)
Definition max_pos : N := 2 ^ 64 - 1.
Definition astep (o : output) (pos : N) (op : rop) : option (N * robs) :=
  match op with
  | RFill n => if pos + n <=? max_pos then Some (pos + n, RoBytes (stream spec_c64 o pos (N.to_nat n))) else None
  | RRead n => if pos + n <=? max_pos then Some (pos + n, RoRead n (stream spec_c64 o pos (N.to_nat n))) else None
  | RSetPos q => if q <=? max_pos then Some (q, RoNone) else None
  | RSeek (SeekEnd _) => Some (pos, RoErr)
  | RSeek (SeekStart x) => Some (N.min x max_pos, RoNum (N.min x max_pos))
  | RSeek (SeekCurrent d) =>
      if (Z.of_N pos + d <? 0)%Z then Some (pos, RoErr)
      else let q := N.min (Z.to_N (Z.of_N pos + d)) max_pos in Some (q, RoNum q)
  | RPos => Some (pos, RoNum pos)
  end.

(* None = the sequence leaves the documented domain (a read beyond 2^64-1) *)
Fixpoint arun (o : output) (pos : N) (ops : list rop) : option (list robs) :=
  match ops with
  | [] => Some []
  | op :: tl =>
      match astep o pos op with
      | Some (pos', x) => match arun o pos' tl with Some rest => Some (x :: rest) | None => None end
      | None => None
      end
  end.

Lemma rstep_refines p : PlatformOK p -> forall op r o pos pos' x,
  Rd r o pos -> pos <= max_pos -> astep o pos op = Some (pos', x) ->
  exists r', rstep p r op = Ok (r', x) /\ Rd r' o pos' /\ pos' <= max_pos.
Proof.
  intros POK op r o pos pos' x HR Hpos Es.
  assert (Hmp : max_pos = 2 ^ 64 - 1) by reflexivity.
  destruct op as [n|n|q|s|]; cbn [astep rstep] in *.
  1-2: destruct (pos + n <=? max_pos) eqn:E; [|discriminate]; inversion Es; subst pos' x.
  1-2: destruct (reader_fill_spec p POK r o pos n HR ltac:(lia)) as (r' & Hf & HR'); rewrite Hf; cbn [bind].
  1-2: exists r'; split; [reflexivity|]; split; [exact HR'|lia].
  - destruct (q <=? max_pos) eqn:E; [|discriminate]. inversion Es; subst pos' x.
    destruct (reader_set_position_spec r o pos q HR ltac:(lia)) as (r' & Hs & HR'). rewrite Hs. cbn [bind].
    exists r'. split; [reflexivity|]. split; [exact HR'|lia].
  - pose proof (reader_seek_spec r o pos s HR ltac:(lia)) as Hsk. destruct s as [v|d|d]; cbn [astep] in Es.
    + inversion Es; subst pos' x. destruct Hsk as (r' & Hs & HR'). rewrite Hs. cbn [bind].
      exists r'. rewrite Hmp. split; [reflexivity|]. split; [exact HR'|lia].
    + destruct (Z.of_N pos + d <? 0)%Z eqn:E.
      * inversion Es; subst pos' x. rewrite Hsk. cbn [bind]. exists r. split; [reflexivity|]. split; [exact HR|lia].
      * inversion Es; subst pos' x. cbn zeta in Hsk. destruct Hsk as (r' & Hs & HR'). rewrite Hs. cbn [bind].
        exists r'. rewrite Hmp. split; [reflexivity|]. split; [exact HR'|lia].
    + inversion Es; subst pos' x. rewrite Hsk. cbn [bind]. exists r. split; [reflexivity|]. split; [exact HR|lia].
  - inversion Es; subst pos' x. rewrite (reader_position_spec r o pos HR ltac:(lia)). cbn [bind].
    exists r. split; [reflexivity|]. split; [exact HR|lia].
Qed.

(* Not an instance of ResP.run_sim: rrun yields one observation per op and none at all when a step fails, where the
   machines of run_sim append lists of observations to an accumulator and keep those made before a failure. *)
Theorem reader_refines p : PlatformOK p -> forall ops r o pos obs,
  Rd r o pos -> pos <= max_pos -> arun o pos ops = Some obs -> rrun p r ops = Ok obs.
Proof.
  intros POK. induction ops as [|op ops IH]; intros r o pos obs HR Hpos Ha.
  - cbn in *. congruence.
  - cbn [arun rrun] in *. destruct (astep o pos op) as [[pos' x]|] eqn:Es; [|discriminate].
    destruct (arun o pos' ops) as [rest|] eqn:Er; [|discriminate]. inversion Ha; subst obs. clear Ha.
    destruct (rstep_refines p POK op r o pos pos' x HR Hpos Es) as (r' & Hs & HR' & Hp').
    rewrite Hs. cbn [bind]. rewrite (IH r' o pos' rest HR' Hp' Er). reflexivity.
Qed.
