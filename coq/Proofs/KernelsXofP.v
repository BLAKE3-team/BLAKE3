(* C05: xofN and the xof_many cascade of blake3_avx512.c (Model/Kernels.v) equal portable_xof_many. *)
From Coq Require Import NArith ZArith List Bool Arith Lia.
From V Require Import Base.Res Base.Word Base.MachInt gen.GenConsts gen.GenFormulas
  Spec.Compress Model.Portable Model.Platform Model.Kernels Proofs.PortableP Proofs.ListP Proofs.WordP Proofs.RoundHomP
  Proofs.TransposeP Proofs.KernelsP.
Import ListNotations.
Open Scope N_scope.

Definition xof_spec (cv block : list N) (bl c fl : N) (k : nat) : list N :=
  concat (map (fun i => compress_xof cv block bl (c + N.of_nat i) fl) (seq 0 k)).

Lemma seq_add_map a b : seq a b = map (fun i => (a + i)%nat) (seq 0 b).
Proof.
  revert a. induction b as [|b IH]; intros a; [reflexivity|].
  cbn [seq map]. f_equal; [lia|]. rewrite (IH (S a)), <- seq_shift, map_map.
  apply map_ext. intros i. lia.
Qed.

Lemma xof_spec_app cv block bl c fl a b :
  xof_spec cv block bl c fl (a + b) =
  xof_spec cv block bl c fl a ++ xof_spec cv block bl (c + N.of_nat a) fl b.
Proof.
  unfold xof_spec. rewrite seq_app, map_app, concat_app. f_equal. f_equal.
  cbn [Nat.add]. rewrite (seq_add_map a b), map_map. apply map_ext. intros i.
  replace (c + N.of_nat (a + i)) with (c + N.of_nat a + N.of_nat i) by lia. reflexivity.
Qed.

Lemma xof_many_loop_spec cv block bl fl : forall k c, c + N.of_nat k < 2 ^ 64 ->
  xof_many_loop compress_xof cv block bl c fl k = Ok (xof_spec cv block bl c fl k).
Proof.
  induction k as [|k IH]; intros c Hc; [reflexivity|].
  cbn [xof_many_loop]. unfold mi_add, fits. replace (c + 1 <? 2 ^ 64) with true by lia. cbn [bind].
  rewrite IH by lia. cbn [bind]. f_equal.
  change (S k) with (1 + k)%nat. rewrite xof_spec_app. f_equal.
  unfold xof_spec. cbn [seq map concat]. rewrite app_nil_r, N.add_0_r. reflexivity.
Qed.

(* C07: xof_many over the portable compress_xof writes exactly 64 * n bytes, whether or not the counter stays below 2^64 *)
Lemma xof_many_footprint cv block bl fl : length cv = 8%nat -> length block = 64%nat -> forall n ctr bs,
  xof_many_loop compress_xof cv block bl ctr fl n = Ok bs -> length bs = (64 * n)%nat.
Proof.
  intros Hcv Hb. induction n as [|n IH]; intros ctr bs H.
  - cbn in H. inversion H. reflexivity.
  - cbn [xof_many_loop] in H.
    destruct (mi_add 64 ctr 1) as [c'| |]; cbn [bind] in H; try discriminate.
    destruct (xof_many_loop compress_xof cv block bl c' fl n) as [rest| |] eqn:E; cbn [bind] in H; try discriminate.
    inversion H. rewrite app_length, (IH c' rest E).
    rewrite compress_xof_is_spec by assumption.
    rewrite bytes_of_words_length, compress_length by assumption. lia.
Qed.

(* whatever the length of block: a round reads the message below index 16 with default 0, as load_block_words does *)
Lemma round_pad s block r : (r < 7)%nat -> length s = 16%nat ->
  Portable.round s (load_block_words block) r = Portable.round s (words_of_bytes block) r.
Proof.
  intros Hr L. destruct (length16_inv s L) as (s0&s1&s2&s3&s4&s5&s6&s7&s8&s9&s10&s11&s12&s13&s14&s15&->).
  unfold load_block_words. set (W := words_of_bytes block).
  do 7 (destruct r as [|r]; [reflexivity|]). lia.
Qed.

Lemma rounds7w_pad s block : length s = 16%nat ->
  rounds7w s (load_block_words block) = rounds7w s (words_of_bytes block).
Proof.
  intros L. unfold rounds7w.
  rewrite (round_pad s block 0) by (lia || exact L).
  rewrite (round_pad _ block 1) by (lia || rewrite !round_len; exact L).
  rewrite (round_pad _ block 2) by (lia || rewrite !round_len; exact L).
  rewrite (round_pad _ block 3) by (lia || rewrite !round_len; exact L).
  rewrite (round_pad _ block 4) by (lia || rewrite !round_len; exact L).
  rewrite (round_pad _ block 5) by (lia || rewrite !round_len; exact L).
  rewrite (round_pad _ block 6) by (lia || rewrite !round_len; exact L).
  reflexivity.
Qed.

Definition store_x_ok (n : nat) (store_x : list vec -> list N) : Prop :=
  forall v, length v = 16%nat -> Forall (wf n) v ->
    store_x v = concat (map (fun i => bytes_of_words (lane i v)) (seq 0 n)).

Lemma bow_concat (L : list (list N)) : bytes_of_words (concat L) = concat (map bytes_of_words L).
Proof.
  unfold bytes_of_words. induction L as [|x L IH]; [reflexivity|].
  cbn [concat map]. rewrite flat_map_app, IH. reflexivity.
Qed.

Lemma store_x16_ok : store_x_ok 16 store_x16.
Proof.
  intros v L F. unfold store_x16. rewrite (tr_ok_512 v L F), bow_concat. reflexivity.
Qed.

Lemma store_x8_ok : store_x_ok 8 store_x8.
Proof.
  intros v L F. pose proof (cols_self 8 16 v F L) as C. unfold store_x8. cbv zeta.
  rewrite bow_concat, map_map. f_equal. apply map_ext_in. intros i Hi. apply in_seq in Hi.
  rewrite (tr_row 8 _ _ _ i tr_ok_256 (cols_firstn 8 8 16 _ _ ltac:(lia) C)), (tr_row 8 _ _ _ i tr_ok_256 (cols_skipn 8 8 16 _ _ C)) by lia.
  cbv beta. rewrite firstn_skipn. reflexivity.
Qed.

Lemma split4 {A} (v : list A) :
  v = firstn 4 v ++ firstn 4 (skipn 4 v) ++ firstn 4 (skipn 8 v) ++ skipn 12 v.
Proof.
  change (skipn 12 v) with (skipn (8 + 4) v). rewrite <- (skipn_skipn 4 8 v), firstn_skipn.
  change (skipn 8 v) with (skipn (4 + 4) v). rewrite <- (skipn_skipn 4 4 v), firstn_skipn.
  symmetry. apply firstn_skipn.
Qed.

Lemma store_x4_ok : store_x_ok 4 store_x4.
Proof.
  intros v L F. pose proof (cols_self 4 16 v F L) as C. unfold store_x4. cbv zeta.
  rewrite bow_concat, map_map. f_equal. apply map_ext_in. intros i Hi. apply in_seq in Hi.
  rewrite (tr_row 4 _ _ _ i tr_ok_128 (cols_firstn 4 4 16 _ _ ltac:(lia) C)),
          (tr_row 4 _ _ _ i tr_ok_128 (cols_firstn 4 4 12 _ _ ltac:(lia) (cols_skipn 4 4 16 _ _ C))),
          (tr_row 4 _ _ _ i tr_ok_128 (cols_firstn 4 4 8 _ _ ltac:(lia) (cols_skipn 4 8 16 _ _ C))),
          (tr_row 4 _ _ _ i tr_ok_128 (cols_skipn 4 12 16 _ _ C)) by lia.
  cbv beta. rewrite <- split4. reflexivity.
Qed.

Definition xN_ok (deg : nat) (xN : xofN_fn) : Prop :=
  forall cv block bl counter fl, length cv = 8%nat -> counter + N.of_nat deg <= 2 ^ 64 ->
    xN cv block bl counter fl = Ok (xof_spec cv block bl counter fl deg).

Theorem xofN_gen_ok n lc store_x : (0 < n)%nat -> lc_ok n lc -> store_x_ok n store_x ->
  xN_ok n (xofN_gen n lc store_x).
Proof.
  intros Hn Hlc Hst cv block bl counter fl Lcv Hc. unfold xofN_gen. cbv zeta.
  destruct (Hlc counter true Hc) as (clo & chi & -> & Wlo & Whi & Hlanes). cbn [bind]. f_equal.
  pose proof (cols_init n cv Lcv) as H0.
  pose proof (cols_vrounds7 n _ _ _ _ (cols_vstate n _ clo chi bl fl _ H0 Wlo Whi) (cols_set1 n (load_block_words block))) as R.
  destruct (cols_app n 8 8 _ _ _ _ (cols_vxor_pairs n 8 _ _ _ _ (cols_firstn n 8 16 _ _ ltac:(lia) R) (cols_skipn n 8 16 _ _ R))
              (cols_vxor_pairs n 8 _ _ _ _ (cols_skipn n 8 16 _ _ R) H0)) as (F & L & E).
  rewrite (Hst _ L F). unfold xof_spec. f_equal. apply map_ext_in. intros i Hi. apply in_seq in Hi.
  rewrite E by lia. destruct (Hlanes i ltac:(lia)) as [-> ->]. unfold lane_ctr.
  rewrite rounds7w_pad by (rewrite !app_length, Lcv; reflexivity).
  unfold compress_xof. cbv zeta. rewrite compress_pre_rounds7w. reflexivity.
Qed.

Lemma xof16_ok : xN_ok 16 xof16_avx512.
Proof. apply xofN_gen_ok; [lia|apply load_counters_andnot_ok; cbn; lia|exact store_x16_ok]. Qed.
Lemma xof8_ok : xN_ok 8 xof8_avx512.
Proof. apply xofN_gen_ok; [lia|apply load_counters_64_ok|exact store_x8_ok]. Qed.
Lemma xof4_ok : xN_ok 4 xof4_avx512.
Proof. apply xofN_gen_ok; [lia|apply load_counters_64_ok|exact store_x4_ok]. Qed.

Lemma xof1_ok cx : cx_ok cx -> xN_ok 1 (xof1 cx).
Proof.
  intros H cv block bl counter fl Lcv _. unfold xof1, xof_spec. cbn [seq map concat].
  rewrite app_nil_r, N.add_0_r, H by exact Lcv. reflexivity.
Qed.

(* an output loop followed by F, as batch_while_then; F may use that fewer than deg blocks are left *)
Lemma xof_while_then deg xN cv block bl fl : (0 < deg)%nat -> xN_ok deg xN -> length cv = 8%nat ->
  forall fuel counter outblocks (F : list N * (N * N) -> res (list N)) (G : list N -> list N),
  (N.to_nat outblocks < fuel)%nat -> counter + outblocks < 2 ^ 64 ->
  (forall o c' left, left < N.of_nat deg -> c' + left < 2 ^ 64 ->
     F (o, (c', left)) = Ok (G (o ++ xof_spec cv block bl c' fl (N.to_nat left)))) ->
  (x <- xof_while fuel deg xN cv block bl counter fl outblocks ;; F x) =
  Ok (G (xof_spec cv block bl counter fl (N.to_nat outblocks))).
Proof.
  intros Hd HX Lcv. induction fuel as [|fuel IH]; intros counter outblocks F G Hf Hc HF; [lia|].
  cbn [xof_while]. destruct (N.leb_spec (N.of_nat deg) outblocks) as [Hle|Hlt]; cbn [bind]; [|apply HF; assumption].
  rewrite (HX cv block bl counter fl Lcv), (cadd_c_ok counter (N.of_nat deg)) by lia. cbn [bind].
  set (o1 := xof_spec cv block bl counter fl deg).
  unshelve epose proof (IH (counter + N.of_nat deg) (outblocks - N.of_nat deg)
                          (fun x => F (o1 ++ fst x, snd x)) (fun x => G (o1 ++ x)) _ _ _) as E; try lia.
  - intros o c' left A B. cbn [fst snd]. rewrite HF, app_assoc by assumption. reflexivity.
  - destruct (xof_while fuel deg xN cv block bl (counter + N.of_nat deg) fl (outblocks - N.of_nat deg)) as [[o' st]| |];
      cbn [bind fst snd] in E |- *; rewrite E; unfold o1; rewrite <- xof_spec_app; do 3 f_equal; lia.
Qed.

Theorem xof_many_avx512_ok cx : cx_ok cx -> forall cv block bl ctr fl n,
  length cv = 8%nat -> ctr + n < 2 ^ 64 ->
  xof_many_avx512 cx cv block bl ctr fl n = portable_xof_many cv block bl ctr fl n.
Proof.
  intros Hcx cv block bl ctr fl n Lcv Hc. unfold portable_xof_many.
  rewrite xof_many_loop_spec by lia. unfold xof_many_avx512.
  apply (xof_while_then 16) with (G := fun x => x); [lia|exact xof16_ok|exact Lcv|lia|exact Hc|].
  intros o16 c1 n1 A1 B1. cbv beta iota.
  apply (xof_while_then 8) with (G := fun x => o16 ++ x); [lia|exact xof8_ok|exact Lcv|lia|exact B1|].
  intros o8 c2 n2 A2 B2. cbv beta iota.
  apply (xof_while_then 4) with (G := fun x => o16 ++ o8 ++ x); [lia|exact xof4_ok|exact Lcv|lia|exact B2|].
  intros o4 c3 n3 A3 B3. cbv beta iota.
  apply (xof_while_then 1) with (G := fun x => o16 ++ o8 ++ o4 ++ x); [lia|exact (xof1_ok cx Hcx)|exact Lcv|lia|exact B3|].
  intros o1 c4 n4 A4 B4. cbv beta iota.
  replace (N.to_nat n4) with 0%nat by lia. unfold xof_spec. cbn [seq map concat]. rewrite app_nil_r. reflexivity.
Qed.

Theorem xof_many_avx512_rs_ok cx : cx_ok cx -> forall cv block bl ctr fl n,
  length cv = 8%nat -> ctr + n < 2 ^ 64 ->
  xof_many_avx512_rs cx cv block bl ctr fl n = portable_xof_many cv block bl ctr fl n.
Proof.
  intros Hcx cv block bl ctr fl n Lcv Hc. unfold xof_many_avx512_rs.
  destruct (N.eqb_spec n 0) as [->|_]; [reflexivity|]. apply xof_many_avx512_ok; assumption.
Qed.
