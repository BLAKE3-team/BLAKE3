(* The vector round function and the register transposes as TRANSLATED from the sources
   (gen/GenRounds.v, terms over Model/Intrinsics.v) equal the hand-written models of Model/Kernels.v
   (`vround` = round_src on vectors, `transpose_vecs_128/256/512`), on which Proofs/KernelsP.v builds
   (vround_lane: lane i of vround is the portable round; transpose_vecs_*_ok of Proofs/TransposeP.v: a true transpose).
   Everything is symbolic: registers, message vectors and the round number are variables.
   Unconditional (any lists): the Rust files (srli/slli/or) and blake3_avx512.c (ror).
   For registers of 32-bit lanes (`reg n`): blake3_sse2.c, blake3_sse41.c, blake3_avx2.c, whose rotations
   are byte / 16-bit shuffles and (the two SSE files) srli/slli/XOR. *)
From Coq Require Import NArith ZArith List Bool Arith Lia.
From V Require Import Base.Res Base.Word gen.GenConsts Model.Portable Model.Kernels Model.Intrinsics gen.GenRounds
  Proofs.ListP Proofs.WordP Proofs.RoundHomP Proofs.KernelsP Proofs.CountersP.
Import ListNotations.
Open Scope N_scope.

(* a 32-bit word: what the lanes of `reg` / `regz` below, of BlendP.lanes32 (= reg 4) and of Props/C05.v C05_reg are *)
Definition W (x : N) : Prop := x < 4294967296.

Lemma testbit_high x n : W x -> 32 <= n -> N.testbit x n = false.
Proof. intros Hx. exact (proj1 (lt_pow2_bits x 32) Hx n). Qed.
Lemma testbit_shiftl a k n : N.testbit (N.shiftl a k) n = if n <? k then false else N.testbit a (n - k).
Proof.
  destruct (N.ltb_spec n k) as [L|L]; [apply N.shiftl_spec_low, L|apply N.shiftl_spec_high', L].
Qed.
Lemma testbit_ones k n : N.testbit (N.ones k) n = (n <? k).
Proof.
  destruct (N.ltb_spec n k) as [L|L]; [apply N.ones_spec_low, L|apply N.ones_spec_high, L].
Qed.

(* push testbit through the bitwise operations; then decide the comparisons by lia in each range *)
Ltac bb_push :=
  repeat first [ rewrite N.lor_spec | rewrite N.land_spec | rewrite N.lxor_spec | rewrite N.shiftr_spec'
               | rewrite testbit_shiftl | rewrite testbit_ones ].
Ltac bb_cmp :=
  repeat match goal with
  | |- context [?a <? ?b] =>
      first [ replace (a <? b) with true by (symmetry; apply N.ltb_lt; lia)
            | replace (a <? b) with false by (symmetry; apply N.ltb_ge; lia) ]
  end.
Ltac bb_high :=
  repeat match goal with
  | H : W ?x |- context [N.testbit ?x ?e] => rewrite (testbit_high x e H) by lia
  end.
Ltac bb_bool :=
  rewrite ?andb_true_r, ?andb_false_r, ?orb_false_r, ?orb_true_r, ?xorb_false_r, ?andb_true_l, ?andb_false_l,
          ?orb_false_l, ?xorb_false_l.
Ltac bb_eq :=
  lazymatch goal with
  | |- N.testbit ?x ?a = N.testbit ?x ?b => f_equal; lia
  | |- orb _ _ = orb _ _ => f_equal; bb_eq
  | |- andb _ _ = andb _ _ => f_equal; bb_eq
  | |- xorb _ _ = xorb _ _ => f_equal; bb_eq
  | |- _ => reflexivity
  end.
Ltac bb_fin := bb_cmp; cbv iota; bb_high; bb_bool; bb_eq.
Ltac bb_consts :=
  unfold rotr32, w32, mask32, byte_n, word_of_bytes4;
  change 4294967295 with (N.ones 32); change 65535 with (N.ones 16); change 255 with (N.ones 8).
(* split the bit index n at the given bounds, then finish each range *)
Ltac bb_split n bounds :=
  lazymatch bounds with
  | nil => bb_fin
  | cons ?b ?tl => destruct (N.lt_ge_cases n b); [bb_fin | bb_split n tl]
  end.
Ltac bitblast bounds :=
  apply N.bits_inj; let n := fresh "n" in intros n; bb_consts; bb_push; bb_split n bounds.

Lemma W_w32 x : W (w32 x).
Proof. apply w32_lt. Qed.
Lemma W_lor a b : W a -> W b -> W (N.lor a b).
Proof. exact (lor_lt_pow2 a b 32). Qed.
Lemma W_lxor a b : W a -> W b -> W (N.lxor a b).
Proof. exact (lxor_lt_pow2 a b 32). Qed.
Lemma W_rotr32 x r : W x -> W (rotr32 x r).
Proof. exact (rotr32_lt x r). Qed.

(* (x >> k) ^ (x << (32 - k)) = (x >> k) | (x << (32 - k)): the two parts have no common bit *)
Lemma rot_xor x k : W x -> 0 < k < 32 ->
  N.lxor (N.shiftr x k) (w32 (N.shiftl x (32 - k))) = rotr32 x k.
Proof.
  intros Hx Hk. bitblast [32 - k; 32].
Qed.
Lemma rot16_bytes x : W x ->
  word_of_bytes4 (byte_n x 2) (byte_n x 3) (byte_n x 0) (byte_n x 1) = rotr32 x 16.
Proof. intros Hx. bitblast [8; 16; 24; 32]. Qed.
Lemma rot8_bytes x : W x ->
  word_of_bytes4 (byte_n x 1) (byte_n x 2) (byte_n x 3) (byte_n x 0) = rotr32 x 8.
Proof. intros Hx. bitblast [8; 16; 24; 32]. Qed.

(* a register of n lanes: what an __m128i / __m256i / __m512i is (n = 4 / 8 / 16) *)
Definition reg (n : nat) (x : vec) : Prop := length x = n /\ Forall W x.
(* ... or the default value [] of an out-of-range read (nth _ m []), on which every
   lane-wise operation, model and translation alike, returns [] *)
Definition regz (n : nat) (x : vec) : Prop := Forall W x /\ (length x = n \/ x = []).

Lemma reg_regz n x : reg n x -> regz n x.
Proof. intros [L F]. split; [exact F|left; exact L]. Qed.
Lemma regz_nil n : regz n [].
Proof. split; [constructor|right; reflexivity]. Qed.

Lemma vmap2_nil_r f a : vmap2 f a [] = [].
Proof. unfold vmap2. destruct a; reflexivity. Qed.
Lemma vmap2_shape n f a b : (length a = n \/ a = []) -> (length b = n \/ b = []) ->
  length (vmap2 f a b) = n \/ vmap2 f a b = [].
Proof.
  intros [La| ->] [Lb| ->]; [left|right|right|right]; try reflexivity; try apply vmap2_nil_r.
  unfold vmap2. rewrite map_length, combine_length, La, Lb. apply Nat.min_id.
Qed.
Lemma vmap2_W f a b : (forall x y, In x a -> In y b -> W (f x y)) -> Forall W (vmap2 f a b).
Proof.
  intros H. unfold vmap2. apply Forall_forall. intros z Hz. apply in_map_iff in Hz.
  destruct Hz as ([x y] & <- & Hin). apply H; [eapply in_combine_l|eapply in_combine_r]; exact Hin.
Qed.
Lemma regz_vadd n a b : regz n a -> regz n b -> regz n (vadd a b).
Proof.
  intros [_ Sa] [_ Sb]. split; [|apply vmap2_shape; assumption].
  apply vmap2_W. intros. apply W_w32.
Qed.
Lemma regz_vxor n a b : regz n a -> regz n b -> regz n (vxor a b).
Proof.
  intros [Wa Sa] [Wb Sb]. split; [|apply vmap2_shape; assumption].
  apply vmap2_W. intros x y Hx Hy. rewrite Forall_forall in Wa, Wb. apply W_lxor; [apply Wa, Hx|apply Wb, Hy].
Qed.
Lemma regz_vrot n a r : regz n a -> regz n (vrot a r).
Proof.
  intros [Wa Sa]. split.
  - unfold vrot. apply Forall_forall. intros z Hz. apply in_map_iff in Hz. destruct Hz as (x & <- & Hx).
    rewrite Forall_forall in Wa. apply W_rotr32, Wa, Hx.
  - destruct Sa as [L| ->]; [left; unfold vrot; rewrite map_length; exact L|right; reflexivity].
Qed.
Lemma regz_mw n m r k : Forall (regz n) m -> regz n (mw [] m r k).
Proof.
  intros H. unfold mw. apply (nth_Forall (regz n)); [exact H|apply regz_nil].
Qed.
(* the C table is the Rust table *)
Lemma c_mw_mw m r k : c_mw m r k = mw [] m r k.
Proof. reflexivity. Qed.

(* (x >> k) | (x << (32 - k)): srli / slli / or, any register *)
Lemma rot_or_ok (k : N) (ks kl : Z) a : (0 < k < 32) -> imm8 ks = k -> imm8 kl = 32 - k ->
  vmap2 N.lor (map (srl32 (imm8 ks)) a) (map (sll32 (imm8 kl)) a) = vrot a k.
Proof.
  intros Hk -> ->. rewrite vmap2_maps. unfold vrot. apply map_ext. intros x.
  unfold srl32, sll32, rotr32.
  replace (31 <? k) with false by (symmetry; apply N.ltb_ge; lia).
  replace (31 <? 32 - k) with false by (symmetry; apply N.ltb_ge; lia). reflexivity.
Qed.
(* (x >> k) ^ (x << (32 - k)): srli / slli / xor, registers of 32-bit lanes *)
Lemma rot_xor_ok (k : N) (ks kl : Z) a : (0 < k < 32) -> imm8 ks = k -> imm8 kl = 32 - k -> Forall W a ->
  vxor (map (srl32 (imm8 ks)) a) (map (sll32 (imm8 kl)) a) = vrot a k.
Proof.
  intros Hk -> -> Ha. unfold vxor. rewrite vmap2_maps. unfold vrot. apply map_ext_in. intros x Hx.
  rewrite Forall_forall in Ha. unfold srl32, sll32, xor32.
  replace (31 <? k) with false by (symmetry; apply N.ltb_ge; lia).
  replace (31 <? 32 - k) with false by (symmetry; apply N.ltb_ge; lia).
  apply rot_xor; [apply Ha, Hx|exact Hk].
Qed.
(* _mm*_ror_epi32 *)
Lemma ror_ok (k : N) (kz : Z) a : imm8 kz = k -> k < 32 -> map (ror32 (imm8 kz)) a = vrot a k.
Proof.
  intros -> Hk. unfold vrot. apply map_ext. intros x. unfold ror32, rotr32. cbv zeta.
  rewrite N.mod_small by exact Hk. reflexivity.
Qed.

(* _mm_shuffle_epi8 / _mm256_shuffle_epi8 with the two index constants of the sources, on abstract bytes *)
Lemma pshufb_rot16_128 (x0 x1 x2 x3 x4 x5 x6 x7 x8 x9 x10 x11 x12 x13 x14 x15 : N) :
  pshufb [x0; x1; x2; x3; x4; x5; x6; x7; x8; x9; x10; x11; x12; x13; x14; x15]
         [2; 3; 0; 1; 6; 7; 4; 5; 10; 11; 8; 9; 14; 15; 12; 13] =
  [x2; x3; x0; x1; x6; x7; x4; x5; x10; x11; x8; x9; x14; x15; x12; x13].
Proof. reflexivity. Qed.
Lemma pshufb_rot8_128 (x0 x1 x2 x3 x4 x5 x6 x7 x8 x9 x10 x11 x12 x13 x14 x15 : N) :
  pshufb [x0; x1; x2; x3; x4; x5; x6; x7; x8; x9; x10; x11; x12; x13; x14; x15]
         [1; 2; 3; 0; 5; 6; 7; 4; 9; 10; 11; 8; 13; 14; 15; 12] =
  [x1; x2; x3; x0; x5; x6; x7; x4; x9; x10; x11; x8; x13; x14; x15; x12].
Proof. reflexivity. Qed.
Lemma pshufb_rot16_256 (x0 x1 x2 x3 x4 x5 x6 x7 x8 x9 x10 x11 x12 x13 x14 x15 x16 x17 x18 x19 x20 x21 x22 x23 x24 x25 x26 x27 x28 x29 x30 x31 : N) :
  pshufb [x0; x1; x2; x3; x4; x5; x6; x7; x8; x9; x10; x11; x12; x13; x14; x15; x16; x17; x18; x19; x20; x21; x22; x23; x24; x25; x26; x27; x28; x29; x30; x31]
         [2; 3; 0; 1; 6; 7; 4; 5; 10; 11; 8; 9; 14; 15; 12; 13; 2; 3; 0; 1; 6; 7; 4; 5; 10; 11; 8; 9; 14; 15; 12; 13] =
  [x2; x3; x0; x1; x6; x7; x4; x5; x10; x11; x8; x9; x14; x15; x12; x13; x18; x19; x16; x17; x22; x23; x20; x21; x26; x27; x24; x25; x30; x31; x28; x29].
Proof. reflexivity. Qed.
Lemma pshufb_rot8_256 (x0 x1 x2 x3 x4 x5 x6 x7 x8 x9 x10 x11 x12 x13 x14 x15 x16 x17 x18 x19 x20 x21 x22 x23 x24 x25 x26 x27 x28 x29 x30 x31 : N) :
  pshufb [x0; x1; x2; x3; x4; x5; x6; x7; x8; x9; x10; x11; x12; x13; x14; x15; x16; x17; x18; x19; x20; x21; x22; x23; x24; x25; x26; x27; x28; x29; x30; x31]
         [1; 2; 3; 0; 5; 6; 7; 4; 9; 10; 11; 8; 13; 14; 15; 12; 1; 2; 3; 0; 5; 6; 7; 4; 9; 10; 11; 8; 13; 14; 15; 12] =
  [x1; x2; x3; x0; x5; x6; x7; x4; x9; x10; x11; x8; x13; x14; x15; x12; x17; x18; x19; x16; x21; x22; x23; x20; x25; x26; x27; x24; x29; x30; x31; x28].
Proof. reflexivity. Qed.

Ltac lanes_of x n H :=
  let rec go x n := lazymatch n with
    | O => destruct x; [|discriminate H]
    | S ?n' => destruct x as [|? x]; [discriminate H|go x n'] end in go x n.

Ltac forall_inv :=
  repeat match goal with
  | H : Forall _ (_ :: _) |- _ => apply Forall_cons_iff in H; let H1 := fresh "HW" in destruct H as [H1 H]
  end.

Lemma shuffle8_rot16_128 x c : regz 4 x ->
  to8 c = [2; 3; 0; 1; 6; 7; 4; 5; 10; 11; 8; 9; 14; 15; 12; 13] -> mm_shuffle_epi8 x c = vrot x 16.
Proof.
  intros [HW [HL| ->]] Hc; [|reflexivity]. lanes_of x 4%nat HL. forall_inv.
  unfold mm_shuffle_epi8. rewrite Hc. cbn [to8 bytes_of_words flat_map bytes_of_word app].
  rewrite pshufb_rot16_128. cbn [of8 words_of_bytes vrot map]. rewrite !rot16_bytes by assumption. reflexivity.
Qed.
Lemma shuffle8_rot8_128 x c : regz 4 x ->
  to8 c = [1; 2; 3; 0; 5; 6; 7; 4; 9; 10; 11; 8; 13; 14; 15; 12] -> mm_shuffle_epi8 x c = vrot x 8.
Proof.
  intros [HW [HL| ->]] Hc; [|reflexivity]. lanes_of x 4%nat HL. forall_inv.
  unfold mm_shuffle_epi8. rewrite Hc. cbn [to8 bytes_of_words flat_map bytes_of_word app].
  rewrite pshufb_rot8_128. cbn [of8 words_of_bytes vrot map]. rewrite !rot8_bytes by assumption. reflexivity.
Qed.
Lemma shuffle8_rot16_256 x c : regz 8 x ->
  to8 c = [2; 3; 0; 1; 6; 7; 4; 5; 10; 11; 8; 9; 14; 15; 12; 13; 2; 3; 0; 1; 6; 7; 4; 5; 10; 11; 8; 9; 14; 15; 12; 13] ->
  mm256_shuffle_epi8 x c = vrot x 16.
Proof.
  intros [HW [HL| ->]] Hc; [|reflexivity]. lanes_of x 8%nat HL. forall_inv.
  unfold mm256_shuffle_epi8. rewrite Hc. cbn [to8 bytes_of_words flat_map bytes_of_word app].
  rewrite pshufb_rot16_256. cbn [of8 words_of_bytes vrot map]. rewrite !rot16_bytes by assumption. reflexivity.
Qed.
Lemma shuffle8_rot8_256 x c : regz 8 x ->
  to8 c = [1; 2; 3; 0; 5; 6; 7; 4; 9; 10; 11; 8; 13; 14; 15; 12; 1; 2; 3; 0; 5; 6; 7; 4; 9; 10; 11; 8; 13; 14; 15; 12] ->
  mm256_shuffle_epi8 x c = vrot x 8.
Proof.
  intros [HW [HL| ->]] Hc; [|reflexivity]. lanes_of x 8%nat HL. forall_inv.
  unfold mm256_shuffle_epi8. rewrite Hc. cbn [to8 bytes_of_words flat_map bytes_of_word app].
  rewrite pshufb_rot8_256. cbn [of8 words_of_bytes vrot map]. rewrite !rot8_bytes by assumption. reflexivity.
Qed.
(* _mm_shufflehi_epi16(_mm_shufflelo_epi16(x, 0xB1), 0xB1): the lanes 0, 1 are swapped by the first shuffle and
   copied by the second, the lanes 2, 3 the other way round *)
Lemma rot16_halves_lo x : W x ->
  N.lor (N.land (N.lor (N.land (N.shiftr x 16) 65535) (N.shiftl (N.land x 65535) 16)) 65535)
        (N.shiftl (N.land (N.shiftr (N.lor (N.land (N.shiftr x 16) 65535) (N.shiftl (N.land x 65535) 16)) 16) 65535) 16)
  = rotr32 x 16.
Proof. intros Hx. bitblast [16; 32]. Qed.
Lemma rot16_halves_hi x : W x ->
  N.lor (N.land (N.shiftr (N.lor (N.land x 65535) (N.shiftl (N.land (N.shiftr x 16) 65535) 16)) 16) 65535)
        (N.shiftl (N.land (N.lor (N.land x 65535) (N.shiftl (N.land (N.shiftr x 16) 65535) 16)) 65535) 16)
  = rotr32 x 16.
Proof. intros Hx. bitblast [16; 32]. Qed.

Lemma shuffle16_rot16 x : regz 4 x -> mm_shufflehi_epi16 (mm_shufflelo_epi16 x 0xb1%Z) 0xb1%Z = vrot x 16.
Proof.
  intros [HW [HL| ->]]; [|reflexivity]. lanes_of x 4%nat HL. forall_inv.
  unfold mm_shufflehi_epi16, mm_shufflelo_epi16.
  change (imm8 177) with 177.
  cbn [to16 flat_map app shuflo16 shufhi16]. cbv zeta.
  change (sel2 177 0) with 1%nat. change (sel2 177 1) with 0%nat.
  change (sel2 177 2) with 3%nat. change (sel2 177 3) with 2%nat.
  cbn [to16 flat_map app nth of16 shuflo16 shufhi16 vrot map]. cbv zeta.
  change (sel2 177 0) with 1%nat. change (sel2 177 1) with 0%nat.
  change (sel2 177 2) with 3%nat. change (sel2 177 3) with 2%nat.
  cbn [nth of16].
  rewrite !rot16_halves_lo, !rot16_halves_hi by assumption. reflexivity.
Qed.

Lemma reg_vadd n a b : reg n a -> reg n b -> reg n (vadd a b).
Proof.
  intros [La Wa] [Lb Wb]. split; [unfold vadd, vmap2; rewrite map_length, combine_length, La, Lb; apply Nat.min_id|].
  apply vmap2_W. intros. apply W_w32.
Qed.
Lemma reg_vxor n a b : reg n a -> reg n b -> reg n (vxor a b).
Proof.
  intros [La Wa] [Lb Wb]. split; [unfold vxor, vmap2; rewrite map_length, combine_length, La, Lb; apply Nat.min_id|].
  apply vmap2_W. intros x y Hx Hy. rewrite Forall_forall in Wa, Wb. apply W_lxor; [apply Wa, Hx|apply Wb, Hy].
Qed.
Lemma reg_vrot n a k : reg n a -> reg n (vrot a k).
Proof.
  intros [La Wa]. split; [unfold vrot; rewrite map_length; exact La|].
  unfold vrot. apply Forall_forall. intros z Hz. apply in_map_iff in Hz. destruct Hz as (x & <- & Hx).
  rewrite Forall_forall in Wa. apply W_rotr32, Wa, Hx.
Qed.

Lemma Forall_reg_regz n l : Forall (reg n) l -> Forall (regz n) l.
Proof. apply Forall_impl. intros x. apply reg_regz. Qed.

(* the rotation helpers of a file, as one function of the amount.  A generated round (112 `let`s) is CONVERTIBLE with
   round_src over the file's add, xor and rot4 of its four rotN: the theorems about the generated rounds below are
   `exact` / `refine` of translated_round(_any), which speaks of round_src.  That conversion is the whole tie to the
   source text: a changed index or rotation amount in a source file breaks it, and nothing else *)
Definition rot4 (r16 r12 r8 r7 : vec -> vec) (x : vec) (k : N) : vec :=
  match k with 16 => r16 x | 12 => r12 x | 8 => r8 x | 7 => r7 x | _ => x end.

(* P: the registers on which the file's rotations are the model's (all lists, or 32-bit lanes) *)
Section TranslatedRound.
  Variables (P : vec -> Prop) (r16 r12 r8 r7 : vec -> vec).
  Hypothesis Padd : forall a b, P a -> P b -> P (vadd a b).
  Hypothesis Pxor : forall a b, P a -> P b -> P (vxor a b).
  Hypothesis Prot : forall a k, P a -> P (vrot a k).
  Hypothesis Hrots : forall x, P x -> r16 x = vrot x 16 /\ r12 x = vrot x 12 /\ r8 x = vrot x 8 /\ r7 x = vrot x 7.

  Lemma translated_round v m r : Forall P v -> (forall k, P (mw [] m r k)) ->
    Forall P (vround v m r) /\ round_src vadd vxor (rot4 r16 r12 r8 r7) [] v m r = vround v m r.
  Proof.
    apply round_src_ext.
    - intros a b Pa Pb. split; [apply Padd; assumption|reflexivity].
    - intros a b Pa Pb. split; [apply Pxor; assumption|reflexivity].
    - intros a k Hk Pa. split; [apply Prot, Pa|]. destruct (Hrots a Pa) as (E16 & E12 & E8 & E7).
      cbn [In] in Hk. destruct Hk as [<-|[<-|[<-|[<-|[]]]]]; assumption.
  Qed.
End TranslatedRound.

(* the model round keeps registers of 32-bit lanes (so the conditional equalities chain over the rounds) *)
Lemma vround_regz n v m r : Forall (regz n) v -> Forall (regz n) m -> Forall (regz n) (vround v m r).
Proof.
  intros Hv Hm.
  apply (translated_round (regz n) (fun x => vrot x 16) (fun x => vrot x 12) (fun x => vrot x 8) (fun x => vrot x 7));
    auto using regz_vadd, regz_vxor, regz_vrot, regz_mw.
Qed.
Lemma vround_length v m r : length (vround v m r) = length v.
Proof. apply round_src_length. Qed.

Lemma translated_round_any (r16 r12 r8 r7 : vec -> vec) :
  (forall x, r16 x = vrot x 16) -> (forall x, r12 x = vrot x 12) -> (forall x, r8 x = vrot x 8) -> (forall x, r7 x = vrot x 7) ->
  forall v m r, round_src vadd vxor (rot4 r16 r12 r8 r7) [] v m r = vround v m r.
Proof.
  intros E16 E12 E8 E7 v m r.
  apply (translated_round (fun _ => True) r16 r12 r8 r7); auto. apply Forall_forall. auto.
Qed.

(* src/rust_sse2.rs, src/rust_sse41.rs, src/rust_avx2.rs: rotN = (x >> N) | (x << (32 - N)) *)
Lemma rs_sse2_rot16_ok a : rs_sse2_rot16 a = vrot a 16.
Proof. apply (rot_or_ok 16); [lia|reflexivity|reflexivity]. Qed.
Lemma rs_sse2_rot12_ok a : rs_sse2_rot12 a = vrot a 12.
Proof. apply (rot_or_ok 12); [lia|reflexivity|reflexivity]. Qed.
Lemma rs_sse2_rot8_ok a : rs_sse2_rot8 a = vrot a 8.
Proof. apply (rot_or_ok 8); [lia|reflexivity|reflexivity]. Qed.
Lemma rs_sse2_rot7_ok a : rs_sse2_rot7 a = vrot a 7.
Proof. apply (rot_or_ok 7); [lia|reflexivity|reflexivity]. Qed.
Theorem rs_sse2_round_ok v m r : rs_sse2_round v m r = vround v m r.
Proof.
  exact (translated_round_any _ _ _ _ rs_sse2_rot16_ok rs_sse2_rot12_ok rs_sse2_rot8_ok rs_sse2_rot7_ok v m r).
Qed.

Lemma rs_sse41_rot16_ok a : rs_sse41_rot16 a = vrot a 16.
Proof. apply (rot_or_ok 16); [lia|reflexivity|reflexivity]. Qed.
Lemma rs_sse41_rot12_ok a : rs_sse41_rot12 a = vrot a 12.
Proof. apply (rot_or_ok 12); [lia|reflexivity|reflexivity]. Qed.
Lemma rs_sse41_rot8_ok a : rs_sse41_rot8 a = vrot a 8.
Proof. apply (rot_or_ok 8); [lia|reflexivity|reflexivity]. Qed.
Lemma rs_sse41_rot7_ok a : rs_sse41_rot7 a = vrot a 7.
Proof. apply (rot_or_ok 7); [lia|reflexivity|reflexivity]. Qed.
Theorem rs_sse41_round_ok v m r : rs_sse41_round v m r = vround v m r.
Proof.
  exact (translated_round_any _ _ _ _ rs_sse41_rot16_ok rs_sse41_rot12_ok rs_sse41_rot8_ok rs_sse41_rot7_ok v m r).
Qed.

Lemma rs_avx2_rot16_ok a : rs_avx2_rot16 a = vrot a 16.
Proof. apply (rot_or_ok 16); [lia|reflexivity|reflexivity]. Qed.
Lemma rs_avx2_rot12_ok a : rs_avx2_rot12 a = vrot a 12.
Proof. apply (rot_or_ok 12); [lia|reflexivity|reflexivity]. Qed.
Lemma rs_avx2_rot8_ok a : rs_avx2_rot8 a = vrot a 8.
Proof. apply (rot_or_ok 8); [lia|reflexivity|reflexivity]. Qed.
Lemma rs_avx2_rot7_ok a : rs_avx2_rot7 a = vrot a 7.
Proof. apply (rot_or_ok 7); [lia|reflexivity|reflexivity]. Qed.
Theorem rs_avx2_round_ok v m r : rs_avx2_round v m r = vround v m r.
Proof.
  exact (translated_round_any _ _ _ _ rs_avx2_rot16_ok rs_avx2_rot12_ok rs_avx2_rot8_ok rs_avx2_rot7_ok v m r).
Qed.

(* c/blake3_avx512.c: rotN = _mm*_ror_epi32(x, N) *)
Lemma c_avx512_rot16_128_ok a : c_avx512_rot16_128 a = vrot a 16.
Proof. apply (ror_ok 16); [reflexivity|lia]. Qed.
Lemma c_avx512_rot12_128_ok a : c_avx512_rot12_128 a = vrot a 12.
Proof. apply (ror_ok 12); [reflexivity|lia]. Qed.
Lemma c_avx512_rot8_128_ok a : c_avx512_rot8_128 a = vrot a 8.
Proof. apply (ror_ok 8); [reflexivity|lia]. Qed.
Lemma c_avx512_rot7_128_ok a : c_avx512_rot7_128 a = vrot a 7.
Proof. apply (ror_ok 7); [reflexivity|lia]. Qed.
Theorem c_avx512_round_fn4_ok v m r : c_avx512_round_fn4 v m r = vround v m r.
Proof.
  exact (translated_round_any _ _ _ _ c_avx512_rot16_128_ok c_avx512_rot12_128_ok c_avx512_rot8_128_ok c_avx512_rot7_128_ok v m r).
Qed.

Lemma c_avx512_rot16_256_ok a : c_avx512_rot16_256 a = vrot a 16.
Proof. apply (ror_ok 16); [reflexivity|lia]. Qed.
Lemma c_avx512_rot12_256_ok a : c_avx512_rot12_256 a = vrot a 12.
Proof. apply (ror_ok 12); [reflexivity|lia]. Qed.
Lemma c_avx512_rot8_256_ok a : c_avx512_rot8_256 a = vrot a 8.
Proof. apply (ror_ok 8); [reflexivity|lia]. Qed.
Lemma c_avx512_rot7_256_ok a : c_avx512_rot7_256 a = vrot a 7.
Proof. apply (ror_ok 7); [reflexivity|lia]. Qed.
Theorem c_avx512_round_fn8_ok v m r : c_avx512_round_fn8 v m r = vround v m r.
Proof.
  exact (translated_round_any _ _ _ _ c_avx512_rot16_256_ok c_avx512_rot12_256_ok c_avx512_rot8_256_ok c_avx512_rot7_256_ok v m r).
Qed.

Lemma c_avx512_rot16_512_ok a : c_avx512_rot16_512 a = vrot a 16.
Proof. apply (ror_ok 16); [reflexivity|lia]. Qed.
Lemma c_avx512_rot12_512_ok a : c_avx512_rot12_512 a = vrot a 12.
Proof. apply (ror_ok 12); [reflexivity|lia]. Qed.
Lemma c_avx512_rot8_512_ok a : c_avx512_rot8_512 a = vrot a 8.
Proof. apply (ror_ok 8); [reflexivity|lia]. Qed.
Lemma c_avx512_rot7_512_ok a : c_avx512_rot7_512 a = vrot a 7.
Proof. apply (ror_ok 7); [reflexivity|lia]. Qed.
Theorem c_avx512_round_fn16_ok v m r : c_avx512_round_fn16 v m r = vround v m r.
Proof.
  exact (translated_round_any _ _ _ _ c_avx512_rot16_512_ok c_avx512_rot12_512_ok c_avx512_rot8_512_ok c_avx512_rot7_512_ok v m r).
Qed.

(* c/blake3_sse2.c: rot16 = shufflehi(shufflelo(x, 0xB1), 0xB1), rot12/8/7 = (x >> N) ^ (x << (32 - N)) *)
Lemma c_sse2_rot16_ok x : regz 4 x -> c_sse2_rot16 x = vrot x 16.
Proof. apply shuffle16_rot16. Qed.
Lemma c_sse2_rot12_ok x : regz 4 x -> c_sse2_rot12 x = vrot x 12.
Proof. intros [H _]. apply (rot_xor_ok 12); [lia|reflexivity|reflexivity|exact H]. Qed.
Lemma c_sse2_rot8_ok x : regz 4 x -> c_sse2_rot8 x = vrot x 8.
Proof. intros [H _]. apply (rot_xor_ok 8); [lia|reflexivity|reflexivity|exact H]. Qed.
Lemma c_sse2_rot7_ok x : regz 4 x -> c_sse2_rot7 x = vrot x 7.
Proof. intros [H _]. apply (rot_xor_ok 7); [lia|reflexivity|reflexivity|exact H]. Qed.
Theorem c_sse2_round_fn_regz v m r : Forall (regz 4) v -> Forall (regz 4) m -> c_sse2_round_fn v m r = vround v m r.
Proof.
  intros Hv Hm.
  refine (proj2 (translated_round (regz 4) c_sse2_rot16 c_sse2_rot12 c_sse2_rot8 c_sse2_rot7 (regz_vadd 4) (regz_vxor 4) (regz_vrot 4) _
                  v m r Hv (fun k => regz_mw 4 m r k Hm))).
  intros x Hx. auto using c_sse2_rot16_ok, c_sse2_rot12_ok, c_sse2_rot8_ok, c_sse2_rot7_ok.
Qed.
Theorem c_sse2_round_fn_ok v m r : Forall (reg 4) v -> Forall (reg 4) m -> c_sse2_round_fn v m r = vround v m r.
Proof. intros Hv Hm. apply c_sse2_round_fn_regz; apply Forall_reg_regz; assumption. Qed.

(* c/blake3_sse41.c: rot16, rot8 = _mm_shuffle_epi8 with a constant, rot12/7 = (x >> N) ^ (x << (32 - N)) *)
Lemma c_sse41_rot16_ok x : regz 4 x -> c_sse41_rot16 x = vrot x 16.
Proof. intros H. apply shuffle8_rot16_128; [exact H|vm_compute; reflexivity]. Qed.
Lemma c_sse41_rot12_ok x : regz 4 x -> c_sse41_rot12 x = vrot x 12.
Proof. intros [H _]. apply (rot_xor_ok 12); [lia|reflexivity|reflexivity|exact H]. Qed.
Lemma c_sse41_rot8_ok x : regz 4 x -> c_sse41_rot8 x = vrot x 8.
Proof. intros H. apply shuffle8_rot8_128; [exact H|vm_compute; reflexivity]. Qed.
Lemma c_sse41_rot7_ok x : regz 4 x -> c_sse41_rot7 x = vrot x 7.
Proof. intros [H _]. apply (rot_xor_ok 7); [lia|reflexivity|reflexivity|exact H]. Qed.
Theorem c_sse41_round_fn_regz v m r : Forall (regz 4) v -> Forall (regz 4) m -> c_sse41_round_fn v m r = vround v m r.
Proof.
  intros Hv Hm.
  refine (proj2 (translated_round (regz 4) c_sse41_rot16 c_sse41_rot12 c_sse41_rot8 c_sse41_rot7 (regz_vadd 4) (regz_vxor 4) (regz_vrot 4) _
                  v m r Hv (fun k => regz_mw 4 m r k Hm))).
  intros x Hx. auto using c_sse41_rot16_ok, c_sse41_rot12_ok, c_sse41_rot8_ok, c_sse41_rot7_ok.
Qed.
Theorem c_sse41_round_fn_ok v m r : Forall (reg 4) v -> Forall (reg 4) m -> c_sse41_round_fn v m r = vround v m r.
Proof. intros Hv Hm. apply c_sse41_round_fn_regz; apply Forall_reg_regz; assumption. Qed.

(* c/blake3_avx2.c: rot16, rot8 = _mm256_shuffle_epi8 with a constant, rot12/7 = (x >> N) | (x << (32 - N)) *)
Lemma c_avx2_rot16_ok x : regz 8 x -> c_avx2_rot16 x = vrot x 16.
Proof. intros H. apply shuffle8_rot16_256; [exact H|vm_compute; reflexivity]. Qed.
Lemma c_avx2_rot12_ok x : regz 8 x -> c_avx2_rot12 x = vrot x 12.
Proof. intros _. apply (rot_or_ok 12); [lia|reflexivity|reflexivity]. Qed.
Lemma c_avx2_rot8_ok x : regz 8 x -> c_avx2_rot8 x = vrot x 8.
Proof. intros H. apply shuffle8_rot8_256; [exact H|vm_compute; reflexivity]. Qed.
Lemma c_avx2_rot7_ok x : regz 8 x -> c_avx2_rot7 x = vrot x 7.
Proof. intros _. apply (rot_or_ok 7); [lia|reflexivity|reflexivity]. Qed.
Theorem c_avx2_round_fn_regz v m r : Forall (regz 8) v -> Forall (regz 8) m -> c_avx2_round_fn v m r = vround v m r.
Proof.
  intros Hv Hm.
  refine (proj2 (translated_round (regz 8) c_avx2_rot16 c_avx2_rot12 c_avx2_rot8 c_avx2_rot7 (regz_vadd 8) (regz_vxor 8) (regz_vrot 8) _
                  v m r Hv (fun k => regz_mw 8 m r k Hm))).
  intros x Hx. auto using c_avx2_rot16_ok, c_avx2_rot12_ok, c_avx2_rot8_ok, c_avx2_rot7_ok.
Qed.
Theorem c_avx2_round_fn_ok v m r : Forall (reg 8) v -> Forall (reg 8) m -> c_avx2_round_fn v m r = vround v m r.
Proof. intros Hv Hm. apply c_avx2_round_fn_regz; apply Forall_reg_regz; assumption. Qed.

Lemma c_sse2_rots_ok x : reg 4 x ->
  c_sse2_rot16 x = vrot x 16 /\ c_sse2_rot12 x = vrot x 12 /\ c_sse2_rot8 x = vrot x 8 /\ c_sse2_rot7 x = vrot x 7.
Proof.
  intros H. apply reg_regz in H.
  repeat split; [apply c_sse2_rot16_ok|apply c_sse2_rot12_ok|apply c_sse2_rot8_ok|apply c_sse2_rot7_ok]; exact H.
Qed.
Lemma c_sse41_rots_ok x : reg 4 x ->
  c_sse41_rot16 x = vrot x 16 /\ c_sse41_rot12 x = vrot x 12 /\ c_sse41_rot8 x = vrot x 8 /\ c_sse41_rot7 x = vrot x 7.
Proof.
  intros H. apply reg_regz in H.
  repeat split; [apply c_sse41_rot16_ok|apply c_sse41_rot12_ok|apply c_sse41_rot8_ok|apply c_sse41_rot7_ok]; exact H.
Qed.
Lemma c_avx2_rots_ok x : reg 8 x ->
  c_avx2_rot16 x = vrot x 16 /\ c_avx2_rot12 x = vrot x 12 /\ c_avx2_rot8 x = vrot x 8 /\ c_avx2_rot7 x = vrot x 7.
Proof.
  intros H. apply reg_regz in H.
  repeat split; [apply c_avx2_rot16_ok|apply c_avx2_rot12_ok|apply c_avx2_rot8_ok|apply c_avx2_rot7_ok]; exact H.
Qed.
Lemma vround_reg n v m r : length v = 16%nat -> length m = 16%nat -> (r < 7)%nat ->
  Forall (reg n) v -> Forall (reg n) m -> Forall (reg n) (vround v m r).
Proof.
  intros _ Lm _ Hv Hm.
  apply (translated_round (reg n) (fun x => vrot x 16) (fun x => vrot x 12) (fun x => vrot x 8) (fun x => vrot x 7));
    auto using reg_vadd, reg_vxor, reg_vrot.
  intros k. unfold mw. rewrite Forall_forall in Hm. apply Hm, nth_In. pose proof (sched_lt r k). unfold vec in *. lia.
Qed.

Lemma permute2x128_0x20 a b : mm256_permute2x128_si256 a b 0x20%Z = permute2x128_20 0 a b.
Proof. reflexivity. Qed.
Lemma permute2x128_0x31 a b : mm256_permute2x128_si256 a b 0x31%Z = permute2x128_31 0 a b.
Proof. reflexivity. Qed.
Lemma shuffle_i32x4_0x88 a b : mm512_shuffle_i32x4 a b 0x88%Z = unpack_lo_128 0 a b.
Proof. reflexivity. Qed.
Lemma shuffle_i32x4_0xdd a b : mm512_shuffle_i32x4 a b 0xdd%Z = unpack_hi_128 0 a b.
Proof. reflexivity. Qed.

Theorem rs_sse2_transpose_vecs_ok vecs : rs_sse2_transpose_vecs vecs = transpose_vecs_128 0 vecs.
Proof. reflexivity. Qed.
Theorem rs_sse41_transpose_vecs_ok vecs : rs_sse41_transpose_vecs vecs = transpose_vecs_128 0 vecs.
Proof. reflexivity. Qed.
Theorem rs_avx2_transpose_vecs_ok vecs : rs_avx2_transpose_vecs vecs = transpose_vecs_256 0 vecs.
Proof. reflexivity. Qed.
Theorem c_sse2_transpose_vecs_ok vecs : c_sse2_transpose_vecs vecs = transpose_vecs_128 0 vecs.
Proof. reflexivity. Qed.
Theorem c_sse41_transpose_vecs_ok vecs : c_sse41_transpose_vecs vecs = transpose_vecs_128 0 vecs.
Proof. reflexivity. Qed.
Theorem c_avx2_transpose_vecs_ok vecs : c_avx2_transpose_vecs vecs = transpose_vecs_256 0 vecs.
Proof. reflexivity. Qed.
Theorem c_avx512_transpose_vecs_128_ok vecs : c_avx512_transpose_vecs_128 vecs = transpose_vecs_128 0 vecs.
Proof. reflexivity. Qed.
Theorem c_avx512_transpose_vecs_256_ok vecs : c_avx512_transpose_vecs_256 vecs = transpose_vecs_256 0 vecs.
Proof. reflexivity. Qed.
Theorem c_avx512_transpose_vecs_512_ok vecs : c_avx512_transpose_vecs_512 vecs = transpose_vecs_512 0 vecs.
Proof. reflexivity. Qed.

Theorem rs_sse2_transpose_msg_vecs_ok inputs off : rs_sse2_transpose_msg_vecs inputs off = transpose_msg_vecs4 inputs off.
Proof. reflexivity. Qed.
Theorem rs_sse41_transpose_msg_vecs_ok inputs off : rs_sse41_transpose_msg_vecs inputs off = transpose_msg_vecs4 inputs off.
Proof. reflexivity. Qed.
Theorem rs_avx2_transpose_msg_vecs_ok inputs off : rs_avx2_transpose_msg_vecs inputs off = transpose_msg_vecs8 inputs off.
Proof. reflexivity. Qed.
Theorem c_sse2_transpose_msg_vecs_ok inputs off : c_sse2_transpose_msg_vecs inputs off = transpose_msg_vecs4 inputs off.
Proof. reflexivity. Qed.
Theorem c_sse41_transpose_msg_vecs_ok inputs off : c_sse41_transpose_msg_vecs inputs off = transpose_msg_vecs4 inputs off.
Proof. reflexivity. Qed.
Theorem c_avx2_transpose_msg_vecs_ok inputs off : c_avx2_transpose_msg_vecs inputs off = transpose_msg_vecs8 inputs off.
Proof. reflexivity. Qed.
Theorem c_avx512_transpose_msg_vecs4_ok inputs off : c_avx512_transpose_msg_vecs4 inputs off = transpose_msg_vecs4 inputs off.
Proof. reflexivity. Qed.
Theorem c_avx512_transpose_msg_vecs8_ok inputs off : c_avx512_transpose_msg_vecs8 inputs off = transpose_msg_vecs8 inputs off.
Proof. reflexivity. Qed.
(* one load per input at the block offset itself (`&inputs[i][block_offset]`), one 16 x 16 transpose *)
Theorem c_avx512_transpose_msg_vecs16_ok inputs off :
  c_avx512_transpose_msg_vecs16 inputs off = transpose_msg_vecs16 inputs off.
Proof.
  unfold transpose_msg_vecs16, transpose_msg_vecs. change (Nat.div 16 16) with 1%nat.
  cbn [seq flat_map]. change (4 * 16 * 0)%nat with 0%nat. rewrite Nat.add_0_r, app_nil_r. reflexivity.
Qed.

Lemma tmsg_reg n tmsg : tmsg_ok n tmsg -> (0 < n)%nat -> forall inputs off,
  (forall j, (j < n)%nat -> (off + 64 <= length (inp inputs j))%nat) ->
  (forall j, (j < n)%nat -> Forall (fun b => b < 256) (inp inputs j)) ->
  Forall (reg n) (tmsg inputs off).
Proof.
  intros Hok Hn inputs off Hlen Hbytes.
  destruct (Hok inputs off 0%nat Hn Hlen) as (Hwf & L16 & _).
  apply Forall_forall. intros x Hx. rewrite Forall_forall in Hwf. pose proof (Hwf x Hx) as Lx. unfold wf in Lx.
  split; [exact Lx|]. apply Forall_forall. intros e He.
  destruct (In_nth _ _ [] Hx) as (k & Hk & Ek). destruct (In_nth _ _ 0 He) as (i & Hi & Ei).
  rewrite Lx in Hi. destruct (Hok inputs off i Hi Hlen) as (_ & _ & El).
  assert (E : e = nth k (lane i (tmsg inputs off)) 0).
  { unfold lane. rewrite (nth_map_lt (fun v => nth i v 0) _ k [] 0) by exact Hk. rewrite Ek. symmetry. exact Ei. }
  rewrite E, El.
  assert (Hw : Forall W (words_of_bytes (firstn 64 (skipn off (inp inputs i))))).
  { apply words_of_bytes_lt, Forall_firstn, Forall_skipn, Hbytes, Hi. }
  apply (nth_Forall W); [exact Hw|reflexivity].
Qed.

(* h_vecs[i] = xor(v[i], v[i + 8]) *)
Lemma feed_forward (v : list vec) : length v = 16%nat ->
  [vxor (vk v 0) (vk v 8); vxor (vk v 1) (vk v 9); vxor (vk v 2) (vk v 10); vxor (vk v 3) (vk v 11);
   vxor (vk v 4) (vk v 12); vxor (vk v 5) (vk v 13); vxor (vk v 6) (vk v 14); vxor (vk v 7) (vk v 15)] =
  vxor_pairs (firstn 8 v) (skipn 8 v).
Proof. intros L. lanes_of v 16%nat L. reflexivity. Qed.

(* set1(x) for a 32-bit x: `x as i32` / (int32_t)x keeps the 32 bits *)
Lemma set1_bits x : x < 4294967296 -> bits32 (cast_s 32 (Z.of_N x)) = x.
Proof. intros H. rewrite bits32_counter. apply w32_id, H. Qed.
Lemma reg_vset1 n x : W x -> reg n (vset1 n x).
Proof.
  intros H. split; [apply repeat_length|]. apply Forall_forall. intros y Hy. apply repeat_spec in Hy. subst y. exact H.
Qed.
Lemma W_IV k : W (nth k rs_IV 0).
Proof. do 8 (destruct k as [|k]; [reflexivity|]). destruct k; reflexivity. Qed.

(* one iteration of the `for block` loop as the nine hashN functions have it, over the file's set1, round and xor:
   the state is set up from h, the IV, the counter vectors, the block length and the flags; seven rounds;
   h_vecs[i] = xor(v[i], v[i + 8]).  Each instance below says `change (generated block) with (block_src ..)`: as with
   the round, that conversion is where the generated text is compared with this one *)
Definition block_src (set1 : N -> vec) (rnd : list vec -> list vec -> nat -> list vec) (xr : vec -> vec -> vec)
    (h msg : list vec) (clo chi : vec) (bf : N) : list vec :=
  let v := [vk h 0; vk h 1; vk h 2; vk h 3; vk h 4; vk h 5; vk h 6; vk h 7;
            set1 (nth 0 rs_IV 0); set1 (nth 1 rs_IV 0); set1 (nth 2 rs_IV 0); set1 (nth 3 rs_IV 0);
            clo; chi; set1 rs_BLOCK_LEN; set1 bf] in
  let v := rnd v msg 0%nat in
  let v := rnd v msg 1%nat in
  let v := rnd v msg 2%nat in
  let v := rnd v msg 3%nat in
  let v := rnd v msg 4%nat in
  let v := rnd v msg 5%nat in
  let v := rnd v msg 6%nat in
  [xr (vk v 0) (vk v 8); xr (vk v 1) (vk v 9); xr (vk v 2) (vk v 10); xr (vk v 3) (vk v 11);
   xr (vk v 4) (vk v 12); xr (vk v 5) (vk v 13); xr (vk v 6) (vk v 14); xr (vk v 7) (vk v 15)].

(* P: the registers on which the file's round is the model's *)
Section Block.
  Variables (n : nat) (P : vec -> Prop) (set1 : N -> vec) (rnd : list vec -> list vec -> nat -> list vec)
            (xr : vec -> vec -> vec).
  Hypothesis Hset1 : forall x, x < 4294967296 -> set1 x = vset1 n x.
  Hypothesis Hrnd : forall v m r, Forall P v -> Forall P m -> rnd v m r = vround v m r.
  Hypothesis Hxr : forall a b, xr a b = vxor a b.
  Hypothesis Pround : forall v m r, Forall P v -> Forall P m -> Forall P (vround v m r).
  Hypothesis Pset1 : forall x, x < 4294967296 -> P (vset1 n x).

  Lemma block_src_ok h msg clo chi bf : length h = 8%nat -> Forall P h -> P clo -> P chi -> Forall P msg ->
    bf < 4294967296 -> block_src set1 rnd xr h msg clo chi bf = vcompress n h msg clo chi rs_BLOCK_LEN bf.
  Proof.
    intros Lh Fh Plo Phi Fm Hbf.
    assert (F0 : Forall P (vstate n h clo chi rs_BLOCK_LEN bf)).
    { apply Forall_app. split; [exact Fh|]. repeat constructor; try assumption; apply Pset1; apply W_IV || reflexivity || assumption. }
    lanes_of h 8%nat Lh. unfold block_src, vcompress, vrounds7. cbv zeta. cbn [vk nth].
    rewrite !Hset1 by (apply W_IV || reflexivity || assumption).
    change [v; v0; v1; v2; v3; v4; v5; v6; vset1 n (nth 0 rs_IV 0); vset1 n (nth 1 rs_IV 0); vset1 n (nth 2 rs_IV 0);
            vset1 n (nth 3 rs_IV 0); clo; chi; vset1 n rs_BLOCK_LEN; vset1 n bf]
      with (vstate n [v; v0; v1; v2; v3; v4; v5; v6] clo chi rs_BLOCK_LEN bf).
    set (s0 := vstate n _ clo chi rs_BLOCK_LEN bf) in *.
    rewrite (Hrnd s0 msg 0%nat) by assumption.
    rewrite (Hrnd _ msg 1%nat), (Hrnd _ msg 2%nat), (Hrnd _ msg 3%nat), (Hrnd _ msg 4%nat), (Hrnd _ msg 5%nat), (Hrnd _ msg 6%nat)
      by (repeat apply Pround; assumption).
    rewrite !Hxr. apply feed_forward. rewrite !vround_length. reflexivity.
  Qed.
End Block.

Lemma block_src_any n set1 rnd xr h msg clo chi bf :
  (forall x, x < 4294967296 -> set1 x = vset1 n x) -> (forall v m r, rnd v m r = vround v m r) ->
  (forall a b, xr a b = vxor a b) -> length h = 8%nat -> bf < 4294967296 ->
  block_src set1 rnd xr h msg clo chi bf = vcompress n h msg clo chi rs_BLOCK_LEN bf.
Proof.
  intros Hs Hr Hx Lh Hbf. assert (T : forall l : list vec, Forall (fun _ => True) l) by (intros; apply Forall_forall; auto).
  apply (block_src_ok n (fun _ => True)); auto.
Qed.

Lemma rs_sse2_set1_ok x : x < 4294967296 -> rs_sse2_set1 x = vset1 4 x.
Proof. intros H. unfold rs_sse2_set1, mm_set1_epi32. rewrite set1_bits by exact H. reflexivity. Qed.
Theorem rs_sse2_hash4_block_ok h clo chi bf inputs block : length h = 8%nat -> bf < 4294967296 ->
  rs_sse2_hash4_block h clo chi bf inputs block =
  vcompress 4 h (transpose_msg_vecs4 inputs (block * 64)) clo chi rs_BLOCK_LEN bf.
Proof.
  intros Lh Hbf. rewrite <- rs_sse2_transpose_msg_vecs_ok.
  change (rs_sse2_hash4_block h clo chi bf inputs block) with (block_src rs_sse2_set1 rs_sse2_round rs_sse2_xor h (rs_sse2_transpose_msg_vecs inputs (block * 64)) clo chi bf).
  apply block_src_any; auto using rs_sse2_set1_ok, rs_sse2_round_ok.
Qed.

Lemma rs_sse41_set1_ok x : x < 4294967296 -> rs_sse41_set1 x = vset1 4 x.
Proof. intros H. unfold rs_sse41_set1, mm_set1_epi32. rewrite set1_bits by exact H. reflexivity. Qed.
Theorem rs_sse41_hash4_block_ok h clo chi bf inputs block : length h = 8%nat -> bf < 4294967296 ->
  rs_sse41_hash4_block h clo chi bf inputs block =
  vcompress 4 h (transpose_msg_vecs4 inputs (block * 64)) clo chi rs_BLOCK_LEN bf.
Proof.
  intros Lh Hbf. rewrite <- rs_sse41_transpose_msg_vecs_ok.
  change (rs_sse41_hash4_block h clo chi bf inputs block) with (block_src rs_sse41_set1 rs_sse41_round rs_sse41_xor h (rs_sse41_transpose_msg_vecs inputs (block * 64)) clo chi bf).
  apply block_src_any; auto using rs_sse41_set1_ok, rs_sse41_round_ok.
Qed.

Lemma rs_avx2_set1_ok x : x < 4294967296 -> rs_avx2_set1 x = vset1 8 x.
Proof. intros H. unfold rs_avx2_set1, mm256_set1_epi32. rewrite set1_bits by exact H. reflexivity. Qed.
Theorem rs_avx2_hash8_block_ok h clo chi bf inputs block : length h = 8%nat -> bf < 4294967296 ->
  rs_avx2_hash8_block h clo chi bf inputs block =
  vcompress 8 h (transpose_msg_vecs8 inputs (block * 64)) clo chi rs_BLOCK_LEN bf.
Proof.
  intros Lh Hbf. rewrite <- rs_avx2_transpose_msg_vecs_ok.
  change (rs_avx2_hash8_block h clo chi bf inputs block) with (block_src rs_avx2_set1 rs_avx2_round rs_avx2_xor h (rs_avx2_transpose_msg_vecs inputs (block * 64)) clo chi bf).
  apply block_src_any; auto using rs_avx2_set1_ok, rs_avx2_round_ok.
Qed.

Lemma c_avx512_set1_128_ok x : x < 4294967296 -> c_avx512_set1_128 (Z.of_N x) = vset1 4 x.
Proof. intros H. unfold c_avx512_set1_128, mm_set1_epi32. rewrite set1_bits by exact H. reflexivity. Qed.
Theorem c_avx512_blake3_hash4_avx512_block_ok h clo chi bf inputs block : length h = 8%nat -> bf < 4294967296 ->
  c_avx512_blake3_hash4_avx512_block h clo chi bf inputs block =
  vcompress 4 h (transpose_msg_vecs4 inputs (block * 64)) clo chi rs_BLOCK_LEN bf.
Proof.
  intros Lh Hbf. rewrite <- c_avx512_transpose_msg_vecs4_ok.
  change (c_avx512_blake3_hash4_avx512_block h clo chi bf inputs block) with (block_src (fun x => c_avx512_set1_128 (Z.of_N x)) c_avx512_round_fn4 c_avx512_xor_128 h (c_avx512_transpose_msg_vecs4 inputs (block * 64)) clo chi bf).
  apply block_src_any; auto using c_avx512_set1_128_ok, c_avx512_round_fn4_ok.
Qed.

Lemma c_avx512_set1_256_ok x : x < 4294967296 -> c_avx512_set1_256 (Z.of_N x) = vset1 8 x.
Proof. intros H. unfold c_avx512_set1_256, mm256_set1_epi32. rewrite set1_bits by exact H. reflexivity. Qed.
Theorem c_avx512_blake3_hash8_avx512_block_ok h clo chi bf inputs block : length h = 8%nat -> bf < 4294967296 ->
  c_avx512_blake3_hash8_avx512_block h clo chi bf inputs block =
  vcompress 8 h (transpose_msg_vecs8 inputs (block * 64)) clo chi rs_BLOCK_LEN bf.
Proof.
  intros Lh Hbf. rewrite <- c_avx512_transpose_msg_vecs8_ok.
  change (c_avx512_blake3_hash8_avx512_block h clo chi bf inputs block) with (block_src (fun x => c_avx512_set1_256 (Z.of_N x)) c_avx512_round_fn8 c_avx512_xor_256 h (c_avx512_transpose_msg_vecs8 inputs (block * 64)) clo chi bf).
  apply block_src_any; auto using c_avx512_set1_256_ok, c_avx512_round_fn8_ok.
Qed.

Lemma c_avx512_set1_512_ok x : x < 4294967296 -> c_avx512_set1_512 (Z.of_N x) = vset1 16 x.
Proof. intros H. unfold c_avx512_set1_512, mm512_set1_epi32. rewrite set1_bits by exact H. reflexivity. Qed.
Theorem c_avx512_blake3_hash16_avx512_block_ok h clo chi bf inputs block : length h = 8%nat -> bf < 4294967296 ->
  c_avx512_blake3_hash16_avx512_block h clo chi bf inputs block =
  vcompress 16 h (transpose_msg_vecs16 inputs (block * 64)) clo chi rs_BLOCK_LEN bf.
Proof.
  intros Lh Hbf. rewrite <- c_avx512_transpose_msg_vecs16_ok.
  change (c_avx512_blake3_hash16_avx512_block h clo chi bf inputs block) with (block_src (fun x => c_avx512_set1_512 (Z.of_N x)) c_avx512_round_fn16 c_avx512_xor_512 h (c_avx512_transpose_msg_vecs16 inputs (block * 64)) clo chi bf).
  apply block_src_any; auto using c_avx512_set1_512_ok, c_avx512_round_fn16_ok.
Qed.

Lemma c_sse2_set1_ok x : x < 4294967296 -> c_sse2_set1 (Z.of_N x) = vset1 4 x.
Proof. intros H. unfold c_sse2_set1, mm_set1_epi32. rewrite set1_bits by exact H. reflexivity. Qed.
Theorem c_sse2_blake3_hash4_sse2_block_ok h clo chi bf inputs block :
  length h = 8%nat -> Forall (reg 4) h -> reg 4 clo -> reg 4 chi -> bf < 4294967296 ->
  (forall j, (j < 4)%nat -> (block * 64 + 64 <= length (inp inputs j))%nat) ->
  (forall j, (j < 4)%nat -> Forall (fun b => b < 256) (inp inputs j)) ->
  c_sse2_blake3_hash4_sse2_block h clo chi bf inputs block =
  vcompress 4 h (transpose_msg_vecs4 inputs (block * 64)) clo chi rs_BLOCK_LEN bf.
Proof.
  intros Lh Hh Hlo Hhi Hbf Hlen Hbytes. rewrite <- c_sse2_transpose_msg_vecs_ok.
  change (c_sse2_blake3_hash4_sse2_block h clo chi bf inputs block) with (block_src (fun x => c_sse2_set1 (Z.of_N x)) c_sse2_round_fn c_sse2_xorv h (c_sse2_transpose_msg_vecs inputs (block * 64)) clo chi bf).
  apply (block_src_ok 4 (regz 4)); auto using c_sse2_set1_ok, c_sse2_round_fn_regz, vround_regz, reg_regz, reg_vset1, Forall_reg_regz.
  rewrite c_sse2_transpose_msg_vecs_ok. apply Forall_reg_regz, (tmsg_reg 4 _ tmsg_ok_4); [lia|exact Hlen|exact Hbytes].
Qed.

Lemma c_sse41_set1_ok x : x < 4294967296 -> c_sse41_set1 (Z.of_N x) = vset1 4 x.
Proof. intros H. unfold c_sse41_set1, mm_set1_epi32. rewrite set1_bits by exact H. reflexivity. Qed.
Theorem c_sse41_blake3_hash4_sse41_block_ok h clo chi bf inputs block :
  length h = 8%nat -> Forall (reg 4) h -> reg 4 clo -> reg 4 chi -> bf < 4294967296 ->
  (forall j, (j < 4)%nat -> (block * 64 + 64 <= length (inp inputs j))%nat) ->
  (forall j, (j < 4)%nat -> Forall (fun b => b < 256) (inp inputs j)) ->
  c_sse41_blake3_hash4_sse41_block h clo chi bf inputs block =
  vcompress 4 h (transpose_msg_vecs4 inputs (block * 64)) clo chi rs_BLOCK_LEN bf.
Proof.
  intros Lh Hh Hlo Hhi Hbf Hlen Hbytes. rewrite <- c_sse41_transpose_msg_vecs_ok.
  change (c_sse41_blake3_hash4_sse41_block h clo chi bf inputs block) with (block_src (fun x => c_sse41_set1 (Z.of_N x)) c_sse41_round_fn c_sse41_xorv h (c_sse41_transpose_msg_vecs inputs (block * 64)) clo chi bf).
  apply (block_src_ok 4 (regz 4)); auto using c_sse41_set1_ok, c_sse41_round_fn_regz, vround_regz, reg_regz, reg_vset1, Forall_reg_regz.
  rewrite c_sse41_transpose_msg_vecs_ok. apply Forall_reg_regz, (tmsg_reg 4 _ tmsg_ok_4); [lia|exact Hlen|exact Hbytes].
Qed.

Lemma c_avx2_set1_ok x : x < 4294967296 -> c_avx2_set1 (Z.of_N x) = vset1 8 x.
Proof. intros H. unfold c_avx2_set1, mm256_set1_epi32. rewrite set1_bits by exact H. reflexivity. Qed.
Theorem c_avx2_blake3_hash8_avx2_block_ok h clo chi bf inputs block :
  length h = 8%nat -> Forall (reg 8) h -> reg 8 clo -> reg 8 chi -> bf < 4294967296 ->
  (forall j, (j < 8)%nat -> (block * 64 + 64 <= length (inp inputs j))%nat) ->
  (forall j, (j < 8)%nat -> Forall (fun b => b < 256) (inp inputs j)) ->
  c_avx2_blake3_hash8_avx2_block h clo chi bf inputs block =
  vcompress 8 h (transpose_msg_vecs8 inputs (block * 64)) clo chi rs_BLOCK_LEN bf.
Proof.
  intros Lh Hh Hlo Hhi Hbf Hlen Hbytes. rewrite <- c_avx2_transpose_msg_vecs_ok.
  change (c_avx2_blake3_hash8_avx2_block h clo chi bf inputs block) with (block_src (fun x => c_avx2_set1 (Z.of_N x)) c_avx2_round_fn c_avx2_xorv h (c_avx2_transpose_msg_vecs inputs (block * 64)) clo chi bf).
  apply (block_src_ok 8 (regz 8)); auto using c_avx2_set1_ok, c_avx2_round_fn_regz, vround_regz, reg_regz, reg_vset1, Forall_reg_regz.
  rewrite c_avx2_transpose_msg_vecs_ok. apply Forall_reg_regz, (tmsg_reg 8 _ tmsg_ok_8); [lia|exact Hlen|exact Hbytes].
Qed.
