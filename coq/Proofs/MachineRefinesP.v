(* The two interpreters of the case language agree: whenever the SPECIFICATION
   machine (Model/SpecMachine.v: one byte list + offset per hasher, (output,
   position) per reader; Spec/*.v only) accepts a history, the IMPLEMENTATION
   machine (Model/Machine.v, built from the executable models of the Rust code)
   produces exactly the same observations and does not panic, on every
   PlatformOK platform.  Proved by a simulation relation (hashers: InvS, readers:
   Rd, saved chaining values: equal) and step lemmas for the ops, reusing the
   refinement theorems of HasherP / C02P / XofP / C09P / C01P. *)
From V Require Import Proofs.ListP Proofs.ResP.
From V Require Import Base.Res Base.Word Base.MachInt gen.GenConsts gen.GenFormulas
  Spec.Compress Spec.Tree Spec.Blake3 Model.Portable Model.Platform Model.RsChunk Model.RsWide
  Model.RsHasher Model.RsXof Model.RsIo Model.RsDebug Model.Machine Model.SpecMachine
  Proofs.WordP Proofs.PortableP Proofs.ChunkP Proofs.TreeP Proofs.FormulasP Proofs.WideP Proofs.C01P Proofs.XofP
  Proofs.StackArithP Proofs.HasherP Proofs.IoP Proofs.C02P Proofs.C09P.
Open Scope N_scope.

Definition mode_ok (m : mmode) : Prop :=
  match m with
  | MHash => True
  | MKeyed k => length k = 32%nat
  | MDerive c | MDeriveK c => len c < 2 ^ 64
  end.

Definition mkey (m : mmode) : list N := mode_key (spec_mode m).
Definition mflags (m : mmode) : N := mode_flags (spec_mode m).

Lemma lowbit_tz q : lowbit_pos q = 2 ^ tz_pos q.
Proof.
  induction q as [q IH|q IH|]; cbn [lowbit_pos tz_pos]; try reflexivity.
  rewrite IH, N.add_1_l, N.pow_succ_r'. reflexivity.
Qed.

Section Modes.
  Variable p : platform.
  Hypothesis POK : PlatformOK p.
  Local Opaque subtree_output stream.

  Lemma context_key_spec c : len c < 2 ^ 64 ->
    rs_hash_derive_key_context p c = Ok (b3_hash_mode DeriveKeyContext c).
  Proof.
    intros Hc. unfold rs_hash_derive_key_context. rewrite rs_IV_is_spec.
    change rs_flag_DERIVE_KEY_CONTEXT with DERIVE_KEY_CONTEXT.
    rewrite (root_hash_spec p POK IV DERIVE_KEY_CONTEXT c) by (try reflexivity; exact Hc).
    reflexivity.
  Qed.

  Lemma context_key_length c : length (b3_hash_mode DeriveKeyContext c) = 32%nat.
  Proof. unfold b3_hash_mode, hash_mode. apply stream_length. Qed.

  Lemma mkey_length m : mode_ok m -> length (mkey m) = 8%nat.
  Proof.
    destruct m as [|k|c|c]; cbn [mode_ok mkey spec_mode mode_key]; intros H.
    1: reflexivity.
    all: apply words_of_bytes_length; rewrite ?H, ?context_key_length; reflexivity.
  Qed.

  Lemma mode_init_spec m : mode_ok m -> mode_init p m = Ok (mkey m, mflags m).
  Proof.
    destruct m as [|k|c|c]; cbn [mode_ok mode_init mkey mflags spec_mode mode_key mode_flags]; intros H.
    1: rewrite rs_IV_is_spec.
    3-4: rewrite (context_key_spec c H).
    all: reflexivity.
  Qed.

  Lemma one_shot_spec m b : mode_ok m -> len b < 2 ^ 64 ->
    one_shot p m b = Ok (stream spec_c64 (sub_out m 0 b) 0 32).
  Proof.
    intros Hm Hb. pose proof (mkey_length m Hm) as HK.
    destruct m as [|k|c|c]; cbn [mode_ok one_shot] in *.
    3-4: unfold rs_derive_key; rewrite (context_key_spec c Hm); cbn [bind].
    3-4: apply (root_hash_spec p POK (words_of_bytes (b3_hash_mode DeriveKeyContext c)) DERIVE_KEY_MATERIAL b); [exact HK|exact Hb].
    - unfold rs_hash. rewrite rs_IV_is_spec. apply (root_hash_spec p POK IV 0 b); [reflexivity|exact Hb].
    - unfold rs_keyed_hash. apply (root_hash_spec p POK (words_of_bytes k) KEYED_HASH b); [exact HK|exact Hb].
  Qed.
End Modes.

Section Instances.
  Variable p : platform.
  Hypothesis POK : PlatformOK p.
  Variable m : mmode.
  Hypothesis Hm : mode_ok m.
  Local Opaque subtree_output stream.

  Notation K := (mkey m).
  Notation F := (mflags m).

  Lemma sub_out_eq c0 bs : sub_out m c0 bs = subtree_output spec_c8 tree_height K F c0 bs.
  Proof. reflexivity. Qed.

  Definition Rh (h : hasher) (x : sinst) : Prop :=
    si_off x < 2 ^ 54 /\ InvS K F (si_off x) h (si_bytes x).
  Definition Rr (r : reader) (x : sreader) : Prop :=
    Rd r (sr_out x) (sr_pos x) /\ sr_pos x <= 2 ^ 64 - 1.

  Lemma Rh_new : Rh (new_internal K F) (mkSI [] 0).
  Proof. split; [reflexivity|]. apply new_internal_Inv. Qed.

  Lemma room_bounds off t : off < 2 ^ 54 -> room off t = true ->
    t <= 1024 * lim_of off /\ t < 2 ^ 64.
  Proof.
    intros Hoff Hr. pose proof (lim_ok off Hoff) as Hlo. rewrite two54, two64 in *.
    destruct off as [|q]; cbn [room] in Hr.
    - change (lim_of 0) with (2 ^ 54). rewrite two54. lia.
    - unfold lim_of in *. change (N.pos q =? 0) with false in *. cbn iota in *. cbn [tz] in *.
      rewrite lowbit_tz in Hr. lia.
  Qed.

  Lemma sim_update h x b : Rh h x -> room (si_off x) (len (si_bytes x) + len b) = true ->
    exists h', hasher_update p h b = Ok h' /\ Rh h' (mkSI (si_bytes x ++ b) (si_off x)).
  Proof.
    destruct x as [bs off]. unfold Rh. cbn [si_off si_bytes]. intros [Hoff HI] Hr.
    destruct (room_bounds off _ Hoff Hr) as [H1 H2]. rewrite <- len_app in H1, H2.
    destruct (InvS_update p POK K F (mkey_length m Hm) off Hoff h bs b HI H1 H2) as (h' & Hu & HI').
    exists h'. split; [exact Hu|]. split; assumption.
  Qed.

  Lemma sim_count h x : Rh h x -> hasher_count h = Ok (len (si_bytes x)).
  Proof. intros [_ HI]. exact (InvS_count K F _ h _ HI). Qed.

  Lemma sim_reset h x : Rh h x -> Rh (hasher_reset h) (mkSI [] 0).
  Proof. intros [_ HI]. rewrite (reset_is_new K F (si_off x) h _ HI). apply Rh_new. Qed.

  Lemma Rh_whole h x : Rh h x -> si_off x = 0 -> InvS K F 0 h (si_bytes x).
  Proof. intros [_ HI] H0. rewrite <- H0. exact HI. Qed.

  Lemma Rr_new h x : Rh h x -> si_off x = 0 ->
    Rr (reader_new (sub_out m 0 (si_bytes x))) (mkSR (sub_out m 0 (si_bytes x)) 0).
  Proof.
    intros HR H0. split; [exact (Inv0_reader K F (mkey_length m Hm) h _ (Rh_whole h x HR H0))|]. cbn [sr_pos]. lia.
  Qed.

  Lemma sim_xof h x n : Rh h x -> si_off x = 0 -> n <= 2 ^ 64 - 1 ->
    exists r', reader_fill p (reader_new (sub_out m 0 (si_bytes x))) n =
               Ok (r', stream spec_c64 (sub_out m 0 (si_bytes x)) 0 (N.to_nat n)) /\
               Rr r' (mkSR (sub_out m 0 (si_bytes x)) n).
  Proof.
    intros HR H0 Hn. destruct (Rr_new h x HR H0) as [HRd _].
    destruct (reader_fill_spec p POK _ _ 0 n HRd ltac:(lia)) as (r' & Hf & HR').
    exists r'. split; [exact Hf|]. split; [exact HR'|]. cbn [sr_pos]. lia.
  Qed.

  Lemma sim_set_offset h x off : Rh h x -> len (si_bytes x) = 0 -> off mod 1024 = 0 -> off < 2 ^ 64 ->
    exists h', set_input_offset h off = Ok h' /\ Rh h' (mkSI [] (off / 1024)).
  Proof.
    intros HR Hl Hmod Hoff. destruct x as [bs c0]. cbn [si_bytes] in Hl. apply len_0_nil in Hl. subst bs.
    pose proof (sim_count h _ HR) as Hc. cbn [si_bytes] in Hc. destruct HR as [_ HI]. cbn [si_off si_bytes] in HI.
    assert (Hq : off / 1024 < 2 ^ 54).
    { apply N.div_lt_upper_bound; [lia|]. rewrite two64 in Hoff. rewrite two54. lia. }
    exists (fresh K F (off / 1024)). split; [|split; [exact Hq|apply InvS_fresh]].
    unfold set_input_offset. rewrite Hc. cbn [bind]. change (len [] =? 0) with true. cbn [check bind].
    change rs_CHUNK_LEN with 1024. rewrite Hmod. change (0 =? 0) with true. cbn [check bind].
    rewrite (Inv_nil _ _ _ _ _ _ HI). reflexivity.
  Qed.

  Lemma sim_non_root h x : Rh h x -> 0 < len (si_bytes x) ->
    finalize_non_root p h = Ok (chaining_value spec_c8 (sub_out m (si_off x) (si_bytes x))) /\
    length (chaining_value spec_c8 (sub_out m (si_off x) (si_bytes x))) = 32%nat.
  Proof.
    intros HR Hpos. pose proof (sim_count h x HR) as Hc. destruct HR as [Hoff HI].
    destruct (Inv_fields _ _ _ _ _ _ _ HI) as (_ & _ & _ & _ & H64).
    assert (Hwf : wf_output (sub_out m (si_off x) (si_bytes x))).
    { apply (sub_wf K F (mkey_length m Hm)). rewrite two64 in *. lia. }
    split; [|apply cvs_length; exact Hwf].
    unfold finalize_non_root. rewrite Hc. cbn [bind].
    replace (len (si_bytes x) =? 0) with false by lia. cbn [negb check bind].
    rewrite (InvS_output p POK K F (mkey_length m Hm) _ Hoff h _ HI). cbn [bind]. f_equal.
    apply (wf_chaining_value spec_c8 p POK spec_c8_cip). exact Hwf.
  Qed.
End Instances.

(* the trait constructors (Digest::new is the hash mode, KeyInit::new the keyed mode): in the mode they construct,
   each is the step that adds a fresh hasher; in any other the specification machine does not accept it *)
Lemma tdigest_step {A} p pn m st (x r : A) :
  match m with MHash => Some x | _ => None end = Some r ->
  x = r /\ step p pn m (mkey m) (mflags m) st OpTDigestNew = Ok (add_hasher st (new_internal (mkey m) (mflags m)), []).
Proof. destruct m; intros H; try discriminate. injection H as <-. cbn [step]. rewrite rs_IV_is_spec. auto. Qed.

Lemma tkeyinit_step {A} p pn m st (x r : A) :
  match m with MKeyed _ => Some x | _ => None end = Some r ->
  x = r /\ step p pn m (mkey m) (mflags m) st OpTKeyInit = Ok (add_hasher st (new_internal (mkey m) (mflags m)), []).
Proof. destruct m; intros H; try discriminate. injection H as <-. auto. Qed.

Section Steps.
  Variable p : platform.
  Hypothesis POK : PlatformOK p.
  Variable m : mmode.
  Hypothesis Hm : mode_ok m.
  Variable pn : list N.
  Local Opaque subtree_output stream.
  Notation K := (mkey m).
  Notation F := (mflags m).

  Definition Sim (ms : mstate) (ss : sstate) : Prop :=
    Forall2 (Rh m) (st_hashers ms) (ss_h ss) /\ Forall2 Rr (st_readers ms) (ss_r ss) /\
    st_vals ms = ss_v ss /\ Forall (fun v => length v = 32%nat) (ss_v ss).

  Definition step_ok (o : op) : Prop := forall ms ss ss' out,
    Sim ms ss -> sstep m ss o = Some (ss', out) ->
    exists ms', step p pn m K F ms o = Ok (ms', out) /\ Sim ms' ss'.

  (* opens the two states and Sim, and computes both steps as far as they go before an instance is looked up: Hs is
     left as the specification's step, the goal as the implementation's *)
  Ltac start :=
    intros [hs rs vs] [ah ar av] ss' out (HH & HRr & HV & HL) Hs;
    cbn [st_hashers st_readers st_vals ss_h ss_r ss_v] in *; subst av;
    unfold sstep in Hs; cbn [ss_h ss_r ss_v] in Hs; unfold snth in Hs;
    cbn [step st_hashers st_readers st_vals].

  (* instance i of the specification state exists, so does the related hasher *)
  Ltac get_h i x h En Hn HR :=
    match goal with
    | HH : Forall2 (Rh m) _ ?ah, Hs : _ = Some _ |- _ =>
        revert Hs; destruct (nth_error ah i) as [x|] eqn:En; [|discriminate]; intros Hs;
        destruct (Forall2_nth _ _ _ _ _ HH En) as (h & Hn & HR);
        rewrite (get_nth _ _ _ Hn); cbn [bind]
    end.
  Ltac get_r j x r En Hn HR :=
    match goal with
    | HRr : Forall2 Rr _ ?ar, Hs : _ = Some _ |- _ =>
        revert Hs; destruct (nth_error ar j) as [x|] eqn:En; [|discriminate]; intros Hs;
        destruct (Forall2_nth _ _ _ _ _ HRr En) as (r & Hn & HR);
        rewrite (get_nth _ _ _ Hn); cbn [bind]
    end.
  (* the step is computed; what is left of Sim is the component that changed, at the place it changed *)
  Ltac done_sim :=
    eexists; split; [reflexivity|];
    unfold Sim, set_hasher, set_reader, add_hasher, add_reader, add_val;
    cbn [st_hashers st_readers st_vals ss_h ss_r ss_v];
    repeat split; try assumption; eauto using Forall2_set_nth, Forall2_snoc, Forall_snoc.

  Lemma step_new : step_ok OpNew.
  Proof. start. injection Hs as <- <-. done_sim. apply Forall2_snoc; [assumption|apply Rh_new]. Qed.

  Lemma step_update_write i b : step_ok (OpUpdate i b) /\ step_ok (OpWrite i b).
  Proof.
    split; start; get_h i x h En Hn HR.
    all: destruct (room (si_off x) (len (si_bytes x) + len b)) eqn:Er; [|discriminate]; injection Hs as <- <-.
    all: destruct (sim_update p POK m Hm h x b HR Er) as (h' & Hu & HR'); unfold hasher_write; rewrite Hu; cbn [bind].
    all: done_sim.
  Qed.

  Lemma step_update_reader i data script : step_ok (OpUpdateReader i data script).
  Proof.
    start. get_h i x h En Hn HR.
    destruct ((si_off x =? 0) && (len (si_bytes x ++ data) <? 2 ^ 64)) eqn:Eg; [|discriminate].
    assert (E0 : si_off x = 0) by lia. destruct HR as [Hoff HI]. rewrite E0 in HI.
    destruct (update_reader_refines p POK K F (mkey_length m Hm) h (si_bytes x) data script HI ltac:(lia)) as (h' & r & Hu & HI' & Hr).
    rewrite Hu. cbn [bind]. rewrite <- E0 in HI'.
    destruct (snd (delivered (copy_fuel data script) data script)) as [|k|] eqn:Ed; [| |discriminate].
    all: injection Hs as <- <-; subst r; done_sim; apply Forall2_set_nth; [assumption|split; assumption].
  Qed.

  Lemma step_finalizes i : step_ok (OpFinalize i) /\ step_ok (OpTFinalizeReset i).
  Proof.
    split; start; get_h i x h En Hn HR.
    all: destruct (si_off x =? 0) eqn:E0; [|discriminate]; injection Hs as <- <-.
    all: rewrite (Inv0_finalize p POK K F (mkey_length m Hm) h _ (Rh_whole m h x HR ltac:(lia))); cbn [bind]; done_sim.
    apply Forall2_set_nth; [assumption|apply (sim_reset m h x HR)].
  Qed.

  Lemma step_xofs i n : step_ok (OpXof i n) /\ step_ok (OpTXof i n) /\ step_ok (OpTXofReset i n).
  Proof.
    repeat split; start; get_h i x h En Hn HR.
    all: destruct ((si_off x =? 0) && (n <=? max_position)) eqn:E; [|discriminate]; injection Hs as <- <-.
    all: unfold max_position in E; rewrite (Inv0_finalize_output p POK K F (mkey_length m Hm) h _ (Rh_whole m h x HR ltac:(lia))), <- (sub_out_eq m); cbn [bind].
    all: destruct (sim_xof p POK m Hm h x n HR ltac:(lia) ltac:(lia)) as (r' & Hf & HR'); rewrite Hf; cbn [bind]; done_sim.
    apply Forall2_set_nth; [assumption|apply (sim_reset m h x HR)].
  Qed.

  Lemma step_count i : step_ok (OpCount i).
  Proof.
    start. get_h i x h En Hn HR. injection Hs as <- <-.
    rewrite (sim_count m h x HR). cbn [bind]. done_sim.
  Qed.

  Lemma step_clone i : step_ok (OpClone i).
  Proof. start. get_h i x h En Hn HR. injection Hs as <- <-. done_sim. Qed.

  Lemma step_reset i : step_ok (OpReset i).
  Proof.
    start. get_h i x h En Hn HR. injection Hs as <- <-. done_sim.
    apply Forall2_set_nth; [assumption|apply (sim_reset m h x HR)].
  Qed.

  Lemma step_set_offset i off : step_ok (OpSetOffset i off).
  Proof.
    start. get_h i x h En Hn HR.
    destruct ((len (si_bytes x) =? 0) && (off mod 1024 =? 0) && (off <? 2 ^ 64)) eqn:E; [|discriminate].
    injection Hs as <- <-.
    destruct (sim_set_offset m h x off HR ltac:(lia) ltac:(lia) ltac:(lia)) as (h' & Hu & HR'). rewrite Hu. cbn [bind].
    done_sim.
  Qed.

  Lemma step_non_root i : step_ok (OpNonRoot i).
  Proof.
    start. get_h i x h En Hn HR.
    destruct (0 <? len (si_bytes x)) eqn:E; [|discriminate]. cbv zeta in Hs. injection Hs as <- <-.
    destruct (sim_non_root p POK m Hm h x HR ltac:(lia)) as [Hf Hl]. rewrite Hf. cbn [bind]. done_sim.
  Qed.

  Lemma step_one_shot b : step_ok (OpOneShot b).
  Proof.
    start. destruct (len b <? 2 ^ 64) eqn:E; [|discriminate]. injection Hs as <- <-.
    rewrite (one_shot_spec p POK m b Hm ltac:(lia)). cbn [bind]. done_sim.
  Qed.

  Lemma sval_ok hs rs vs v c : Forall (fun v => length v = 32%nat) vs -> sval vs v = Some c ->
    val_of (mkState hs rs vs) v = Ok c /\ length c = 32%nat.
  Proof.
    intros HL. destruct v as [cv|k]; cbn [sval val_of st_vals].
    - destruct (Nat.eqb (length cv) 32) eqn:E; [|discriminate]. apply Nat.eqb_eq in E.
      intros H. injection H as <-. auto.
    - unfold snth. intros H. split; [apply get_nth; exact H|].
      rewrite Forall_forall in HL. apply HL. apply (nth_error_In _ _ H).
  Qed.

  Lemma step_merges l r : step_ok (OpMergeNonRoot l r) /\ step_ok (OpMergeRoot l r) /\ step_ok (OpMergeXof l r).
  Proof.
    repeat split; start.
    all: destruct (sval vs l) as [lv|] eqn:El; [|discriminate]; destruct (sval vs r) as [rv|] eqn:Er; [|discriminate].
    all: cbv zeta in Hs; injection Hs as <- <-.
    all: destruct (sval_ok hs rs vs l lv HL El) as [Vl Ll]; destruct (sval_ok hs rs vs r rv HL Er) as [Vr Lr].
    all: rewrite Vl, Vr; cbn [bind]; cbv zeta.
    all: pose proof (wf_parent_output K F (mkey_length m Hm) lv rv Ll Lr) as Hwf.
    - rewrite (merge_non_root_spec p POK K F (mkey_length m Hm) lv rv Ll Lr). done_sim.
      apply Forall_snoc; [assumption|apply cvs_length, Hwf].
    - rewrite (merge_root_spec p POK K F (mkey_length m Hm) lv rv Ll Lr). cbn [bind]. done_sim.
    - done_sim. apply Forall2_snoc; [assumption|]. unfold merge_subtrees_inner.
      split; [apply Rd_new; [exact Hwf|reflexivity]|]. cbn [sr_pos]. lia.
  Qed.

  Lemma step_context_key ctx : step_ok (OpContextKey ctx).
  Proof.
    start. destruct (len ctx <? 2 ^ 64) eqn:E; [|discriminate]. cbv zeta in Hs. injection Hs as <- <-.
    rewrite (context_key_spec p POK ctx ltac:(lia)). cbn [bind]. done_sim.
  Qed.

  Lemma step_reader_new i : step_ok (OpReaderNew i).
  Proof.
    start. get_h i x h En Hn HR.
    destruct (si_off x =? 0) eqn:E0; [|discriminate]. apply N.eqb_eq in E0. injection Hs as <- <-.
    rewrite (Inv0_finalize_output p POK K F (mkey_length m Hm) h _ (Rh_whole m h x HR E0)), <- (sub_out_eq m). cbn [bind]. done_sim.
    apply Forall2_snoc; [assumption|apply (Rr_new m Hm h x HR E0)].
  Qed.

  Lemma step_fill_read j n : step_ok (OpFill j n) /\ step_ok (OpRead j n).
  Proof.
    split; start; get_r j x r En Hn HR; destruct HR as [HRd Hpos].
    all: destruct (sr_pos x + n <=? max_position) eqn:E; [|discriminate]; apply N.leb_le in E; unfold max_position in E.
    all: injection Hs as <- <-.
    all: destruct (reader_fill_spec p POK r _ _ n HRd E) as (r' & Hf & HR'); rewrite Hf; cbn [bind]; done_sim.
    all: apply Forall2_set_nth; [assumption|split; assumption].
  Qed.

  Lemma step_pos j : step_ok (OpPos j).
  Proof.
    start. get_r j x r En Hn HR. destruct HR as [HRd Hpos]. injection Hs as <- <-.
    rewrite (reader_position_spec r _ _ HRd Hpos). cbn [bind]. done_sim.
  Qed.

  Lemma step_set_pos j q : step_ok (OpSetPos j q).
  Proof.
    start. get_r j x r En Hn HR. destruct HR as [HRd Hpos].
    destruct (q <=? max_position) eqn:E; [|discriminate]. apply N.leb_le in E. unfold max_position in E.
    injection Hs as <- <-.
    destruct (reader_set_position_spec r _ _ q HRd E) as (r' & Hf & HR'). rewrite Hf. cbn [bind]. done_sim.
    apply Forall2_set_nth; [assumption|split; assumption].
  Qed.

  Lemma step_seek j s : step_ok (OpSeek j s).
  Proof.
    start. get_r j x r En Hn HR. destruct HR as [HRd Hpos].
    pose proof (reader_seek_spec r _ _ s HRd Hpos) as Hsk. unfold max_position in Hs.
    (* a failed seek writes the reader back unchanged *)
    assert (Hsame : Forall2 Rr (set_nth rs j r) ar) by (rewrite (set_nth_same _ _ _ Hn); exact HRr).
    destruct s as [y|d|d]; [|destruct (Z.of_N (sr_pos x) + d <? 0)%Z eqn:E|]; cbv zeta in Hs, Hsk; injection Hs as <- <-.
    2, 4: rewrite Hsk; cbn [bind]; done_sim.
    all: destruct Hsk as (r' & Hf & HR'); rewrite Hf; cbn [bind]; done_sim.
    all: apply Forall2_set_nth; [assumption|]; split; [exact HR'|]; cbn [sr_pos]; lia.
  Qed.

  Lemma step_reader_clone j : step_ok (OpReaderClone j).
  Proof. start. get_r j x r En Hn HR. injection Hs as <- <-. done_sim. Qed.

  Lemma step_constructors : step_ok OpTDigestNew /\ step_ok OpTKeyInit.
  Proof.
    split; intros [hs rs vs] [ah ar av] ss' out (HH & HRr & HV & HL) Hs.
    all: cbn [st_hashers st_readers st_vals ss_h ss_r ss_v] in *; subst av.
    all: unfold sstep in Hs; cbn [ss_h ss_r ss_v] in Hs.
    1: destruct (tdigest_step p pn m (mkState hs rs vs) _ _ Hs) as [E ->].
    2: destruct (tkeyinit_step p pn m (mkState hs rs vs) _ _ Hs) as [E ->].
    all: injection E as <- <-; done_sim; apply Forall2_snoc; [assumption|apply Rh_new].
  Qed.

  (* the trait ops take the steps of the inherent ones (C16); the Debug and Zeroize ops the specification machine
     never accepts *)
  Theorem step_refines_spec o : step_ok o.
  Proof.
    destruct o; try (intros ms ss ss' out _ Hs; discriminate Hs).
    (* the bullets follow the constructors of `op` (Model/Machine.v) from OpNew to OpTDigestNew;
       OpDbg, OpReaderDbg, OpZeroHasher and OpZeroReader went with the `try` *)
    - apply step_new.
    - apply step_update_write.
    - apply step_update_write.
    - apply step_update_reader.
    - apply step_finalizes.
    - apply step_xofs.
    - apply step_count.
    - apply step_clone.
    - apply step_reset.
    - apply step_set_offset.
    - apply step_non_root.
    - apply step_one_shot.
    - apply step_merges.
    - apply step_merges.
    - apply step_merges.
    - apply step_context_key.
    - apply step_reader_new.
    - apply step_fill_read.
    - apply step_fill_read.
    - apply step_pos.
    - apply step_set_pos.
    - apply step_seek.
    - apply step_reader_clone.
    - exact (proj1 (step_update_write i b)).
    - exact (step_reset i).
    - exact (proj1 (step_finalizes i)).
    - apply step_finalizes.
    - apply step_xofs.
    - apply step_xofs.
    - apply step_constructors.
    - apply step_constructors.
  Qed.

  Theorem run_refines_spec : forall ops ms ss obs,
    Sim ms ss -> srun m ss ops = Some obs -> run_ops p pn m K F ms ops [] = (obs, Ok tt).
  Proof.
    intros ops ms ss obs.
    exact (run_sim (step p pn m K F) (sstep m) (run_ops p pn m K F) (srun m) Sim
             (fun _ _ => eq_refl) (fun _ _ _ _ => eq_refl) (fun _ => eq_refl) (fun _ _ _ => eq_refl)
             step_refines_spec ops ms ss obs []).
  Qed.

  Lemma Sim_init : Sim (mkState [new_internal K F] [] []) (mkSS [mkSI [] 0] [] []).
  Proof.
    unfold Sim. cbn [st_hashers st_readers st_vals ss_h ss_r ss_v].
    split; [constructor; [apply (Rh_new m)|constructor]|].
    split; [constructor|]. split; [reflexivity|constructor].
  Qed.
End Steps.

Theorem machine_refines_spec : forall p, PlatformOK p -> forall pname m ops obs,
  mode_ok m -> spec_run_case m ops = Some obs -> run_case p pname m ops = (obs, Ok tt).
Proof.
  intros p POK pname m ops obs Hm Hs. unfold run_case. rewrite (mode_init_spec p POK m Hm).
  apply (run_refines_spec p POK m Hm pname ops _ _ obs (Sim_init m) Hs).
Qed.

Corollary machine_no_panic : forall p, PlatformOK p -> forall pname m ops obs,
  mode_ok m -> spec_run_case m ops = Some obs -> snd (run_case p pname m ops) = Ok tt.
Proof. intros p POK pname m ops obs Hm Hs. rewrite (machine_refines_spec p POK pname m ops obs Hm Hs). reflexivity. Qed.

Corollary machine_platform_independent : forall p1 p2, PlatformOK p1 -> PlatformOK p2 -> forall pn1 pn2 m ops obs,
  mode_ok m -> spec_run_case m ops = Some obs -> run_case p1 pn1 m ops = run_case p2 pn2 m ops.
Proof.
  intros p1 p2 P1 P2 pn1 pn2 m ops obs Hm Hs.
  rewrite (machine_refines_spec p1 P1 pn1 m ops obs Hm Hs), (machine_refines_spec p2 P2 pn2 m ops obs Hm Hs). reflexivity.
Qed.
