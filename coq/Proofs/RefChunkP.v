(* Reference implementation, chunk level: ChunkState::{update, output} of the
   model of reference_impl.rs against the specification's chunk_output, for any
   splitting of the chunk's bytes into update calls; Output::chaining_value and
   parent_output against the specification's records. *)
From V Require Import Proofs.ListP Proofs.ResP.
From V Require Import Base.Res Base.Word Base.MachInt gen.GenConsts
  Spec.Compress Spec.Tree Spec.Blake3 Model.RsChunk Model.RefImpl Proofs.WordP Proofs.PortableP Proofs.TreeP Proofs.ChunkP Proofs.C01P
  Proofs.RefCompressP.
Open Scope N_scope.

Definition ro_of (o : output) : ref_output :=
  mkRO (o_cv o) (words_of_bytes (o_block o)) (o_ctr o) (o_blen o) (o_flags o).

(* XofP.wf_out and that the words fit 32 bits.  Where both files are imported (RefImplP.v) the name means this one. *)
Definition wf_out (o : output) : Prop :=
  length (o_cv o) = 8%nat /\ length (o_block o) = 64%nat /\ Forall W (o_cv o) /\ W (o_blen o) /\ W (o_flags o).

Definition out_cvw (o : output) : list N := spec_c8 (o_cv o) (o_block o) (o_blen o) (o_ctr o) (o_flags o).

Lemma chaining_value_cvw o : chaining_value spec_c8 o = bytes_of_words (out_cvw o).
Proof. unfold chaining_value, out_cvw. reflexivity. Qed.

Lemma out_cvw_words o : wf_out o -> length (out_cvw o) = 8%nat /\ Forall W (out_cvw o).
Proof.
  intros (H1 & H2 & H3 & H4 & H5). split.
  - apply spec_c8_len; assumption.
  - apply spec_c8_words; assumption.
Qed.

Lemma ro_chaining_value_spec o : wf_out o -> ro_chaining_value (ro_of o) = Ok (out_cvw o).
Proof.
  intros (H1 & H2 & H3 & H4 & H5). unfold ro_chaining_value, ro_of.
  cbn [ro_input_chaining_value ro_block_words ro_counter ro_block_len ro_flags].
  rewrite (ref_compress_words_is_spec (o_cv o) _ (o_block o)); [|exact H1| |reflexivity].
  - cbn [bind]. unfold out_cvw, spec_c8, ref_first_8_words. reflexivity.
  - apply words_of_bytes_length. rewrite H2. reflexivity.
Qed.

(* the reference ChunkState is the Rust one field by field: the representation invariant and the
   steps on it (fill the buffer, compress the full buffer, output) are ChunkP's *)
Definition cs_of (cs : ref_chunk_state) : chunk_state :=
  mkCS (rcs_chaining_value cs) (rcs_chunk_counter cs) (rcs_block cs) (rcs_block_len cs)
       (rcs_blocks_compressed cs) (rcs_flags cs).

Definition rcs_of (c : chunk_state) : ref_chunk_state :=
  mkRCS (cs_cv c) (cs_ctr c) (cs_buf c) (cs_buf_len c) (cs_blocks c) (cs_flags c).

(* by rewriting, so that no conversion looks into `compress` *)
Lemma first8_compress cv b bl c f : ref_first_8_words (compress cv b bl c f) = spec_c8 cv b bl c f.
Proof. unfold ref_first_8_words, spec_c8. reflexivity. Qed.

Lemma cs_of_inv cs c : cs_of cs = c -> cs = rcs_of c.
Proof. destruct cs. intros <-. reflexivity. Qed.

Lemma cs_of_rcs_of c : cs_of (rcs_of c) = c.
Proof. destruct c. reflexivity. Qed.

(* the `if self.block_len == BLOCK_LEN` step of ChunkState::update *)
Definition rcs_flush (cs : ref_chunk_state) : res ref_chunk_state :=
  if rcs_block_len cs =? ref_BLOCK_LEN then
    block_words <- ref_words_from_le_bytes (rcs_block cs) 16 ;;
    w <- ref_compress (rcs_chaining_value cs) block_words (rcs_chunk_counter cs)
           ref_BLOCK_LEN (N.lor (rcs_flags cs) (rcs_start_flag cs)) ;;
    blocks_compressed <- mi_add 8 (rcs_blocks_compressed cs) 1 ;;
    Ok (mkRCS (ref_first_8_words w) (rcs_chunk_counter cs) ref_zero_block 0
              blocks_compressed (rcs_flags cs))
  else Ok cs.

(* the rest of the loop body is fill_buf of src/lib.rs (other panic codes): `take as u8` loses nothing, since take <= 64 *)
Lemma rcs_fill_eq {A} cs input (k : ref_chunk_state -> list N -> res A) c rest :
  cs_fill_buf (cs_of cs) input = Ok (c, rest) ->
  (want <- mi_sub 64 ref_BLOCK_LEN (rcs_block_len cs) ;;
   let take := N.min want (rlen input) in
   assert! (rcs_block_len cs <=? rlen (rcs_block cs)) code 74 ;;
   assert! (take <=? rlen (rcs_block cs) - rcs_block_len cs) code 75 ;;
   let block := firstn (N.to_nat (rcs_block_len cs)) (rcs_block cs)
                ++ firstn (N.to_nat take) input
                ++ skipn (N.to_nat (rcs_block_len cs + take)) (rcs_block cs) in
   take8 <- mi_cast 8 take ;;
   block_len <- mi_add 8 (rcs_block_len cs) take8 ;;
   k (mkRCS (rcs_chaining_value cs) (rcs_chunk_counter cs) block block_len
            (rcs_blocks_compressed cs) (rcs_flags cs))
     (skipn (N.to_nat take) input))
  = k (rcs_of c) rest.
Proof.
  unfold cs_fill_buf, cs_of. cbn [cs_cv cs_ctr cs_buf cs_buf_len cs_blocks cs_flags].
  change rs_BLOCK_LEN with ref_BLOCK_LEN. change nlen with rlen.
  destruct (mi_sub 64 ref_BLOCK_LEN (rcs_block_len cs)) as [want| |] eqn:E; [|discriminate..]. cbn [bind]. cbv zeta.
  apply mi_sub_Ok in E. change ref_BLOCK_LEN with 64 in E.
  do 2 (match goal with |- context [check ?b _] => destruct b end; cbn [check bind]; [|discriminate]).
  rewrite cast_small by (change (2 ^ 8) with 256; lia). cbn [bind].
  destruct (mi_add 8 _ _); [|discriminate..]. cbn [bind]. intros [= <- <-]. reflexivity.
Qed.

Lemma rcs_update_loop_unfold fuel cs x input' cs1 c rest :
  rcs_flush cs = Ok cs1 -> cs_fill_buf (cs_of cs1) (x :: input') = Ok (c, rest) ->
  rcs_update_loop (S fuel) cs (x :: input') = rcs_update_loop fuel (rcs_of c) rest.
Proof.
  intros E1 E2. rewrite <- (rcs_fill_eq cs1 (x :: input') (rcs_update_loop fuel) c rest E2).
  cbn [rcs_update_loop]. fold (rcs_flush cs). rewrite E1. reflexivity.
Qed.

Section RefChunk.
  Variables (K : list N) (F T : N).
  Hypothesis HK : length K = 8%nat.
  Hypothesis HKW : Forall W K.
  Hypothesis HF : W F.

  Notation c8 := spec_c8.
  Notation cvfold := (cvfold c8 F T).
  Notation Repr := (Repr c8 K F T).

  Lemma W_small x : x < 4294967296 -> W x.
  Proof. intros H; exact H. Qed.

  Lemma W_start_flag b : W (start_flag b).
  Proof. destruct b; unfold W, start_flag, CHUNK_START; lia. Qed.

  Lemma cvfold_wf n cv first bs :
    length cv = 8%nat -> Forall W cv -> 64 * N.of_nat n <= len bs ->
    length (fst (cvfold n cv first bs)) = 8%nat /\ Forall W (fst (cvfold n cv first bs)).
  Proof.
    intros Hcv HW. apply (cvfold_inv c8 F T (fun cv => length cv = 8%nat /\ Forall W cv)); [|split; assumption].
    intros cv' b f [H8 HW'] Hb. split; [apply spec_c8_len; assumption|].
    apply spec_c8_words; try assumption; [unfold W; lia|apply W_lor; [exact HF|apply W_start_flag]].
  Qed.

  Definition RTight (cs : ref_chunk_state) (bs : list N) : Prop := Tight c8 K F T (cs_of cs) bs.

  Lemma RTight_new : RTight (rcs_new K T F) [].
  Proof. apply Tight_cs_new. Qed.

  Lemma RTight_fields cs bs : RTight cs bs -> rcs_len cs = len bs /\ rcs_chunk_counter cs = T /\ len bs <= 1024.
  Proof.
    intros (nb & [E [Hl H1024]] & _). apply cs_of_inv in E. subst cs. unfold rcs_len.
    cbn [rcs_of rcs_blocks_compressed rcs_block_len rcs_chunk_counter cs_blocks cs_buf_len cs_ctr].
    change ref_BLOCK_LEN with 64. repeat split; lia.
  Qed.

  Lemma rcs_flush_spec cs bs nb : Repr (cs_of cs) bs nb ->
    exists cs1 nb1, rcs_flush cs = Ok cs1 /\ Repr (cs_of cs1) bs nb1 /\ len bs - 64 * N.of_nat nb1 < 64.
  Proof.
    intros HR. pose proof HR as [E [Hl H1024]]. apply cs_of_inv in E. unfold rcs_flush. change ref_BLOCK_LEN with 64.
    replace (rcs_block_len cs) with (len bs - 64 * N.of_nat nb) by (rewrite E; reflexivity).
    destruct (len bs - 64 * N.of_nat nb =? 64) eqn:Efull.
    2:{ eexists _, nb. split; [reflexivity|]. split; [exact HR|lia]. }
    pose proof (compress_buf_spec c8 c8 (fun _ _ _ _ _ _ _ => eq_refl) spec_c8_len K F T HK _ bs nb HR ltac:(lia)) as HR1.
    assert (Hp : length (rcs_block cs) = 64%nat).
    { rewrite E. cbn [rcs_of rcs_block cs_buf].
      pose proof (pad64_length (drop (64 * N.of_nat nb) bs)) as H. rewrite len_drop in H. unfold len in *. lia. }
    rewrite (ref_words_from_le_bytes_ok _ 16) by exact Hp. cbn [bind].
    rewrite (ref_compress_words_is_spec _ _ (rcs_block cs));
      [|rewrite E; apply cvfold_len; [exact spec_c8_len|exact HK|lia]|apply words_of_bytes_length; exact Hp|reflexivity].
    cbn [bind]. rewrite add_small by (rewrite E; cbn [rcs_of rcs_blocks_compressed cs_blocks]; change (2 ^ 8) with 256; lia).
    cbn [bind]. eexists _, (S nb). split; [reflexivity|]. split; [|lia].
    rewrite first8_compress. exact HR1.
  Qed.

  Lemma rcs_update_loop_spec : forall fuel input cs bs nb,
    Repr (cs_of cs) bs nb -> (input = [] -> bs = [] /\ nb = 0%nat \/ 64 * N.of_nat nb < len bs) ->
    len (bs ++ input) <= 1024 -> (length input < fuel)%nat ->
    exists cs', rcs_update_loop fuel cs input = Ok cs' /\ RTight cs' (bs ++ input).
  Proof.
    induction fuel as [|fuel IH]; intros input cs bs nb HR Ht Htot Hfuel; [lia|].
    destruct input as [|x input'] eqn:Ein.
    - exists cs. split; [reflexivity|]. rewrite app_nil_r. exists nb. split; [exact HR|apply Ht; reflexivity].
    - clear Ht. assert (Hpos : 0 < len input) by (rewrite Ein; unfold len; cbn [length]; lia).
      destruct (rcs_flush_spec cs bs nb HR) as (cs1 & nb1 & Hflush & HR1 & Hlt).
      rewrite <- Ein in Htot. destruct (fill_buf_spec c8 K F T _ bs nb1 input HR1 Htot) as (c2 & Hfill & HR2).
      set (tk := N.min (64 - (len bs - 64 * N.of_nat nb1)) (len input)) in *.
      rewrite Ein in Hfill. rewrite (rcs_update_loop_unfold fuel cs x input' cs1 c2 _ Hflush Hfill). rewrite <- Ein in *.
      rewrite <- (cs_of_rcs_of c2) in HR2. destruct HR1 as (_ & Hl1 & _). rewrite len_app in Htot.
      assert (Htk : 1 <= tk <= len input) by (unfold tk; lia).
      destruct (IH (drop tk input) _ _ nb1 HR2) as (cs' & Hrun & HT).
      + intros _. right. rewrite len_app, len_take. lia.
      + rewrite <- app_assoc, take_drop, len_app. exact Htot.
      + pose proof (len_drop tk input) as Hd. unfold len in Hd, Htk. lia.
      + exists cs'. split; [exact Hrun|]. rewrite <- app_assoc, take_drop in HT. exact HT.
  Qed.

  Theorem rcs_update_spec cs bs input :
    RTight cs bs -> len (bs ++ input) <= 1024 ->
    exists cs', rcs_update cs input = Ok cs' /\ RTight cs' (bs ++ input).
  Proof.
    intros (nb & HR & Ht) Htot. unfold rcs_update.
    apply (rcs_update_loop_spec _ input cs bs nb HR); [intros _; exact Ht|exact Htot|lia].
  Qed.

  Theorem rcs_output_spec cs bs :
    RTight cs bs -> rcs_output cs = Ok (ro_of (chunk_output c8 K F T bs)).
  Proof.
    intros HT. rewrite <- (cs_output_chunk c8 K F T _ _ HT).
    destruct HT as (nb & [E [Hl _]] & _). apply cs_of_inv in E. subst cs. unfold rcs_output, rcs_of.
    cbn [rcs_block cs_buf]. rewrite (ref_words_from_le_bytes_ok _ 16); [reflexivity|].
    pose proof (pad64_length (drop (64 * N.of_nat nb) bs)) as H. rewrite len_drop in H. unfold len in *. lia.
  Qed.

  Lemma chunk_output_wf bs : len bs <= 1024 -> wf_out (chunk_output c8 K F T bs).
  Proof.
    intros H. unfold chunk_output.
    set (nb := N.to_nat ((len bs - 1) / 64)).
    rewrite (chunk_go_cvfold c8 F T nb 16); try (unfold nb; lia).
    destruct (cvfold_wf nb K true bs HK HKW ltac:(unfold nb; lia)) as [H8 HW].
    unfold final, wf_out. cbn [o_cv o_block o_blen o_flags].
    assert (Hd : len (drop (64 * N.of_nat nb) bs) <= 64) by (rewrite len_drop; unfold nb; lia).
    repeat split.
    - exact H8.
    - pose proof (pad64_length _ Hd) as Hp. unfold len in Hp. lia.
    - exact HW.
    - unfold W. lia.
    - apply W_lor; [apply W_lor; [exact HF|apply W_start_flag]|unfold W, CHUNK_END; lia].
  Qed.

  Lemma parent_output_wf l r : length l = 8%nat -> length r = 8%nat ->
    wf_out (parent_output K F (bytes_of_words l) (bytes_of_words r)).
  Proof.
    intros Hl Hr. unfold parent_output, wf_out. cbn [o_cv o_block o_blen o_flags].
    repeat split.
    - exact HK.
    - rewrite app_length, !bytes_of_words_length, Hl, Hr. reflexivity.
    - exact HKW.
    - apply W_lor; [exact HF|unfold W, PARENT; lia].
  Qed.

  Lemma ref_parent_output_spec l r :
    length l = 8%nat -> length r = 8%nat -> Forall W l -> Forall W r ->
    ref_parent_output l r K F = ro_of (parent_output K F (bytes_of_words l) (bytes_of_words r)).
  Proof.
    intros Hl Hr Wl Wr. unfold ref_parent_output, ro_of, parent_output.
    cbn [o_cv o_block o_ctr o_blen o_flags].
    rewrite (words_of_bytes_app _ _ 8) by (rewrite bytes_of_words_length, Hl; reflexivity).
    rewrite !words_of_bytes_of_words by assumption.
    rewrite N.lor_comm. reflexivity.
  Qed.
End RefChunk.
