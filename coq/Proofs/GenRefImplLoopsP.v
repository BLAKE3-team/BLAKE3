(* The rest of reference_impl/reference_impl.rs as translated from the source text (gen/GenRefImplLoops.v:
   Output::root_output_bytes, ChunkState, Hasher) against the hand-written model Model/RefImpl.v, through the
   representation maps ro_of_src, rcs_of_src, rh_of_src; the hypotheses on arguments are the declared types only
   (wt_out, wt_cs, wt_h: array lengths, u8 fields < 256).
   The model gives each inner loop a fuel of its own (rcs_update: S (length input); ref_add_chunk_chaining_value:
   320; ro_root_output_bytes: S (out_len / 64)) and recurses on the counter in finalize; the translation passes one
   fuel down to every loop.  The three simple loops equal the model's for every fuel, OutOfFuel and Panic results
   included; the functions around them equal the model's with enough fuel, and with any fuel are OutOfFuel or equal.
   The model reports the wrap-around of `cv_stack_len -= 1` in pop_stack as Panic 72 (the index panic that
   follows it in a release build); the translator gives that subtraction the site code 72 (ref_at_site). *)
From Coq Require Import NArith List Bool Lia Arith.
From V Require Import Base.Res Base.Word Base.MachInt Base.Arr Base.Arr2 gen.GenConsts gen.GenRefImpl
  gen.GenRefImplLoops Spec.Compress Spec.Tree Spec.Blake3 Model.RefImpl Proofs.WordP Proofs.PortableP Proofs.FormulasP
  Proofs.RefCompressP Proofs.RefImplP Proofs.GenRefImplP.
Import ListNotations.
Open Scope N_scope.

Local Opaque refsrc_compress ref_compress.

(* ResP.res_map written with bind: see Proofs/GenLibLoopsP.v, at res_map *)
Definition res_map {A B} (f : A -> B) (r : res A) : res B := x <- r ;; Ok (f x).

(* r has run out of fuel, or is m (GenLibWideP.refines is the same relation, for the Rust and C sides) *)
Definition fuel_approx {A} (r m : res A) : Prop := r = OutOfFuel \/ r = m.

Lemma bind_assoc {A B C} (m : res A) (k : A -> res B) (k' : B -> res C) :
  bind (bind m k) k' = bind m (fun a => bind (k a) k').
Proof. destruct m; reflexivity. Qed.

(* two computations related step by step: the translated T and the model's M, through the representation map g;
   P is what a successful run of T guarantees about its result (the declared types).  This is ResP.rsim (img g P) T M:
   here g maps the translated records to the model's and T stands where ResP's lemmas have the model *)
Definition rel_res {A A'} (g : A -> A') (P : A -> Prop) (T : res A) (M : res A') : Prop :=
  res_map g T = M /\ forall a, T = Ok a -> P a.

Lemma rel_bind {A A' B B'} (g : A -> A') (f : B -> B') (P : A -> Prop) (Q : B -> Prop)
      (T : res A) (M : res A') (Kt : A -> res B) (Km : A' -> res B') :
  rel_res g P T M -> (forall a, P a -> rel_res f Q (Kt a) (Km (g a))) ->
  rel_res f Q (bind T Kt) (bind M Km).
Proof.
  intros [<- HP] HK. destruct T as [a| |]; cbn [bind res_map]; try (split; [reflexivity|discriminate]).
  apply HK. apply HP. reflexivity.
Qed.

(* the model's value m is given up to conversion, so that g and P can be read off the goal *)
Lemma rel_Ok {A A'} (g : A -> A') (P : A -> Prop) a m : m = g a -> P a -> rel_res g P (Ok a) (Ok m).
Proof. intros -> H. split; [reflexivity|]. intros a' [= <-]. exact H. Qed.

Lemma rel_fail {A A'} (g : A -> A') (P : A -> Prop) (T : res A) (M : res A') :
  (forall a, T <> Ok a) -> res_map g T = M -> rel_res g P T M.
Proof. intros H E. split; [exact E|]. intros a Ha. destruct (H a Ha). Qed.

Lemma rel_Panic {A A'} (g : A -> A') (P : A -> Prop) c : rel_res g P (Panic c) (Panic c).
Proof. split; [reflexivity|discriminate]. Qed.

Lemma rel_OutOfFuel {A A'} (g : A -> A') (P : A -> Prop) : rel_res g P OutOfFuel OutOfFuel.
Proof. split; [reflexivity|discriminate]. Qed.

Lemma rel_same {A B B'} (f : B -> B') (Q : B -> Prop) (m : res A) (Kt : A -> res B) (Km : A -> res B') :
  (forall a, m = Ok a -> rel_res f Q (Kt a) (Km a)) -> rel_res f Q (bind m Kt) (bind m Km).
Proof. intros H. destruct m; cbn [bind]; [apply H; reflexivity|apply rel_Panic|apply rel_OutOfFuel]. Qed.

Lemma rel_check {B B'} (f : B -> B') (Q : B -> Prop) b c (Kt : unit -> res B) (Km : unit -> res B') :
  (b = true -> rel_res f Q (Kt tt) (Km tt)) -> rel_res f Q (bind (check b c) Kt) (bind (check b c) Km).
Proof. intros H. destruct b; [apply H; reflexivity|apply rel_Panic]. Qed.

Lemma rlen_firstn n (l : list N) : rlen (firstn n l) = N.min (N.of_nat n) (rlen l).
Proof. unfold rlen. rewrite firstn_length. lia. Qed.

Lemma rlen_skipn n (l : list N) : rlen (skipn n l) = rlen l - N.of_nat n.
Proof. unfold rlen. rewrite skipn_length. lia. Qed.

Definition wt_out (o : refsrc_Output) : Prop :=
  length (refsrc_Output_input_chaining_value o) = 8%nat /\ length (refsrc_Output_block_words o) = 16%nat.

Definition wt_cs (c : refsrc_ChunkState) : Prop :=
  length (refsrc_ChunkState_chaining_value c) = 8%nat /\ length (refsrc_ChunkState_block c) = 64%nat /\
  refsrc_ChunkState_block_len c < 256 /\ refsrc_ChunkState_blocks_compressed c < 256.

Definition wt_h (h : refsrc_Hasher) : Prop :=
  wt_cs (refsrc_Hasher_chunk_state h) /\ length (refsrc_Hasher_key_words h) = 8%nat /\
  Forall (fun cv => length cv = 8%nat) (refsrc_Hasher_cv_stack h) /\ refsrc_Hasher_cv_stack_len h < 256.

Definition rh_of_src (h : refsrc_Hasher) : ref_hasher :=
  mkRH (rcs_of_src (refsrc_Hasher_chunk_state h)) (refsrc_Hasher_key_words h) (refsrc_Hasher_cv_stack h)
       (refsrc_Hasher_cv_stack_len h) (refsrc_Hasher_flags h).

Lemma refsrc_first8_compress_length cv bw c bl fl :
  length (refsrc_first_8_words (refsrc_compress cv bw c bl fl)) = 8%nat.
Proof.
  unfold refsrc_first_8_words, arr_slice. cbn [skipn]. rewrite firstn_length, refsrc_compress_length. reflexivity.
Qed.

(* the inner loop: for (word, out_word) in words.iter().zip(out_block.chunks_mut(4)) *)
Lemma refsrc_root_zip_eq self ctr t1 words : forall ws out_block,
  (length out_block <= 4 * length ws)%nat ->
  refsrc_Output_root_output_bytes_loop1 self ctr t1 out_block words ws =
  Ok (ref_fill_words ws (rlen out_block)).
Proof.
  induction ws as [|w ws IH]; intros ob H.
  - destruct ob; [reflexivity|cbn in H; lia].
  - cbn [refsrc_Output_root_output_bytes_loop1 ref_fill_words]. unfold rlen at 1.
    destruct (N.of_nat (length ob) =? 0) eqn:E.
    + destruct ob; [reflexivity|cbn in E; lia].
    + cbv zeta. change (N.to_nat 4) with 4%nat. change (N.to_nat 0) with 0%nat.
      assert (Hb : length (bytes_of_word w) = 4%nat) by reflexivity.
      rewrite Hb.
      assert (Hl : length (firstn 4 ob) = N.to_nat (N.min 4 (rlen ob))).
      { rewrite firstn_length. unfold rlen. lia. }
      replace (N.of_nat (length (firstn 4 ob)) <=? N.of_nat 4) with true
        by (symmetry; apply N.leb_le; rewrite firstn_length; lia).
      cbn [check bind].
      rewrite Nat2N.id.
      replace (N.of_nat (length (firstn (length (firstn 4 ob)) (bytes_of_word w))) =? N.of_nat (length (firstn 4 ob)))
        with true by (symmetry; apply N.eqb_eq; rewrite (firstn_length (length (firstn 4 ob))), Hb, firstn_length; lia).
      cbn [check bind].
      rewrite IH by (rewrite skipn_length; cbn [length] in H; lia).
      cbn [bind]. f_equal.
      unfold arr_store.
      assert (Hfo : (length (firstn 4 ob) <= 4)%nat) by (rewrite firstn_length; lia).
      set (fo := firstn 4 ob) in *.
      rewrite (skipn_all2 fo) by (rewrite firstn_length, Hb; lia).
      cbn [firstn app]. rewrite app_nil_r, Hl. f_equal.
      change 4%nat with (N.to_nat 4). rewrite rlen_skipn. f_equal. unfold rlen. lia.
Qed.

(* the outer loop, for every fuel: for out_block in out_slice.chunks_mut(2 * OUT_LEN) *)
Lemma refsrc_root_loop_eq o : wt_out o -> forall fuel out_slice ctr,
  res_map fst (refsrc_Output_root_output_bytes_loop2 fuel o out_slice ctr 64) =
  ref_root_loop fuel (ro_of_src o) ctr (rlen out_slice).
Proof.
  intros [H1 H2]. induction fuel as [|fuel IH]; intros os ctr.
  - destruct os; reflexivity.
  - cbn [refsrc_Output_root_output_bytes_loop2 ref_root_loop]. unfold rlen at 1.
    destruct (N.of_nat (length os) =? 0) eqn:E; [destruct os; [reflexivity|discriminate]|].
    cbv zeta.
    change (ro_input_chaining_value (ro_of_src o)) with (refsrc_Output_input_chaining_value o).
    change (ro_block_words (ro_of_src o)) with (refsrc_Output_block_words o).
    change (ro_block_len (ro_of_src o)) with (refsrc_Output_block_len o).
    change (ro_flags (ro_of_src o)) with (refsrc_Output_flags o).
    unfold mb at 1, mi_or. cbn [bind].
    rewrite (refsrc_compress_eq _ _ ctr _ _ H1 H2). cbn [bind].
    rewrite refsrc_root_zip_eq.
    2:{ rewrite refsrc_compress_length, firstn_length. change (N.to_nat 64) with 64%nat. lia. }
    cbn [bind]. unfold mb at 1. cbn [bind].
    change (2 * ref_OUT_LEN) with 64.
    destruct (mi_add 64 ctr 1) as [ctr'| |]; cbn [bind res_map]; try reflexivity.
    rewrite rlen_firstn, N2Nat.id.
    replace (rlen os - N.min 64 (rlen os)) with (rlen (skipn (N.to_nat 64) os)) by (rewrite rlen_skipn; lia).
    rewrite <- IH. unfold res_map.
    destruct (refsrc_Output_root_output_bytes_loop2 fuel o (skipn (N.to_nat 64) os) ctr' 64) as [[r c]| |];
      reflexivity.
Qed.

Theorem refsrc_Output_root_output_bytes_eq o fuel out_slice : wt_out o ->
  refsrc_Output_root_output_bytes fuel o out_slice = ref_root_loop fuel (ro_of_src o) 0 (rlen out_slice).
Proof.
  intros H. unfold refsrc_Output_root_output_bytes. cbv zeta.
  change (mb (mi_mul 64) (Ok 2) (Ok ref_OUT_LEN)) with (@Ok N 64). cbn [bind].
  rewrite <- (refsrc_root_loop_eq o H). unfold res_map.
  destruct (refsrc_Output_root_output_bytes_loop2 fuel o out_slice 0 64) as [[r c]| |]; reflexivity.
Qed.

Theorem refsrc_ChunkState_new_eq key_words chunk_counter flags :
  rcs_of_src (refsrc_ChunkState_new key_words chunk_counter flags) = rcs_new key_words chunk_counter flags.
Proof. reflexivity. Qed.

Lemma refsrc_ChunkState_new_wt key_words chunk_counter flags : length key_words = 8%nat ->
  wt_cs (refsrc_ChunkState_new key_words chunk_counter flags).
Proof. intros H. unfold wt_cs. cbn. repeat split; try assumption; lia. Qed.

Lemma nonempty_not_zero {A} (b : A) tl : (N.of_nat (length (b :: tl)) =? 0) = false.
Proof. apply N.eqb_neq. cbn [length]. lia. Qed.

Ltac rcs_fields :=
  cbn [refsrc_ChunkState_chaining_value refsrc_ChunkState_chunk_counter refsrc_ChunkState_block
       refsrc_ChunkState_block_len refsrc_ChunkState_blocks_compressed refsrc_ChunkState_flags
       refsrc_ChunkState_set_chaining_value refsrc_ChunkState_set_chunk_counter refsrc_ChunkState_set_block
       refsrc_ChunkState_set_block_len refsrc_ChunkState_set_blocks_compressed refsrc_ChunkState_set_flags] in *.

Definition cs_pair (p : refsrc_ChunkState * list N) : ref_chunk_state := rcs_of_src (fst p).
Definition cs_pair_wt (p : refsrc_ChunkState * list N) : Prop := wt_cs (fst p).

Lemma refsrc_cs_update_loop_rel : forall fuel cs input, wt_cs cs ->
  rel_res cs_pair cs_pair_wt (refsrc_ChunkState_update_loop1 fuel cs input)
          (rcs_update_loop fuel (rcs_of_src cs) input).
Proof.
  induction fuel as [|fuel IH]; intros cs input Hwt.
  - destruct input as [|b tl]; cbn; [|apply rel_OutOfFuel].
    apply rel_Ok; [reflexivity|]. exact Hwt.
  - destruct input as [|b tl].
    + cbn. apply rel_Ok; [reflexivity|]. exact Hwt.
    + cbn [refsrc_ChunkState_update_loop1 rcs_update_loop].
      unfold mcmp at 1. cbn [bind]. rewrite nonempty_not_zero. cbn [negb bind].
      set (input := b :: tl) in *.
      destruct cs as [cv ctr blk bl bc fl]. destruct Hwt as (Hcv & Hblk & Hbl & Hbc). rcs_fields.
      unfold mcmp at 1, mu at 1, mi_cast at 1. cbn [bind]. rewrite (cast64_small bl) by lia.
      change (rcs_of_src {| refsrc_ChunkState_chaining_value := cv; refsrc_ChunkState_chunk_counter := ctr;
                refsrc_ChunkState_block := blk; refsrc_ChunkState_block_len := bl;
                refsrc_ChunkState_blocks_compressed := bc; refsrc_ChunkState_flags := fl |})
        with (mkRCS cv ctr blk bl bc fl).
      cbn [rcs_chaining_value rcs_chunk_counter rcs_block rcs_block_len rcs_blocks_compressed rcs_flags].
      apply (rel_bind rcs_of_src cs_pair wt_cs).
      * (* the buffered block is compressed when it is full *)
        destruct (bl =? ref_BLOCK_LEN) eqn:Ebl.
        2:{ apply rel_Ok; [reflexivity|]. repeat split; assumption. }
        unfold refsrc_words_from_little_endian_bytes_debug_assert. rewrite Hblk.
        change (Nat.eqb 64 (4 * length (repeat 0 (N.to_nat 16)))) with true. cbn [check bind].
        rewrite (ref_words_from_le_bytes_ok blk 16) by (rewrite Hblk; reflexivity). cbn [bind].
        rewrite (refsrc_words_from_le_bytes_eq blk) by (rewrite Hblk; reflexivity).
        change (mu (mi_cast 32) (Ok ref_BLOCK_LEN)) with (@Ok N ref_BLOCK_LEN). cbn [bind].
        rewrite refsrc_ChunkState_start_flag_eq. unfold mb, mi_or. cbn [bind].
        rewrite (refsrc_compress_eq cv (words_of_bytes blk))
          by (try assumption; apply words_of_bytes_length; rewrite Hblk; reflexivity).
        cbn [bind]. rcs_fields.
        unfold mi_add, fits. destruct (bc + 1 <? 2 ^ 8) eqn:Ebc; [|apply rel_Panic].
        cbn [bind]. 
        apply rel_Ok; [reflexivity|].
        unfold wt_cs. rcs_fields. rewrite refsrc_first8_compress_length.
        apply N.ltb_lt in Ebc. change (2 ^ 8) with 256 in Ebc. repeat split; try reflexivity; lia.
      * (* `take` bytes are copied into the block buffer *)
        clear cv ctr blk bl bc fl Hcv Hblk Hbl Hbc.
        intros [cv ctr blk bl bc fl] (Hcv & Hblk & Hbl & Hbc). rcs_fields.
        unfold rcs_of_src. rcs_fields.
        cbn [rcs_chaining_value rcs_chunk_counter rcs_block rcs_block_len rcs_blocks_compressed rcs_flags].
        unfold mb, mu, mi_cast, mi_min. cbn [bind]. rewrite (cast64_small bl) by lia.
        unfold mi_sub. destruct (bl <=? ref_BLOCK_LEN) eqn:Ebl; [|apply rel_Panic]. cbn [bind].
        unfold rlen. set (take := N.min (ref_BLOCK_LEN - bl) (N.of_nat (length input))).
        apply rel_check; intros E74. apply rel_check; intros E75.
        replace (take <=? N.of_nat (length input)) with true by (symmetry; apply N.leb_le; lia).
        cbn [check bind].
        replace (N.of_nat (length (firstn (N.to_nat take) input)) =? take) with true
          by (symmetry; apply N.eqb_eq; rewrite firstn_length; lia).
        cbn [check bind].
        apply rel_same; intros bl' Eadd.
        apply N.leb_le in Ebl, E74, E75. change ref_BLOCK_LEN with 64 in *.
        assert (Hfl : length (firstn (N.to_nat take) input) = N.to_nat take) by (rewrite firstn_length; lia).
        match goal with |- rel_res _ _ (_ _ ?c _) (_ _ ?m _) => replace m with (rcs_of_src c); [apply IH|] end.
        -- unfold wt_cs, arr_store. rcs_fields. rewrite !app_length, Hfl, firstn_length, skipn_length.
           unfold mi_add, fits in Eadd. destruct (bl + N.land take (N.ones 8) <? 2 ^ 8) eqn:E8; [|discriminate].
           injection Eadd as <-. apply N.ltb_lt in E8. change (2 ^ 8) with 256 in E8.
           repeat split; try assumption; lia.
        -- unfold rcs_of_src, arr_store. rcs_fields. rewrite Hfl, N2Nat.inj_add. reflexivity.
Qed.

Lemma refsrc_ChunkState_update_rel fuel cs input : wt_cs cs ->
  rel_res rcs_of_src wt_cs (refsrc_ChunkState_update fuel cs input) (rcs_update_loop fuel (rcs_of_src cs) input).
Proof.
  intros H. destruct (refsrc_cs_update_loop_rel fuel cs input H) as [E W].
  unfold refsrc_ChunkState_update. rewrite <- E. unfold res_map, cs_pair.
  apply rel_same; intros [c i] Ec. apply rel_Ok; [reflexivity|]. apply (W (c, i)), Ec.
Qed.

Theorem refsrc_ChunkState_update_model cs input : wt_cs cs ->
  res_map rcs_of_src (refsrc_ChunkState_update (S (length input)) cs input) = rcs_update (rcs_of_src cs) input.
Proof. intros H. apply refsrc_ChunkState_update_rel, H. Qed.

Lemma refsrc_ChunkState_output_rel cs : wt_cs cs ->
  rel_res ro_of_src wt_out (refsrc_ChunkState_output cs) (rcs_output (rcs_of_src cs)).
Proof.
  destruct cs as [cv ctr blk bl bc fl]. intros (Hcv & Hblk & Hbl & Hbc). rcs_fields.
  unfold refsrc_ChunkState_output, rcs_output. cbv zeta. rcs_fields.
  unfold refsrc_words_from_little_endian_bytes_debug_assert. rewrite Hblk.
  change (Nat.eqb 64 (4 * length (repeat 0 (N.to_nat 16)))) with true. cbn [check bind].
  rewrite refsrc_ChunkState_start_flag_eq.
  unfold rcs_of_src. rcs_fields.
  cbn [rcs_chaining_value rcs_chunk_counter rcs_block rcs_block_len rcs_blocks_compressed rcs_flags].
  rewrite (ref_words_from_le_bytes_ok blk 16) by (rewrite Hblk; reflexivity). cbn [bind].
  rewrite (refsrc_words_from_le_bytes_eq blk) by (rewrite Hblk; reflexivity).
  unfold mu, mb, mi_cast, mi_or. cbn [bind].
  replace (N.land bl (N.ones 32)) with bl.
  2:{ rewrite N.land_ones. symmetry. apply N.mod_small. change (2 ^ 32) with 4294967296. lia. }
  apply rel_Ok; [reflexivity|].
  split; [exact Hcv|]. cbn. apply words_of_bytes_length. rewrite Hblk. reflexivity.
Qed.

Ltac h_fields :=
  cbn [refsrc_Hasher_chunk_state refsrc_Hasher_key_words refsrc_Hasher_cv_stack refsrc_Hasher_cv_stack_len
       refsrc_Hasher_flags refsrc_Hasher_set_chunk_state refsrc_Hasher_set_key_words refsrc_Hasher_set_cv_stack
       refsrc_Hasher_set_cv_stack_len refsrc_Hasher_set_flags
       rh_chunk_state rh_key_words rh_cv_stack rh_cv_stack_len rh_flags] in *.

Theorem refsrc_Hasher_new_internal_eq key_words flags :
  rh_of_src (refsrc_Hasher_new_internal key_words flags) = ref_new_internal key_words flags.
Proof. reflexivity. Qed.

Lemma refsrc_Hasher_new_internal_wt key_words flags : length key_words = 8%nat ->
  wt_h (refsrc_Hasher_new_internal key_words flags).
Proof.
  intros H. unfold wt_h, refsrc_Hasher_new_internal. h_fields.
  split; [apply refsrc_ChunkState_new_wt; exact H|]. split; [exact H|]. split; [|lia].
  apply Forall_forall. intros x Hx. apply repeat_spec in Hx. subst x. reflexivity.
Qed.

Theorem refsrc_Hasher_new_eq : rh_of_src refsrc_Hasher_new = ref_new.
Proof. reflexivity. Qed.

(* any key: the model's assert 1600 is the translated debug_assert_eq! of words_from_little_endian_bytes *)
Theorem refsrc_Hasher_new_keyed_eq key :
  res_map rh_of_src (refsrc_Hasher_new_keyed key) = ref_new_keyed key.
Proof.
  unfold refsrc_Hasher_new_keyed, ref_new_keyed. cbv zeta.
  change 8%nat with (length (repeat 0 (N.to_nat 8))) at 1.
  rewrite refsrc_words_from_le_bytes_model.
  destruct (refsrc_words_from_little_endian_bytes_debug_assert key (repeat 0 (N.to_nat 8))); reflexivity.
Qed.

Lemma arr2_set_upd (l : list (list N)) i v : arr2_set l i v = upd l i v.
Proof.
  revert i. induction l as [|h tl IH]; intros [|i]; cbn [upd arr2_set]; try reflexivity.
  rewrite IH. reflexivity.
Qed.

Lemma Forall_upd {A} (P : A -> Prop) v : P v -> forall (l : list A) i, Forall P l -> Forall P (upd l i v).
Proof.
  intros Hv. induction l as [|h tl IH]; intros [|i] H; cbn [upd]; try exact H.
  - inversion H; subst. constructor; assumption.
  - inversion H; subst. constructor; [assumption|]. apply IH. assumption.
Qed.

Lemma refsrc_Hasher_push_stack_rel h cv : wt_h h -> length cv = 8%nat ->
  rel_res rh_of_src wt_h (refsrc_Hasher_push_stack h cv) (ref_push_stack (rh_of_src h) cv).
Proof.
  destruct h as [cs kw st sl fl]. intros (Hcs & Hkw & Hst & Hsl) Hcv. h_fields.
  unfold refsrc_Hasher_push_stack, ref_push_stack, rh_of_src. h_fields.
  unfold mu, mb, mi_cast. cbn [bind]. rewrite (cast64_small sl) by lia.
  apply rel_check; intros E.
  unfold mi_add, fits. destruct (sl + 1 <? 2 ^ 8) eqn:E8; cbn [bind]; [|apply rel_Panic].
  rewrite arr2_set_upd.
  apply rel_Ok; [reflexivity|].
  unfold wt_h. h_fields. apply N.ltb_lt in E8. change (2 ^ 8) with 256 in E8.
  split; [exact Hcs|]. split; [exact Hkw|]. split; [apply Forall_upd; assumption|lia].
Qed.

Definition h_cv (p : refsrc_Hasher * list N) : ref_hasher * list N := (rh_of_src (fst p), snd p).
Definition h_cv_wt (p : refsrc_Hasher * list N) : Prop := wt_h (fst p) /\ length (snd p) = 8%nat.

Lemma refsrc_Hasher_pop_stack_rel h : wt_h h ->
  rel_res h_cv h_cv_wt (refsrc_Hasher_pop_stack h) (ref_pop_stack (rh_of_src h)).
Proof.
  destruct h as [cs kw st sl fl]. intros (Hcs & Hkw & Hst & Hsl). h_fields.
  unfold refsrc_Hasher_pop_stack, ref_pop_stack, rh_of_src. h_fields.
  unfold mu, mb, mi_cast, mi_sub. cbn [bind].
  destruct (1 <=? sl) eqn:E1; cbn [ref_at_site check bind]; [|apply rel_Panic].
  apply N.leb_le in E1. rewrite (cast64_small (sl - 1)) by lia.
  apply rel_check; intros E.
  apply N.ltb_lt in E.
  rewrite (arr2_get_indep st _ ref_zero_cv) by lia.
  apply rel_Ok; [reflexivity|].
  split; cbn [fst snd].
  - unfold wt_h. h_fields. split; [exact Hcs|]. split; [exact Hkw|]. split; [exact Hst|lia].
  - rewrite Forall_forall in Hst. apply Hst. apply nth_In. lia.
Qed.

Lemma refsrc_parent_cv_length l r k fl : length (refsrc_parent_cv l r k fl) = 8%nat.
Proof.
  unfold refsrc_parent_cv, refsrc_Output_chaining_value. cbv zeta. apply refsrc_first8_compress_length.
Qed.

Definition h_cv3 (p : refsrc_Hasher * list N * N) : ref_hasher * list N := (rh_of_src (fst (fst p)), snd (fst p)).
Definition h_cv3_wt (p : refsrc_Hasher * list N * N) : Prop := wt_h (fst (fst p)) /\ length (snd (fst p)) = 8%nat.

(* the loop `while total_chunks & 1 == 0`, for every fuel *)
Lemma refsrc_add_cv_loop_rel : forall fuel h new_cv total_chunks, wt_h h -> length new_cv = 8%nat ->
  rel_res h_cv3 h_cv3_wt (refsrc_Hasher_add_chunk_chaining_value_loop1 fuel h new_cv total_chunks)
          (ref_add_cv_loop fuel (rh_of_src h) new_cv total_chunks).
Proof.
  induction fuel as [|fuel IH]; intros h cv tc Hh Hcv;
    cbn [refsrc_Hasher_add_chunk_chaining_value_loop1 ref_add_cv_loop];
    unfold mcmp, mb at 1, mi_and; cbn [bind];
    (destruct (N.land tc 1 =? 0); [|apply rel_Ok; [reflexivity|split; assumption]]).
  - apply rel_OutOfFuel.
  - apply (rel_bind h_cv h_cv3 h_cv_wt); [apply refsrc_Hasher_pop_stack_rel; exact Hh|].
    intros [h' left] [Hh' Hleft]. cbn [fst snd] in Hh', Hleft. cbn [h_cv fst snd]. cbv zeta.
    assert (Hk : length (refsrc_Hasher_key_words h') = 8%nat) by apply Hh'.
    change (rh_key_words (rh_of_src h')) with (refsrc_Hasher_key_words h').
    change (rh_flags (rh_of_src h')) with (refsrc_Hasher_flags h').
    rewrite (refsrc_parent_cv_eq left cv _ (refsrc_Hasher_flags h') Hleft Hcv Hk). cbn [bind].
    change (mb (mi_shr 64) (Ok tc) (Ok 1)) with (@Ok N (N.shiftr tc 1)). cbn [bind].
    apply IH; [exact Hh'|apply refsrc_parent_cv_length].
Qed.

Lemma refsrc_add_chunk_cv_rel fuel h new_cv total_chunks : wt_h h -> length new_cv = 8%nat ->
  rel_res rh_of_src wt_h (refsrc_Hasher_add_chunk_chaining_value fuel h new_cv total_chunks)
          ('(h, new_cv) <- ref_add_cv_loop fuel (rh_of_src h) new_cv total_chunks ;; ref_push_stack h new_cv).
Proof.
  intros Hh Hcv. unfold refsrc_Hasher_add_chunk_chaining_value.
  apply (rel_bind h_cv3 rh_of_src h_cv3_wt); [apply refsrc_add_cv_loop_rel; assumption|].
  intros [[h' cv'] tc'] [Hh' Hcv']. cbn [fst snd] in Hh', Hcv'. cbn [h_cv3 fst snd].
  rewrite <- (ResP.bind_ret (ref_push_stack (rh_of_src h') cv')).
  apply (rel_bind rh_of_src rh_of_src wt_h); [apply refsrc_Hasher_push_stack_rel; assumption|].
  intros a Ha. apply rel_Ok; [reflexivity|exact Ha].
Qed.

Theorem refsrc_Hasher_add_chunk_chaining_value_model h new_cv total_chunks : wt_h h -> length new_cv = 8%nat ->
  res_map rh_of_src (refsrc_Hasher_add_chunk_chaining_value ref_add_cv_fuel h new_cv total_chunks) =
  ref_add_chunk_chaining_value (rh_of_src h) new_cv total_chunks.
Proof. intros H1 H2. apply refsrc_add_chunk_cv_rel; assumption. Qed.

Ltac same_bind :=
  match goal with
  | |- bind ?m _ = bind ?m _ => let E := fresh "E" in destruct m eqn:E; cbn [bind]; [|reflexivity|reflexivity]
  end.

(* ChunkState::update consumes at least one byte per iteration *)
Lemma rcs_update_loop_fuel : forall f1 f2 cs input, (length input < f1)%nat -> (length input < f2)%nat ->
  rcs_update_loop f1 cs input = rcs_update_loop f2 cs input.
Proof.
  induction f1 as [|f1 IH]; intros f2 cs input H1 H2; [lia|].
  destruct f2 as [|f2]; [lia|]. destruct input as [|b tl]; [reflexivity|].
  cbn [rcs_update_loop]. set (input := b :: tl) in *.
  same_bind. rename a into cs'.
  assert (Hbl : rcs_block_len cs' <> ref_BLOCK_LEN).
  { destruct (rcs_block_len cs =? ref_BLOCK_LEN) eqn:Eb.
    - destruct (ref_words_from_le_bytes (rcs_block cs) 16); cbn [bind] in E; try discriminate.
      destruct (ref_compress _ _ _ _ _); cbn [bind] in E; try discriminate.
      destruct (mi_add 8 _ 1); cbn [bind] in E; try discriminate.
      injection E as <-. cbn [rcs_block_len]. discriminate.
    - injection E as <-. apply N.eqb_neq. exact Eb. }
  same_bind. rename a into want. do 2 same_bind. unfold mi_cast. cbn [bind]. same_bind.
  unfold mi_sub in E0. destruct (rcs_block_len cs' <=? ref_BLOCK_LEN) eqn:El; [|discriminate].
  injection E0 as <-. apply N.leb_le in El.
  assert (Ht : (1 <= N.to_nat (N.min (ref_BLOCK_LEN - rcs_block_len cs') (rlen input)))%nat).
  { unfold rlen, input. cbn [length]. lia. }
  assert (Hi : length input = S (length tl)) by reflexivity.
  apply IH; rewrite skipn_length; lia.
Qed.

(* add_chunk_chaining_value pops one entry per iteration *)
Lemma ref_add_cv_loop_fuel : forall f1 f2 h cv tc,
  (N.to_nat (rh_cv_stack_len h) < f1)%nat -> (N.to_nat (rh_cv_stack_len h) < f2)%nat ->
  ref_add_cv_loop f1 h cv tc = ref_add_cv_loop f2 h cv tc.
Proof.
  induction f1 as [|f1 IH]; intros f2 h cv tc H1 H2; [lia|].
  destruct f2 as [|f2]; [lia|]. cbn [ref_add_cv_loop].
  destruct (N.land tc 1 =? 0); [|reflexivity].
  same_bind. destruct a as [h' left].
  assert (Hl : rh_cv_stack_len h' = rh_cv_stack_len h - 1 /\ 1 <= rh_cv_stack_len h).
  { unfold ref_pop_stack in E. destruct (1 <=? rh_cv_stack_len h) eqn:E1; cbn [check bind] in E; [|discriminate].
    destruct (rh_cv_stack_len h - 1 <? N.of_nat (length (rh_cv_stack h))); cbn [check bind] in E; [|discriminate].
    injection E as <- _. cbn [rh_cv_stack_len]. split; [reflexivity|]. apply N.leb_le. exact E1. }
  same_bind. apply IH; lia.
Qed.

(* root_output_bytes: one block of 64 bytes per iteration *)
Lemma ref_root_loop_fuel : forall f1 f2 o k rem, rem <= 64 * N.of_nat f1 -> rem <= 64 * N.of_nat f2 ->
  ref_root_loop f1 o k rem = ref_root_loop f2 o k rem.
Proof.
  induction f1 as [|f1 IH]; intros f2 o k rem H1 H2.
  - replace rem with 0 by lia. destruct f2; reflexivity.
  - destruct f2 as [|f2]; [replace rem with 0 by lia; reflexivity|].
    cbn [ref_root_loop]. destruct (rem =? 0); [reflexivity|].
    same_bind. cbv zeta. same_bind. change (2 * ref_OUT_LEN) with 64.
    rewrite (IH f2) by lia. reflexivity.
Qed.

(* 256: the loop pops one entry per round (ref_add_cv_loop_fuel) and cv_stack_len is a u8 (wt_h) *)
Lemma refsrc_add_chunk_cv_enough fuel h new_cv total_chunks : wt_h h -> length new_cv = 8%nat -> (256 <= fuel)%nat ->
  rel_res rh_of_src wt_h (refsrc_Hasher_add_chunk_chaining_value fuel h new_cv total_chunks)
          (ref_add_chunk_chaining_value (rh_of_src h) new_cv total_chunks).
Proof.
  intros Hh Hcv Hf. unfold ref_add_chunk_chaining_value.
  assert (Hl : (N.to_nat (rh_cv_stack_len (rh_of_src h)) < 256)%nat).
  { destruct Hh as (_ & _ & _ & Hl). cbn [rh_of_src rh_cv_stack_len]. lia. }
  rewrite (ref_add_cv_loop_fuel ref_add_cv_fuel fuel) by (unfold ref_add_cv_fuel; lia).
  apply refsrc_add_chunk_cv_rel; assumption.
Qed.

Definition h_pair (p : refsrc_Hasher * list N) : ref_hasher := rh_of_src (fst p).
Definition h_pair_wt (p : refsrc_Hasher * list N) : Prop := wt_h (fst p).

Lemma refsrc_update_loop_rel : forall f F h input, wt_h h ->
  (length input < f)%nat -> (length input + 256 < F)%nat ->
  rel_res h_pair h_pair_wt (refsrc_Hasher_update_loop1 F h input) (ref_update_loop f (rh_of_src h) input).
Proof.
  induction f as [|f IH]; intros F h input Hh Hf HF; [lia|].
  destruct F as [|F]; [lia|].
  destruct input as [|b tl].
  - cbn. apply rel_Ok; [reflexivity|]. exact Hh.
  - cbn [refsrc_Hasher_update_loop1 ref_update_loop].
    unfold mcmp at 1. cbn [bind]. rewrite nonempty_not_zero. cbn [negb bind].
    assert (Hi : length (b :: tl) = S (length tl)) by reflexivity.
    set (input := b :: tl) in *.
    assert (Hcs0 : wt_cs (refsrc_Hasher_chunk_state h)) by apply Hh.
    rewrite (refsrc_ChunkState_len_eq (refsrc_Hasher_chunk_state h)) by apply Hcs0.
    unfold mcmp at 1. cbn [bind].
    change (rh_chunk_state (rh_of_src h)) with (rcs_of_src (refsrc_Hasher_chunk_state h)).
    apply (rel_bind rh_of_src h_pair
             (fun a => wt_h a /\ rcs_len (rcs_of_src (refsrc_Hasher_chunk_state a)) <> ref_CHUNK_LEN)).
    + (* the complete chunk is finalized and the chunk state reset *)
      destruct (rcs_len (rcs_of_src (refsrc_Hasher_chunk_state h)) =? ref_CHUNK_LEN) eqn:El.
      2:{ apply rel_Ok; [reflexivity|]. split; [exact Hh|]. apply N.eqb_neq. exact El. }
      apply (rel_bind ro_of_src rh_of_src wt_out); [apply refsrc_ChunkState_output_rel; exact Hcs0|].
      intros o Ho. rewrite (refsrc_Output_chaining_value_eq o) by apply Ho. cbn [bind].
      unfold mb at 1. cbn [bind].
      change (rcs_chunk_counter (rcs_of_src (refsrc_Hasher_chunk_state h)))
        with (refsrc_ChunkState_chunk_counter (refsrc_Hasher_chunk_state h)).
      apply rel_same; intros total _.
      apply (rel_bind rh_of_src rh_of_src wt_h).
      { apply refsrc_add_chunk_cv_enough; [exact Hh| |lia].
        unfold refsrc_Output_chaining_value. cbv zeta. apply refsrc_first8_compress_length. }
      intros h2 Hh2.
      apply rel_Ok; [reflexivity|].
      destruct h2 as [cs2 kw2 st2 sl2 fl2]. destruct Hh2 as (Hcs2 & Hkw2 & Hst2 & Hsl2). h_fields.
      split; [|discriminate].
      split; [apply refsrc_ChunkState_new_wt; exact Hkw2|]. split; [exact Hkw2|]. split; assumption.
    + intros h1 [Hh1 Hlen].
      assert (Hcs1 : wt_cs (refsrc_Hasher_chunk_state h1)) by apply Hh1.
      rewrite (refsrc_ChunkState_len_eq (refsrc_Hasher_chunk_state h1)) by apply Hcs1.
      change (rh_chunk_state (rh_of_src h1)) with (rcs_of_src (refsrc_Hasher_chunk_state h1)).
      set (l := rcs_len (rcs_of_src (refsrc_Hasher_chunk_state h1))) in *.
      unfold mb, mi_min, mi_sub. cbn [bind].
      destruct (l <=? ref_CHUNK_LEN) eqn:El; cbn [bind]; [|apply rel_Panic].
      apply N.leb_le in El. unfold rlen.
      set (take := N.min (ref_CHUNK_LEN - l) (N.of_nat (length input))).
      assert (Ht : 1 <= take <= N.of_nat (length input)) by lia.
      replace (take <=? N.of_nat (length input)) with true by (symmetry; apply N.leb_le; lia).
      cbn [check bind].
      assert (Hp : (length (firstn (N.to_nat take) input) <= length input)%nat) by (rewrite firstn_length; lia).
      apply (rel_bind rcs_of_src h_pair wt_cs).
      * unfold rcs_update. rewrite (rcs_update_loop_fuel _ F) by lia.
        apply refsrc_ChunkState_update_rel. exact Hcs1.
      * intros cs2 Hcs2.
        replace (rh_with_cs (rh_of_src h1) (rcs_of_src cs2))
          with (rh_of_src (refsrc_Hasher_set_chunk_state h1 cs2)) by reflexivity.
        apply IH.
        -- destruct h1 as [cs1 kw1 st1 sl1 fl1]. destruct Hh1 as (_ & Hkw1 & Hst1 & Hsl1). h_fields.
           split; [exact Hcs2|]. split; [exact Hkw1|]. split; assumption.
        -- rewrite skipn_length. lia.
        -- rewrite skipn_length. lia.
Qed.

Lemma refsrc_Hasher_update_rel fuel h input : wt_h h -> (length input + 256 < fuel)%nat ->
  rel_res rh_of_src wt_h (refsrc_Hasher_update fuel h input) (ref_update (rh_of_src h) input).
Proof.
  intros Hh Hf. unfold refsrc_Hasher_update, ref_update.
  destruct (refsrc_update_loop_rel (S (length input)) fuel h input Hh ltac:(lia) Hf) as [E W].
  rewrite <- E. unfold res_map, h_pair.
  apply rel_same; intros [h' i] Eh. apply rel_Ok; [reflexivity|]. apply (W (h', i)), Eh.
Qed.

Definition o_pair (p : refsrc_Output * N) : ref_output := ro_of_src (fst p).
Definition o_pair_wt (p : refsrc_Output * N) : Prop := wt_out (fst p).

(* the loop `while parent_nodes_remaining > 0`; the model recurses on the counter itself *)
Lemma refsrc_finalize_loop_rel : forall F h os o n, wt_h h -> wt_out o -> (N.to_nat n <= F)%nat ->
  rel_res o_pair o_pair_wt (refsrc_Hasher_finalize_loop1 F h os o n)
          (ref_finalize_loop (N.to_nat n) (rh_of_src h) (ro_of_src o)).
Proof.
  induction F as [|F IH]; intros h os o n Hh Ho Hn.
  - replace n with 0 by lia. cbn. apply rel_Ok; [reflexivity|]. exact Ho.
  - cbn [refsrc_Hasher_finalize_loop1]. unfold mcmp, mb, mi_sub. cbn [bind].
    destruct (0 <? n) eqn:E0.
    2:{ apply N.ltb_ge in E0. replace n with 0 by lia. cbn. apply rel_Ok; [reflexivity|]. exact Ho. }
    apply N.ltb_lt in E0. replace (1 <=? n) with true by (symmetry; apply N.leb_le; lia). cbn [bind].
    replace (N.to_nat n) with (S (N.to_nat (n - 1))) by lia. cbn [ref_finalize_loop].
    rewrite N2Nat.id. change (rh_cv_stack (rh_of_src h)) with (refsrc_Hasher_cv_stack h).
    apply rel_check; intros E.
    apply N.ltb_lt in E.
    rewrite (refsrc_Output_chaining_value_eq o) by apply Ho. cbn [bind].
    assert (Hst : Forall (fun cv => length cv = 8%nat) (refsrc_Hasher_cv_stack h)) by apply Hh.
    assert (Hl : length (arr2_get (refsrc_Hasher_cv_stack h) (N.to_nat (n - 1))) = 8%nat).
    { rewrite Forall_forall in Hst. apply Hst. apply nth_In. lia. }
    assert (Hr : length (refsrc_Output_chaining_value o) = 8%nat).
    { unfold refsrc_Output_chaining_value. cbv zeta. apply refsrc_first8_compress_length. }
    rewrite <- (arr2_get_indep (refsrc_Hasher_cv_stack h) _ ref_zero_cv) by lia.
    change (rh_key_words (rh_of_src h)) with (refsrc_Hasher_key_words h).
    change (rh_flags (rh_of_src h)) with (refsrc_Hasher_flags h).
    rewrite <- (refsrc_parent_output_eq _ _ (refsrc_Hasher_key_words h) (refsrc_Hasher_flags h) Hl Hr).
    apply IH; [exact Hh| |lia].
    split.
    + apply Hh.
    + change (refsrc_Output_block_words (refsrc_parent_output ?l ?r ?k ?f))
        with (ro_block_words (ro_of_src (refsrc_parent_output l r k f))).
      rewrite (refsrc_parent_output_eq _ _ _ _ Hl Hr). cbn [ref_parent_output ro_block_words].
      rewrite app_length, Hl, Hr. reflexivity.
Qed.

Theorem refsrc_Hasher_finalize_eq fuel h out_slice : wt_h h ->
  (256 <= fuel)%nat -> (length out_slice <= 64 * fuel)%nat ->
  refsrc_Hasher_finalize fuel h out_slice = ref_finalize (rh_of_src h) (rlen out_slice).
Proof.
  intros Hh Hf Ho. unfold refsrc_Hasher_finalize, ref_finalize.
  assert (Hcs : wt_cs (refsrc_Hasher_chunk_state h)) by apply Hh.
  destruct (refsrc_ChunkState_output_rel _ Hcs) as [E W].
  change (rh_chunk_state (rh_of_src h)) with (rcs_of_src (refsrc_Hasher_chunk_state h)). rewrite <- E.
  destruct (refsrc_ChunkState_output (refsrc_Hasher_chunk_state h)) as [o| |]; cbn [res_map bind]; try reflexivity.
  specialize (W o eq_refl). cbv zeta.
  assert (Hsl : refsrc_Hasher_cv_stack_len h < 256) by apply Hh.
  unfold mu, mi_cast. cbn [bind]. rewrite cast64_small by lia.
  change (rh_cv_stack_len (rh_of_src h)) with (refsrc_Hasher_cv_stack_len h).
  destruct (refsrc_finalize_loop_rel fuel h out_slice o (refsrc_Hasher_cv_stack_len h) Hh W ltac:(lia)) as [E2 W2].
  rewrite <- E2.
  destruct (refsrc_Hasher_finalize_loop1 fuel h out_slice o (refsrc_Hasher_cv_stack_len h)) as [[o2 n2]| |];
    cbn [res_map bind]; try reflexivity.
  specialize (W2 (o2, n2) eq_refl). cbn [o_pair fst].
  rewrite (refsrc_Output_root_output_bytes_eq o2 fuel out_slice W2). rewrite ResP.bind_ret.
  unfold ro_root_output_bytes. apply ref_root_loop_fuel; unfold rlen.
  - lia.
  - assert (N.of_nat (length out_slice) / 64 * 64 <= N.of_nat (length out_slice))
      by (rewrite N.mul_comm; apply N.mul_div_le; lia).
    pose proof (N.mod_lt (N.of_nat (length out_slice)) 64 ltac:(lia)).
    pose proof (N.div_mod (N.of_nat (length out_slice)) 64 ltac:(lia)). lia.
Qed.

Lemma refsrc_Hasher_new_derive_key_rel fuel context : (length context + 256 < fuel)%nat ->
  rel_res rh_of_src wt_h (refsrc_Hasher_new_derive_key fuel context) (ref_new_derive_key context).
Proof.
  intros Hf. unfold refsrc_Hasher_new_derive_key, ref_new_derive_key. cbv zeta.
  rewrite <- refsrc_Hasher_new_internal_eq.
  assert (H0 : wt_h (refsrc_Hasher_new_internal ref_IV ref_flag_DERIVE_KEY_CONTEXT))
    by (apply refsrc_Hasher_new_internal_wt; reflexivity).
  apply (rel_bind rh_of_src rh_of_src wt_h); [apply refsrc_Hasher_update_rel; assumption|].
  intros h Hh.
  rewrite (refsrc_Hasher_finalize_eq fuel h (repeat 0 (N.to_nat ref_KEY_LEN)) Hh) 
    by (try rewrite repeat_length; try change (N.to_nat ref_KEY_LEN) with 32%nat; lia).
  change (rlen (repeat 0 (N.to_nat ref_KEY_LEN))) with ref_KEY_LEN.
  apply rel_same; intros ck _.
  change 8%nat with (length (repeat 0 (N.to_nat 8))) at 1.
  rewrite refsrc_words_from_le_bytes_model.
  destruct (refsrc_words_from_little_endian_bytes_debug_assert ck (repeat 0 (N.to_nat 8))) eqn:Ed;
    cbn [check bind]; [|apply rel_Panic].
  apply rel_Ok; [reflexivity|].
  apply refsrc_Hasher_new_internal_wt.
  unfold refsrc_words_from_little_endian_bytes_debug_assert in Ed. apply Nat.eqb_eq in Ed.
  rewrite (refsrc_words_from_le_bytes_eq _ _ Ed). apply words_of_bytes_length. exact Ed.
Qed.

(* a run: constructor of the mode, one Hasher::update per piece, Hasher::finalize into out_slice.  Every function
   below is the translation of the source (gen/GenRefImpl.v, gen/GenRefImplLoops.v). *)
Inductive refsrc_mode :=
| SrcHash
| SrcKeyed (key : list N)
| SrcDerive (context : list N).

Definition refsrc_new_mode (fuel : nat) (m : refsrc_mode) : res refsrc_Hasher :=
  match m with
  | SrcHash => Ok refsrc_Hasher_new
  | SrcKeyed k => refsrc_Hasher_new_keyed k
  | SrcDerive c => refsrc_Hasher_new_derive_key fuel c
  end.

Fixpoint refsrc_update_all (fuel : nat) (h : refsrc_Hasher) (pieces : list (list N)) : res refsrc_Hasher :=
  match pieces with
  | [] => Ok h
  | p :: tl => h <- refsrc_Hasher_update fuel h p ;; refsrc_update_all fuel h tl
  end.

Definition refsrc_run (fuel : nat) (m : refsrc_mode) (pieces : list (list N)) (out_slice : list N) : res (list N) :=
  h <- refsrc_new_mode fuel m ;;
  h <- refsrc_update_all fuel h pieces ;;
  refsrc_Hasher_finalize fuel h out_slice.

Definition refsrc_spec_mode (m : refsrc_mode) : mode :=
  match m with
  | SrcHash => Hash
  | SrcKeyed k => KeyedHash k
  | SrcDerive c => DeriveKeyMaterial (b3_hash_mode DeriveKeyContext c)
  end.

Definition refsrc_mode_ok (m : refsrc_mode) : Prop :=
  match m with
  | SrcHash => True
  | SrcKeyed k => length k = 32%nat /\ Forall (fun b => b < 256) k
  | SrcDerive c => len c < 2 ^ 64
  end.

Definition refsrc_context_len (m : refsrc_mode) : nat :=
  match m with SrcDerive c => length c | _ => 0%nat end.

(* enough fuel for every loop of the run (generous: one unit per input / context / output byte plus 257) *)
Definition refsrc_fuel_ok (fuel : nat) (m : refsrc_mode) (pieces : list (list N)) (out_slice : list N) : Prop :=
  (length (concat pieces) + refsrc_context_len m + length out_slice + 256 < fuel)%nat.

Definition ref_mode_of_src (m : refsrc_mode) : ref_mode :=
  match m with SrcHash => RHash | SrcKeyed k => RKeyed k | SrcDerive c => RDerive c end.

Lemma refsrc_new_mode_rel fuel m : (refsrc_context_len m + 256 < fuel)%nat ->
  rel_res rh_of_src wt_h (refsrc_new_mode fuel m) (ref_new_mode (ref_mode_of_src m)).
Proof.
  intros Hf. destruct m as [|k|c]; cbn [refsrc_new_mode ref_new_mode ref_mode_of_src refsrc_context_len] in *.
  - apply rel_Ok; [reflexivity|]. apply refsrc_Hasher_new_internal_wt. reflexivity.
  - split; [apply refsrc_Hasher_new_keyed_eq|].
    unfold refsrc_Hasher_new_keyed. cbv zeta.
    destruct (refsrc_words_from_little_endian_bytes_debug_assert k (repeat 0 (N.to_nat 8))) eqn:Ed;
      cbn [check bind]; [|discriminate].
    intros a [= <-]. apply refsrc_Hasher_new_internal_wt.
    unfold refsrc_words_from_little_endian_bytes_debug_assert in Ed. apply Nat.eqb_eq in Ed.
    change [0; 0; 0; 0; 0; 0; 0; 0] with (repeat 0 (N.to_nat 8)).
    rewrite (refsrc_words_from_le_bytes_eq _ _ Ed). apply words_of_bytes_length. exact Ed.
  - apply refsrc_Hasher_new_derive_key_rel. exact Hf.
Qed.

Lemma refsrc_update_all_rel fuel : forall pieces h, wt_h h -> (length (concat pieces) + 256 < fuel)%nat ->
  rel_res rh_of_src wt_h (refsrc_update_all fuel h pieces) (ref_update_all (rh_of_src h) pieces).
Proof.
  induction pieces as [|p tl IH]; intros h Hh Hf; cbn [refsrc_update_all ref_update_all].
  - apply rel_Ok; [reflexivity|exact Hh].
  - cbn [concat] in Hf. rewrite app_length in Hf.
    apply (rel_bind rh_of_src rh_of_src wt_h); [apply refsrc_Hasher_update_rel; [exact Hh|lia]|].
    intros h' Hh'. apply IH; [exact Hh'|lia].
Qed.

Theorem refsrc_run_model fuel m pieces out_slice : refsrc_fuel_ok fuel m pieces out_slice ->
  refsrc_run fuel m pieces out_slice = ref_run (ref_mode_of_src m) pieces (rlen out_slice).
Proof.
  unfold refsrc_fuel_ok. intros Hf. unfold refsrc_run, ref_run.
  destruct (refsrc_new_mode_rel fuel m ltac:(lia)) as [E W]. rewrite <- E.
  destruct (refsrc_new_mode fuel m) as [h| |]; cbn [res_map bind]; try reflexivity.
  specialize (W h eq_refl).
  destruct (refsrc_update_all_rel fuel pieces h W ltac:(lia)) as [E2 W2]. rewrite <- E2.
  destruct (refsrc_update_all fuel h pieces) as [h2| |]; cbn [res_map bind]; try reflexivity.
  apply refsrc_Hasher_finalize_eq; [apply W2; reflexivity|lia|lia].
Qed.

(* the translated reference implementation computes the specification: every mode, every split of the input into
   update pieces (below 2^64 bytes in all), every output length.  No hand-written model in the statement. *)
Theorem refsrc_run_spec fuel m pieces out_slice :
  refsrc_mode_ok m -> len (concat pieces) < 2 ^ 64 -> len out_slice < 2 ^ 64 ->
  refsrc_fuel_ok fuel m pieces out_slice ->
  refsrc_run fuel m pieces out_slice =
  Ok (b3_xof_mode (refsrc_spec_mode m) (concat pieces) 0 (length out_slice)).
Proof.
  intros Hm H64 Ho Hf. rewrite (refsrc_run_model fuel m pieces out_slice Hf).
  rewrite (ref_refines (ref_mode_of_src m) pieces (rlen out_slice)).
  - unfold rlen. rewrite Nat2N.id. destruct m; reflexivity.
  - destruct m; exact Hm.
  - exact H64.
  - exact Ho.
Qed.

Lemma approx_refl {A} (r : res A) : fuel_approx r r.
Proof. right. reflexivity. Qed.

Lemma approx_OOF {A} (m : res A) : fuel_approx OutOfFuel m.
Proof. left. reflexivity. Qed.

Lemma approx_bind {A B} (m1 m2 : res A) (k1 k2 : A -> res B) :
  fuel_approx m1 m2 -> (forall a, fuel_approx (k1 a) (k2 a)) -> fuel_approx (bind m1 k1) (bind m2 k2).
Proof.
  intros [->| ->] Hk; [left; reflexivity|]. destruct m2 as [a| |]; cbn [bind]; [apply Hk|right|right]; reflexivity.
Qed.

Lemma approx_map {A B} (g : A -> B) (r m : res A) : fuel_approx r m -> fuel_approx (res_map g r) (res_map g m).
Proof. intros H. apply approx_bind; [exact H|]. intros a. apply approx_refl. Qed.

Lemma approx_eq {A} (r m m' : res A) : fuel_approx r m -> m = m' -> fuel_approx r m'.
Proof. intros H <-. exact H. Qed.

(* One step of a monotonicity proof.  The two sides are the same text at fuels F <= F', so at every bind either both run
   the same computation (approx_refl), or the left has run out (approx_OOF), or they run one loop / callee at the two
   fuels: that is what `tac` closes, with the induction hypothesis or the callee's _mono lemma named at the call. *)
Ltac approx_step tac :=
  first
  [ apply approx_refl
  | apply approx_OOF
  | tac
  | match goal with
    | |- fuel_approx (if ?b then _ else _) (if ?b then _ else _) => destruct b
    | |- fuel_approx (match ?x with (_, _) => _ end) (match ?x with (_, _) => _ end) => destruct x
    end
  | apply approx_bind; [|intros ?] ].

Lemma refsrc_root_loop_mono : forall F F' o os ctr t, (F <= F')%nat ->
  fuel_approx (refsrc_Output_root_output_bytes_loop2 F o os ctr t) (refsrc_Output_root_output_bytes_loop2 F' o os ctr t).
Proof.
  induction F as [|F IH]; intros F' o os ctr t H.
  - destruct F'; cbn [refsrc_Output_root_output_bytes_loop2]; repeat approx_step fail.
  - destruct F' as [|F']; [lia|]. cbn [refsrc_Output_root_output_bytes_loop2]. cbv zeta.
    repeat approx_step ltac:(apply IH; lia).
Qed.

Lemma refsrc_root_output_bytes_mono F F' o os : (F <= F')%nat ->
  fuel_approx (refsrc_Output_root_output_bytes F o os) (refsrc_Output_root_output_bytes F' o os).
Proof.
  intros H. unfold refsrc_Output_root_output_bytes. cbv zeta.
  repeat approx_step ltac:(apply refsrc_root_loop_mono; exact H).
Qed.

Lemma refsrc_cs_update_loop_mono : forall F F' cs input, (F <= F')%nat ->
  fuel_approx (refsrc_ChunkState_update_loop1 F cs input) (refsrc_ChunkState_update_loop1 F' cs input).
Proof.
  induction F as [|F IH]; intros F' cs input H.
  - destruct F'; cbn [refsrc_ChunkState_update_loop1]; repeat approx_step fail.
  - destruct F' as [|F']; [lia|]. cbn [refsrc_ChunkState_update_loop1]. cbv zeta.
    repeat approx_step ltac:(apply IH; lia).
Qed.

Lemma refsrc_cs_update_mono F F' cs input : (F <= F')%nat ->
  fuel_approx (refsrc_ChunkState_update F cs input) (refsrc_ChunkState_update F' cs input).
Proof.
  intros H. unfold refsrc_ChunkState_update. repeat approx_step ltac:(apply refsrc_cs_update_loop_mono; exact H).
Qed.

Lemma refsrc_add_cv_loop_mono : forall F F' h cv tc, (F <= F')%nat ->
  fuel_approx (refsrc_Hasher_add_chunk_chaining_value_loop1 F h cv tc)
              (refsrc_Hasher_add_chunk_chaining_value_loop1 F' h cv tc).
Proof.
  induction F as [|F IH]; intros F' h cv tc H.
  - destruct F'; cbn [refsrc_Hasher_add_chunk_chaining_value_loop1]; repeat approx_step fail.
  - destruct F' as [|F']; [lia|]. cbn [refsrc_Hasher_add_chunk_chaining_value_loop1]. cbv zeta.
    repeat approx_step ltac:(apply IH; lia).
Qed.

Lemma refsrc_add_chunk_cv_mono F F' h cv tc : (F <= F')%nat ->
  fuel_approx (refsrc_Hasher_add_chunk_chaining_value F h cv tc) (refsrc_Hasher_add_chunk_chaining_value F' h cv tc).
Proof.
  intros H. unfold refsrc_Hasher_add_chunk_chaining_value.
  repeat approx_step ltac:(apply refsrc_add_cv_loop_mono; exact H).
Qed.

Lemma refsrc_update_loop_mono : forall F F' h input, (F <= F')%nat ->
  fuel_approx (refsrc_Hasher_update_loop1 F h input) (refsrc_Hasher_update_loop1 F' h input).
Proof.
  induction F as [|F IH]; intros F' h input H.
  - destruct F'; cbn [refsrc_Hasher_update_loop1]; repeat approx_step fail.
  - destruct F' as [|F']; [lia|]. cbn [refsrc_Hasher_update_loop1]. cbv zeta.
    repeat approx_step ltac:(first [apply IH; lia | apply refsrc_add_chunk_cv_mono; lia
                                   | apply refsrc_cs_update_mono; lia]).
Qed.

Lemma refsrc_Hasher_update_mono F F' h input : (F <= F')%nat ->
  fuel_approx (refsrc_Hasher_update F h input) (refsrc_Hasher_update F' h input).
Proof.
  intros H. unfold refsrc_Hasher_update. repeat approx_step ltac:(apply refsrc_update_loop_mono; exact H).
Qed.

Lemma refsrc_finalize_loop_mono : forall F F' h os o n, (F <= F')%nat ->
  fuel_approx (refsrc_Hasher_finalize_loop1 F h os o n) (refsrc_Hasher_finalize_loop1 F' h os o n).
Proof.
  induction F as [|F IH]; intros F' h os o n H.
  - destruct F'; cbn [refsrc_Hasher_finalize_loop1]; repeat approx_step fail.
  - destruct F' as [|F']; [lia|]. cbn [refsrc_Hasher_finalize_loop1]. cbv zeta.
    repeat approx_step ltac:(apply IH; lia).
Qed.

Lemma refsrc_Hasher_finalize_mono F F' h os : (F <= F')%nat ->
  fuel_approx (refsrc_Hasher_finalize F h os) (refsrc_Hasher_finalize F' h os).
Proof.
  intros H. unfold refsrc_Hasher_finalize. cbv zeta.
  repeat approx_step ltac:(first [apply refsrc_finalize_loop_mono; exact H | apply refsrc_root_output_bytes_mono; exact H]).
Qed.

Lemma refsrc_Hasher_new_derive_key_mono F F' c : (F <= F')%nat ->
  fuel_approx (refsrc_Hasher_new_derive_key F c) (refsrc_Hasher_new_derive_key F' c).
Proof.
  intros H. unfold refsrc_Hasher_new_derive_key. cbv zeta.
  repeat approx_step ltac:(first [apply refsrc_Hasher_update_mono; exact H | apply refsrc_Hasher_finalize_mono; exact H]).
Qed.

Lemma approx_enough0 {A} (tr : nat -> res A) (m : res A) (bound : nat) :
  (forall F F', (F <= F')%nat -> fuel_approx (tr F) (tr F')) ->
  (forall F, (bound <= F)%nat -> tr F = m) ->
  forall F, fuel_approx (tr F) m.
Proof.
  intros Hm He F. apply (approx_eq _ (tr (Nat.max F bound))); [apply Hm|apply He]; lia.
Qed.

Lemma approx_enough {A B} (g : A -> B) (tr : nat -> res A) (m : res B) (bound : nat) :
  (forall F F', (F <= F')%nat -> fuel_approx (tr F) (tr F')) ->
  (forall F, (bound <= F)%nat -> res_map g (tr F) = m) ->
  forall F, fuel_approx (res_map g (tr F)) m.
Proof.
  intros Hm He. apply (approx_enough0 (fun F => res_map g (tr F)) m bound); [|exact He].
  intros F F' HF. apply approx_map, Hm, HF.
Qed.

Theorem refsrc_Output_root_output_bytes_any_fuel fuel o out_slice : wt_out o ->
  fuel_approx (refsrc_Output_root_output_bytes fuel o out_slice) (ro_root_output_bytes (ro_of_src o) (rlen out_slice)).
Proof.
  intros H. revert fuel.
  apply (approx_enough0 (fun F => refsrc_Output_root_output_bytes F o out_slice) _ (S (length out_slice))).
  - intros F F' HF. apply refsrc_root_output_bytes_mono. exact HF.
  - intros F HF. rewrite (refsrc_Output_root_output_bytes_eq o F out_slice H).
    unfold ro_root_output_bytes. apply ref_root_loop_fuel; unfold rlen.
    + lia.
    + pose proof (N.mod_lt (N.of_nat (length out_slice)) 64 ltac:(lia)).
      pose proof (N.div_mod (N.of_nat (length out_slice)) 64 ltac:(lia)). lia.
Qed.

Theorem refsrc_ChunkState_update_any_fuel fuel cs input : wt_cs cs ->
  fuel_approx (res_map rcs_of_src (refsrc_ChunkState_update fuel cs input)) (rcs_update (rcs_of_src cs) input).
Proof.
  intros H. revert fuel. apply (approx_enough rcs_of_src _ _ (S (length input))).
  - intros F F' HF. apply refsrc_cs_update_mono. exact HF.
  - intros F HF. rewrite (proj1 (refsrc_ChunkState_update_rel F cs input H)). unfold rcs_update.
    apply rcs_update_loop_fuel; lia.
Qed.

Theorem refsrc_Hasher_add_chunk_chaining_value_any_fuel fuel h new_cv total_chunks :
  wt_h h -> length new_cv = 8%nat ->
  fuel_approx (res_map rh_of_src (refsrc_Hasher_add_chunk_chaining_value fuel h new_cv total_chunks))
              (ref_add_chunk_chaining_value (rh_of_src h) new_cv total_chunks).
Proof.
  intros H1 H2. revert fuel. apply (approx_enough rh_of_src _ _ 256%nat).
  - intros F F' HF. apply refsrc_add_chunk_cv_mono. exact HF.
  - intros F HF. apply (refsrc_add_chunk_cv_enough F h new_cv total_chunks H1 H2 HF).
Qed.

Theorem refsrc_Hasher_update_any_fuel fuel h input : wt_h h ->
  fuel_approx (res_map rh_of_src (refsrc_Hasher_update fuel h input)) (ref_update (rh_of_src h) input).
Proof.
  intros H. revert fuel. apply (approx_enough rh_of_src _ _ (length input + 257)%nat).
  - intros F F' HF. apply refsrc_Hasher_update_mono. exact HF.
  - intros F HF. apply refsrc_Hasher_update_rel; [exact H|lia].
Qed.

Theorem refsrc_Hasher_finalize_any_fuel fuel h out_slice : wt_h h ->
  fuel_approx (refsrc_Hasher_finalize fuel h out_slice) (ref_finalize (rh_of_src h) (rlen out_slice)).
Proof.
  intros H. revert fuel.
  apply (approx_enough0 (fun F => refsrc_Hasher_finalize F h out_slice) _ (length out_slice + 256)%nat).
  - intros F F' HF. apply refsrc_Hasher_finalize_mono. exact HF.
  - intros F HF. apply refsrc_Hasher_finalize_eq; [exact H|lia|lia].
Qed.

Theorem refsrc_Hasher_new_derive_key_any_fuel fuel context :
  fuel_approx (res_map rh_of_src (refsrc_Hasher_new_derive_key fuel context)) (ref_new_derive_key context).
Proof.
  revert fuel. apply (approx_enough rh_of_src _ _ (length context + 257)%nat).
  - intros F F' HF. apply refsrc_Hasher_new_derive_key_mono. exact HF.
  - intros F HF. apply refsrc_Hasher_new_derive_key_rel. lia.
Qed.

Lemma refsrc_update_all_mono F F' : (F <= F')%nat -> forall pieces h,
  fuel_approx (refsrc_update_all F h pieces) (refsrc_update_all F' h pieces).
Proof.
  intros H. induction pieces as [|p tl IH]; intros h; cbn [refsrc_update_all]; [apply approx_refl|].
  apply approx_bind; [apply refsrc_Hasher_update_mono; exact H|]. intros a. apply IH.
Qed.

Lemma refsrc_run_mono F F' m pieces os : (F <= F')%nat ->
  fuel_approx (refsrc_run F m pieces os) (refsrc_run F' m pieces os).
Proof.
  intros H. unfold refsrc_run. apply approx_bind.
  - destruct m; cbn [refsrc_new_mode]; try apply approx_refl. apply refsrc_Hasher_new_derive_key_mono. exact H.
  - intros h. apply approx_bind; [apply refsrc_update_all_mono; exact H|].
    intros h2. apply refsrc_Hasher_finalize_mono. exact H.
Qed.

(* with any fuel the translated run is OutOfFuel or the specification's output: never a wrong value or a Panic *)
Theorem refsrc_run_any_fuel fuel m pieces out_slice :
  refsrc_mode_ok m -> len (concat pieces) < 2 ^ 64 -> len out_slice < 2 ^ 64 ->
  fuel_approx (refsrc_run fuel m pieces out_slice)
              (Ok (b3_xof_mode (refsrc_spec_mode m) (concat pieces) 0 (length out_slice))).
Proof.
  intros Hm H64 Ho. revert fuel.
  apply (approx_enough0 (fun F => refsrc_run F m pieces out_slice) _
           (length (concat pieces) + refsrc_context_len m + length out_slice + 257)%nat).
  - intros F F' HF. apply refsrc_run_mono. exact HF.
  - intros F HF. apply refsrc_run_spec; try assumption. unfold refsrc_fuel_ok. lia.
Qed.

(* non-vacuity: the translated functions run (a keyed hash of 1500 bytes in two pieces, 70 output bytes) *)
Example refsrc_run_example :
  let key := map N.of_nat (seq 0 32) in
  let pieces := [map (fun i => N.of_nat i mod 251) (seq 0 1100); map (fun i => N.of_nat i mod 251) (seq 1100 400)] in
  is_ok (refsrc_run 2000 (SrcKeyed key) pieces (repeat 0 70)) = true /\
  refsrc_fuel_ok 2000 (SrcKeyed key) pieces (repeat 0 70) /\ refsrc_mode_ok (SrcKeyed key).
Proof.
  cbv zeta. split; [vm_compute; reflexivity|]. split.
  - unfold refsrc_fuel_ok. vm_compute. lia.
  - split; [reflexivity|]. repeat constructor.
Qed.

Lemma approx_Ok {A} (r m : res A) a : fuel_approx r m -> r = Ok a -> m = Ok a.
Proof. intros [->| ->] H; [discriminate|exact H]. Qed.

Theorem refsrc_Hasher_update_wt fuel h input h' : wt_h h ->
  refsrc_Hasher_update fuel h input = Ok h' -> wt_h h'.
Proof.
  intros Hh E.
  pose proof (refsrc_Hasher_update_mono fuel (Nat.max fuel (length input + 257)) h input ltac:(lia)) as Hm.
  apply (approx_Ok _ _ h' Hm) in E.
  apply (proj2 (refsrc_Hasher_update_rel (Nat.max fuel (length input + 257)) h input Hh ltac:(lia)) h' E).
Qed.
