(* The `res` monad as the simulation proofs use it: a translated program T and its model M run in lockstep,
   T (repr x) = res_map repr' (M x), and the lemmas below advance both sides by one bind at a time.  Every such walk
   also passes the checked arithmetic of Base/MachInt.v: when it returns Ok is said here too (cast_small .. mi_sub_Ok),
   with `word_lia` for the bounds. *)
From Coq Require Import NArith Bool Lia.
From V Require Import Base.Res Base.MachInt.
Open Scope N_scope.

Definition res_map {A B} (f : A -> B) (r : res A) : res B :=
  match r with Ok a => Ok (f a) | Panic c => Panic c | OutOfFuel => OutOfFuel end.

Lemma bind_ret {A} (m : res A) : bind m Ok = m.
Proof. destruct m; reflexivity. Qed.

Lemma bind_Ok_l {A B} (a : A) (k : A -> res B) : bind (Ok a) k = k a.
Proof. reflexivity. Qed.

Lemma bind_ret_if {A} (m : res A) (k : A -> res A) : (forall a, m = Ok a -> k a = Ok a) -> bind m k = m.
Proof. destruct m; intros H; [apply H|..]; reflexivity. Qed.

Lemma bind_ret_pair {A B} (m : res (A * B)) : bind m (fun '(a, b) => Ok (a, b)) = m.
Proof. destruct m as [[a b]| |]; reflexivity. Qed.

Lemma bind_assoc {A B C} (m : res A) (k : A -> res B) (k' : B -> res C) :
  bind (bind m k) k' = bind m (fun a => bind (k a) k').
Proof. destruct m; reflexivity. Qed.

Lemma bind_ext {A B} (m : res A) (k k' : A -> res B) : (forall a, m = Ok a -> k a = k' a) -> bind m k = bind m k'.
Proof. destruct m; intros H; [apply H|..]; reflexivity. Qed.

Lemma check_ext {B} (b : bool) (c : N) (k k' : unit -> res B) :
  (b = true -> k tt = k' tt) -> bind (check b c) k = bind (check b c) k'.
Proof. destruct b; intros H; [apply H|]; reflexivity. Qed.

Lemma res_map_id {A} (f : A -> A) (r : res A) : (forall a, f a = a) -> res_map f r = r.
Proof. intros H. destruct r; cbn [res_map]; [rewrite H|..]; reflexivity. Qed.

Lemma res_map_bind {A B C} (f : B -> C) (m : res A) (k : A -> res B) :
  res_map f (bind m k) = bind m (fun a => res_map f (k a)).
Proof. destruct m; reflexivity. Qed.

Lemma bind_res_map {A B C} (f : A -> B) (m : res A) (k : B -> res C) :
  bind (res_map f m) k = bind m (fun a => k (f a)).
Proof. destruct m; reflexivity. Qed.

(* The premise m = Ok a hands what is known of the intermediate result to the proof about the continuations. *)
Lemma bind_sim {A A' B B'} (f : A -> A') (g : B -> B') (m : res A) (m' : res A') (k : A -> res B) (k' : A' -> res B') :
  m' = res_map f m -> (forall a, m = Ok a -> k' (f a) = res_map g (k a)) -> bind m' k' = res_map g (bind m k).
Proof. intros -> H. destruct m; cbn [bind res_map]; [apply H|..]; reflexivity. Qed.

Lemma bind_sim_ret {A A' B'} (f : A -> A') (g : A -> B') (m : res A) (m' : res A') (k' : A' -> res B') :
  m' = res_map f m -> (forall a, m = Ok a -> k' (f a) = Ok (g a)) -> bind m' k' = res_map g m.
Proof. intros -> H. destruct m; cbn [bind res_map]; [apply H|..]; reflexivity. Qed.

Lemma bind_same {A B B'} (g : B -> B') (m : res A) (k : A -> res B) (k' : A -> res B') :
  (forall a, m = Ok a -> k' a = res_map g (k a)) -> bind m k' = res_map g (bind m k).
Proof. intros H. destruct m; cbn [bind res_map]; [apply H|..]; reflexivity. Qed.

Lemma check_same {B B'} (g : B -> B') (b : bool) (c : N) (k : unit -> res B) (k' : unit -> res B') :
  (b = true -> k' tt = res_map g (k tt)) -> bind (check b c) k' = res_map g (bind (check b c) k).
Proof. destruct b; intros H; [apply H|]; reflexivity. Qed.

Lemma if_same {B B'} (g : B -> B') (b : bool) (x y : res B) (x' y' : res B') :
  (b = true -> x' = res_map g x) -> (b = false -> y' = res_map g y) ->
  (if b then x' else y') = res_map g (if b then x else y).
Proof. destruct b; intros H1 H2; [apply H1|apply H2]; reflexivity. Qed.

Lemma check_leb {B} a b c (k : unit -> res B) : a <= b -> bind (check (a <=? b) c) k = k tt.
Proof. intros H. apply bind_check_true, N.leb_le, H. Qed.

Lemma check_ltb {B} a b c (k : unit -> res B) : a < b -> bind (check (a <? b) c) k = k tt.
Proof. intros H. apply bind_check_true, N.ltb_lt, H. Qed.

Lemma check_eqb {B} a b c (k : unit -> res B) : a = b -> bind (check (a =? b) c) k = k tt.
Proof. intros H. apply bind_check_true, N.eqb_eq, H. Qed.

(* `&mut out[a..][..b]`: two bounds checks that report the same code *)
Lemma check_slice {B} a b L c (k : res B) :
  (assert! (a <=? L) code c ;; assert! (b <=? L - a) code c ;; k) = (assert! (a + b <=? L) code c ;; k).
Proof.
  destruct (a + b <=? L) eqn:E.
  - apply N.leb_le in E. rewrite !check_leb by lia. reflexivity.
  - apply N.leb_gt in E. destruct (a <=? L) eqn:Ea; [|reflexivity]. apply N.leb_le in Ea.
    replace (b <=? L - a) with false by (symmetry; apply N.leb_gt; lia). reflexivity.
Qed.

Lemma check_leb_leb {B} a b L c (k : res B) : a <= b ->
  (assert! (a <=? L) code c ;; assert! (b <=? L) code c ;; k) = (assert! (b <=? L) code c ;; k).
Proof.
  intros H. destruct (b <=? L) eqn:E; [apply N.leb_le in E; rewrite check_leb by lia; reflexivity|].
  destruct (a <=? L); reflexivity.
Qed.

Lemma land_ones_small x w : x < 2 ^ w -> N.land x (N.ones w) = x.
Proof. intros H. rewrite N.land_ones. apply N.mod_small, H. Qed.

Lemma cast_small W x : x < 2 ^ W -> mi_cast W x = Ok x.
Proof. intros H. unfold mi_cast. rewrite (land_ones_small x W H). reflexivity. Qed.

Lemma add_small W a b : a + b < 2 ^ W -> mi_add W a b = Ok (a + b).
Proof. intros H. unfold mi_add, fits. apply N.ltb_lt in H. rewrite H. reflexivity. Qed.

Lemma mul_small W a b : a * b < 2 ^ W -> mi_mul W a b = Ok (a * b).
Proof. intros H. unfold mi_mul, fits. apply N.ltb_lt in H. rewrite H. reflexivity. Qed.

Lemma sub_small W a b : b <= a -> mi_sub W a b = Ok (a - b).
Proof. intros H. unfold mi_sub. apply N.leb_le in H. rewrite H. reflexivity. Qed.

Lemma mi_add_Ok W a b c : mi_add W a b = Ok c -> c = a + b /\ c < 2 ^ W.
Proof.
  unfold mi_add, fits. destruct (a + b <? 2 ^ W) eqn:E; intros H; inversion H. subst. split; [reflexivity|]. apply N.ltb_lt, E.
Qed.

Lemma mi_sub_Ok W a b c : mi_sub W a b = Ok c -> c = a - b /\ b <= a.
Proof. unfold mi_sub. destruct (b <=? a) eqn:E; intros H; inversion H. split; [reflexivity|]. apply N.leb_le, E. Qed.

(* the generated code's `a && b` *)
Lemma if_andb (a b : bool) : (if a then Ok b else Ok false) = (Ok (a && b) : res bool).
Proof. destruct a; reflexivity. Qed.

Ltac word_lia :=
  change (2 ^ 8) with 256 in *; change (2 ^ 32) with 4294967296 in *; change (2 ^ 64) with 18446744073709551616 in *; lia.

Ltac mstep := unfold mcmp, mb, mu; cbn [bind].

(* inversion of `H : bind m k = Ok _` (the result is named x, `E : m = Ok x`) and of a passed `check`.  The scrutinee is
   not destructed: where it is a call of a model, `destruct` would reduce it. *)
Ltac inv_bind H x E := apply bind_Ok in H; destruct H as (x & E & H); cbn [bind] in H.
Ltac inv_check H E :=
  match type of H with
  | bind (check ?b _) _ = Ok _ => destruct b eqn:E; cbn [check bind] in H; [|discriminate H]
  end.

(* m is the model, s the translated computation *)
Definition rsim {A B} (R : A -> B -> Prop) (m : res A) (s : res B) : Prop :=
  match s with
  | Ok b => exists a, m = Ok a /\ R a b
  | Panic c => m = Panic c
  | OutOfFuel => m = OutOfFuel
  end.

Lemma rsim_ret {A B} (R : A -> B -> Prop) a b : R a b -> rsim R (Ok a) (Ok b).
Proof. intros H. exists a. split; [reflexivity|exact H]. Qed.

Lemma rsim_bind {A B A' B'} (R : A -> B -> Prop) (Q : A' -> B' -> Prop) m s k k' :
  rsim R m s -> (forall a b, R a b -> rsim Q (k a) (k' b)) -> rsim Q (bind m k) (bind s k').
Proof. destruct s as [b| |]; cbn [rsim bind]; [intros (a & -> & H) Hk; apply Hk, H|intros -> _; reflexivity..]. Qed.

Lemma rsim_same {A B C} (R : A -> B -> Prop) (m : res C) k k' :
  (forall c, m = Ok c -> rsim R (k c) (k' c)) -> rsim R (bind m k) (bind m k').
Proof. destruct m; intros H; [apply H|..]; reflexivity. Qed.

Lemma rsim_impl {A B} (R Q : A -> B -> Prop) m s : (forall a b, R a b -> Q a b) -> rsim R m s -> rsim Q m s.
Proof. intros H. destruct s as [b| |]; cbn [rsim]; [intros (a & E & HR); eauto|auto..]. Qed.

Lemma rsim_map {A B} (R : A -> B -> Prop) (f : B -> A) m s :
  (forall a b, R a b -> a = f b) -> rsim R m s -> res_map f s = m.
Proof. intros H. destruct s as [b| |]; cbn [rsim res_map]; [intros (a & -> & HR); rewrite (H _ _ HR)|intros ->..]; reflexivity. Qed.

(* the translation binds its result once more before returning it *)
Lemma rsim_ret_r {A B} (R : A -> B -> Prop) m (s : res B) : rsim R m s -> rsim R m (b <- s ;; Ok b).
Proof. destruct s; exact id. Qed.

Lemma rsim_Ok {A B} (R : A -> B -> Prop) m s b : rsim R m s -> s = Ok b -> exists a, m = Ok a /\ R a b.
Proof. intros H ->. exact H. Qed.

Lemma rsim_check {A B} (R : A -> B -> Prop) (b : bool) c (k : unit -> res A) (k' : unit -> res B) :
  (b = true -> rsim R (k tt) (k' tt)) -> rsim R (bind (check b c) k) (bind (check b c) k').
Proof. intros H. destruct b; [exact (H eq_refl)|reflexivity]. Qed.

Lemma rsim_if {A B} (R : A -> B -> Prop) (b : bool) (x y : res A) (x' y' : res B) :
  (b = true -> rsim R x x') -> (b = false -> rsim R y y') -> rsim R (if b then x else y) (if b then x' else y').
Proof. destruct b; intros H1 H2; [apply H1|apply H2]; reflexivity. Qed.

Lemma rsim_bind_r {A B B'} (R : A -> B -> Prop) (Q : A -> B' -> Prop) m s (k' : B -> res B') :
  rsim R m s -> (forall a b, R a b -> rsim Q (Ok a) (k' b)) -> rsim Q m (bind s k').
Proof. destruct s as [b| |]; cbn [rsim bind]; [intros (a & -> & H) Hk; apply Hk, H|intros -> _; reflexivity..]. Qed.

Lemma rsim_same_r {A B} (R : A -> B -> Prop) (m : res A) (k' : A -> res B) :
  (forall a, m = Ok a -> rsim R (Ok a) (k' a)) -> rsim R m (bind m k').
Proof. destruct m; intros H; [apply H|..]; reflexivity. Qed.

Lemma rsim_flip {A B} (R : A -> B -> Prop) m s : rsim R m s ->
  match m with Ok a => exists b, s = Ok b /\ R a b | Panic c => s = Panic c | OutOfFuel => s = OutOfFuel end.
Proof.
  destruct s as [b| |]; cbn [rsim]; [intros (a & -> & H); exists b; split; [reflexivity|exact H]|intros ->; reflexivity..].
Qed.

Lemma rsim_of_map {A B} (R : A -> B -> Prop) (f : B -> A) m s :
  res_map f s = m -> (forall b, s = Ok b -> R (f b) b) -> rsim R m s.
Proof. intros <- H. destruct s as [b| |]; cbn [rsim res_map]; [exists (f b); split; [reflexivity|apply H; reflexivity]|reflexivity..]. Qed.

(* A simulation under img f P is the equation `translation = res_map f model` and the postcondition P of the model's
   result, proved in one walk. *)
Definition img {A B} (f : A -> B) (P : A -> Prop) (a : A) (b : B) : Prop := b = f a /\ P a.

Lemma rsim_eq {A B} (f : A -> B) (P : A -> Prop) m s : rsim (img f P) m s -> s = res_map f m.
Proof. destruct s as [b| |]; cbn [rsim]; [intros (a & -> & -> & _)|intros ->..]; reflexivity. Qed.

Lemma rsim_post {A B} (f : A -> B) (P : A -> Prop) m s a : rsim (img f P) m s -> m = Ok a -> P a.
Proof. intros H E. apply rsim_flip in H. rewrite E in H. destruct H as (b & _ & _ & H). exact H. Qed.

Lemma rsim_of_eq {A B} (f : A -> B) (P : A -> Prop) m s :
  s = res_map f m -> (forall a, m = Ok a -> P a) -> rsim (img f P) m s.
Proof.
  intros -> H. destruct m as [a| |]; cbn [rsim res_map]; [|reflexivity..].
  exists a. split; [reflexivity|]. split; [reflexivity|apply H; reflexivity].
Qed.

(* A history machine refines its specification machine when every step does.  The two runs are Fixpoints of the
   models; they enter through their unfolding equations, each of which holds by reflexivity. *)
Section RunSim.
  Context {S A Op Ob : Type}.
  Variables (step : S -> Op -> res (S * list Ob)) (astep : A -> Op -> option (A * list Ob)).
  Variables (run : S -> list Op -> list Ob -> list Ob * res unit) (arun : A -> list Op -> option (list Ob)).
  Variable R : S -> A -> Prop.
  Hypothesis run_nil : forall s acc, run s nil acc = (List.rev acc, Ok tt).
  Hypothesis run_cons : forall s o tl acc, run s (o :: tl) acc =
    match step s o with
    | Ok (s', out) => run s' tl (List.rev out ++ acc)%list
    | Panic c => (List.rev acc, Panic c)
    | OutOfFuel => (List.rev acc, OutOfFuel)
    end.
  Hypothesis arun_nil : forall a, arun a nil = Some nil.
  Hypothesis arun_cons : forall a o tl, arun a (o :: tl) =
    match astep a o with
    | Some (a', out) => match arun a' tl with Some rest => Some (out ++ rest)%list | None => None end
    | None => None
    end.
  Hypothesis step_sim : forall o s a a' out, R s a -> astep a o = Some (a', out) ->
    exists s', step s o = Ok (s', out) /\ R s' a'.

  Lemma run_sim : forall ops s a obs acc,
    R s a -> arun a ops = Some obs -> run s ops acc = ((List.rev acc ++ obs)%list, Ok tt).
  Proof.
    induction ops as [|o ops IH]; intros s a obs acc HR Ha.
    - rewrite arun_nil in Ha. injection Ha as <-. rewrite run_nil, List.app_nil_r. reflexivity.
    - rewrite arun_cons in Ha. destruct (astep a o) as [[a' out]|] eqn:Es; [|discriminate].
      destruct (arun a' ops) as [rest|] eqn:Er; [|discriminate]. injection Ha as <-.
      destruct (step_sim o s a a' out HR Es) as (s' & Hs & HR').
      rewrite run_cons, Hs, (IH s' a' rest _ HR' Er), List.rev_app_distr, List.rev_involutive, <- List.app_assoc.
      reflexivity.
  Qed.
End RunSim.
