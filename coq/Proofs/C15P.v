(* C15: the two halves joined -- the reference implementation reproduces every
   published test vector, for every splitting of the painted input into update calls. *)
From V Require Import Proofs.ListP.
From V Require Import Base.Res Base.Word gen.GenConsts gen.GenTestVectors
  Spec.Compress Spec.Tree Spec.Blake3 Model.RefImpl
  Proofs.RefCompressP Proofs.RefImplP Proofs.TVCommon Proofs.TestVectorsP.
Open Scope N_scope.

Lemma tv_key_ok : ref_mode_ok (RKeyed tv_key).
Proof. split; [reflexivity|]. unfold tv_key. repeat (constructor; [lia|]). constructor. Qed.

Lemma tv_context_ok : ref_mode_ok (RDerive tv_context).
Proof. cbn [ref_mode_ok]. unfold len. vm_compute. reflexivity. Qed.

Lemma tv_input_lengths n h k d : In (n, h, k, d) tv_cases -> n <= 102400.
Proof.
  intros Hin.
  assert (H : forallb (fun c => fst (fst (fst c)) <=? 102400) tv_cases = true) by (vm_compute; reflexivity).
  rewrite forallb_forall in H. specialize (H _ Hin). cbn [fst] in H. lia.
Qed.

Theorem ref_reproduces_test_vectors n h k d pieces :
  In (n, h, k, d) tv_cases -> concat pieces = paint n ->
  ref_run RHash pieces 131 = Ok h /\
  ref_run (RKeyed tv_key) pieces 131 = Ok k /\
  ref_run (RDerive tv_context) pieces 131 = Ok d.
Proof.
  intros Hin Hcat.
  destruct (test_vectors_spec n h k d Hin) as (H1 & H2 & H3).
  pose proof (tv_input_lengths n h k d Hin) as Hn.
  assert (Hlen : len (concat pieces) < 2 ^ 64).
  { rewrite Hcat. unfold len. rewrite paint_length, N2Nat.id. lia. }
  assert (Hout : 131 < 2 ^ 64) by lia.
  rewrite (ref_refines RHash pieces 131 I Hlen Hout).
  rewrite (ref_refines (RKeyed tv_key) pieces 131 tv_key_ok Hlen Hout).
  rewrite (ref_refines (RDerive tv_context) pieces 131 tv_context_ok Hlen Hout).
  rewrite Hcat. change (N.to_nat 131) with 131%nat. cbn [ref_spec_mode].
  rewrite H1, H2. unfold b3_xof_mode, xof_mode. rewrite H3. repeat split.
Qed.

From V Require Import Model.Platform Model.RsWide Proofs.C01P.

Theorem ref_agrees_with_rust_hash p pieces : PlatformOK p -> len (concat pieces) < 2 ^ 64 ->
  ref_run RHash pieces 32 = rs_hash p (concat pieces).
Proof.
  intros POK H. rewrite (ref_hash_spec pieces H), (rs_hash_spec p POK _ H). reflexivity.
Qed.

Theorem ref_agrees_with_rust_keyed_hash p key pieces : PlatformOK p ->
  length key = 32%nat -> Forall (fun b => b < 256) key -> len (concat pieces) < 2 ^ 64 ->
  ref_run (RKeyed key) pieces 32 = rs_keyed_hash p key (concat pieces).
Proof.
  intros POK H1 H2 H. rewrite (ref_keyed_hash_spec key pieces H1 H2 H), (rs_keyed_hash_spec p POK key _ H1 H).
  reflexivity.
Qed.

Theorem ref_agrees_with_rust_derive_key p context pieces : PlatformOK p ->
  len context < 2 ^ 64 -> len (concat pieces) < 2 ^ 64 ->
  ref_run (RDerive context) pieces 32 = rs_derive_key p context (concat pieces).
Proof.
  intros POK H1 H. rewrite (ref_derive_key_spec context pieces H1 H), (rs_derive_key_spec p POK context _ H1 H).
  reflexivity.
Qed.
