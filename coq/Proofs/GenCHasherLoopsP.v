(* The loop-carrying core of c/blake3.c as TRANSLATED statement by statement from the source text
   (gen/GenCHasherLoops.v: chunk_state_update, hasher_merge_cv_stack, hasher_push_cv,
   blake3_hasher_finalize_seek; every `while` a Fixpoint on explicit fuel with the condition and the
   body statements of the source in order) equals the hand-written model of Model/CHasher.v, for
   all arguments and all results (Ok, every Panic code, OutOfFuel).

   Representation.  chunk states / outputs are read field by field as in GenCHasherSmallP.v.  The
   translation INTERPRETS blake3_hasher.cv_stack as the flat `uint8_t cv_stack[1760]` of
   c/blake3.h (records at S := list N); the model keeps it as c_cv_stack_slots = 55 slots of 32
   bytes, bottom first.  slots_of_flat cuts the flat array into its 55 consecutive 32-byte pieces
   (the inverse of `concat` on 55 slots of 32 bytes: slots_of_flat_concat / concat_slots_of_flat),
   hasher_of_flat reads a translated hasher into the model's record through it.

   Hypotheses: the array lengths the C declarations promise (flat_shape: key[8], cv[8], buf[64],
   cv_stack[1760]; new_cv[32]), `input_len <= nlen input`, and compress_len8 p (without it the
   32 bytes a CV occupies in the flat array and the model's slot would differ in length).

   Fuel.  The loop lemmas hold for EVERY fuel (the two definitions unfold in lock step, OutOfFuel
   included).  The model hard-codes its fuel; the enclosing functions are instantiated accordingly:
     hasher_merge_cv_stack / hasher_push_cv   fuel := c_merge_fuel (what the model uses)
     chunk_state_update                        every fuel with length input <= 64 * fuel (the model
                                               computes S (length input' / 64) from the input that is
                                               left after the first flush; both are enough, and the
                                               model's loop does not depend on fuel once it is enough)
     blake3_hasher_finalize_seek               every fuel >= cv_stack_len (the model's loop is a
                                               structural recursion on cvs_remaining, without fuel)

   Where the source and the model are shaped differently (all proved not to matter):
     - chunk_state_update: `input_len -= take` / `input_len -= BLAKE3_BLOCK_LEN` are checked
       subtractions in the translation; the model has no input_len (it is the length of the list).
       They cannot wrap: take <= input_len, and the loop condition is input_len > 64.
     - hasher_merge_cv_stack: the model checks `i + 2 <= 55` in slots (Panic 321); the translation
       multiplies (cv_stack_len - 2) * 32 in `int` (overflow: Panic 321), asserts the 64 bytes read
       for parent_output and again the 32 bytes written by output_chaining_value (both Panic 321; the
       second can never fire after the first).
     - hasher_push_cv: the model checks cv_stack_len < 55 (Panic 322); the translation checks the
       multiplication and `32 * cv_stack_len + 32 <= 1760` (both Panic 322).  The source copies
       BLAKE3_OUT_LEN bytes of new_cv, the model stores new_cv: equal for length new_cv = 32.
     - blake3_hasher_finalize_seek: the model's loop recurses on the natural number cvs_remaining
       (no fuel, and `cvs_remaining -= 1` cannot wrap under `cvs_remaining > 0`); the model returns
       the bytes written, the translation the buffer `out` after the write (arr_store out 0 bytes,
       as m_finalize_seek of GenCHasherSmallP.v); output_root_bytes is the stand-in
       m_output_root_bytes built from c_output_root_bytes in the same way. *)
From V Require Import Proofs.ListP.
From V Require Import Base.Res Base.Word Base.MachInt Base.Arr gen.GenConsts gen.GenFormulas
  gen.GenCHasherSmall gen.GenCHasherLoops Spec.Tree Model.Platform Model.RsChunk Model.CHasher
  Proofs.ResP Proofs.GenCHasherSmallP Proofs.CHasherP.
Import ListNotations.
Open Scope N_scope.

(* rsim_map of Proofs/ResP.v for the res_map of GenCHasherSmallP.v, a second constant with the same body: with rsim_map
   itself at a call site the two constants are unified through their bodies under the whole translated function, which
   takes minutes per call *)
Lemma rsim_res_map {A B} (R : A -> B -> Prop) (f : B -> A) m s :
  (forall a b, R a b -> a = f b) -> rsim R m s -> res_map f s = m.
Proof. exact (rsim_map R f m s). Qed.

Lemma res_map_ext {A B} (f g : A -> B) (r : res A) : (forall a, f a = g a) -> res_map f r = res_map g r.
Proof. intros H. destruct r; cbn; [rewrite H|..]; reflexivity. Qed.

Lemma res_map_bind {A B C} (f : B -> C) (m : res A) (k : A -> res B) :
  res_map f (bind m k) = bind m (fun a => res_map f (k a)).
Proof. destruct m; reflexivity. Qed.

Lemma bind_res_map {A B C} (f : A -> B) (m : res A) (k : B -> res C) :
  bind (res_map f m) k = bind m (fun a => k (f a)).
Proof. destruct m; reflexivity. Qed.

Lemma c_cs_fill_buf_Ok cs input cs' take : c_cs_fill_buf cs input = Ok (cs', take) ->
  take <= nlen input /\ length (cs_buf cs') = length (cs_buf cs) /\ cs_cv cs' = cs_cv cs.
Proof.
  unfold c_cs_fill_buf. intros H. inv_bind H w Ew. cbv zeta in H. inv_check H Ec. inv_bind H bl Eb.
  inversion H; subst; clear H. cbn [cs_buf cs_cv]. split; [lia|]. split; [|reflexivity].
  unfold nlen in *. rewrite !app_length, !firstn_length, skipn_length. lia.
Qed.

(* blake3_compress_in_place(uint32_t cv[8], ..): the selected kernel leaves 8 words in an 8-word cv
   (every PlatformOK p has this: GenLibSmallP.p_cip_length; it is the field wf_cip of GenLibWideP.plat_wf) *)
Definition compress_len8 (p : platform) : Prop :=
  forall cv block bl ctr fl, length cv = 8%nat -> length (p_compress_in_place p cv block bl ctr fl) = 8%nat.

(* A C `(pointer, length)` pair is the list of all bytes from the pointer on plus the length: the model sees the first
   `length` of them. *)
Definition Pin (rest i : list N) (l : N) : Prop := rest = firstn (N.to_nat l) i /\ l <= nlen i.

Lemma Pin_skip i l a : a <= l -> l <= nlen i -> Pin (skipn (N.to_nat a) (firstn (N.to_nat l) i)) (skipn (N.to_nat a) i) (l - a).
Proof.
  intros Ha Hl. split; [rewrite skipn_firstn_comm; f_equal; lia|]. unfold nlen in *. rewrite skipn_length. lia.
Qed.

(* chunk_state_update is walked once, for any Inv of the chaining value that the compression keeps: Inv := True gives
   the equations (no hypothesis on the platform), Inv := 8 words the array lengths of the result. *)
Definition CsI (Inv : list N -> Prop) (cs : chunk_state) (s : src_blake3_chunk_state) : Prop :=
  cs = cs_of_src s /\ length (blake3_chunk_state_buf s) = 64%nat /\ Inv (blake3_chunk_state_cv s).

Section Csu.
  Variables (p : platform) (Inv : list N -> Prop).
  Hypothesis Hstep : forall cv block bl ctr fl, Inv cv -> Inv (p_compress_in_place p cv block bl ctr fl).

  Lemma csu_fill_buf_sim self input n : length (blake3_chunk_state_buf self) = 64%nat -> Inv (blake3_chunk_state_cv self) ->
    n <= nlen input ->
    rsim (fun '(cs, t) '(s, t') => CsI Inv cs s /\ t' = t /\ t <= n)
      (c_cs_fill_buf (cs_of_src self) (firstn (N.to_nat n) input)) (src_chunk_state_fill_buf self input n).
  Proof.
    intros Hbuf Hcv Hn. assert (Hl : n = nlen (firstn (N.to_nat n) input)) by (unfold nlen in *; rewrite firstn_length; lia).
    (* only the first n bytes are read *)
    assert (E : src_chunk_state_fill_buf self input n = src_chunk_state_fill_buf self (firstn (N.to_nat n) input) n).
    { unfold src_chunk_state_fill_buf. destruct (mi_sub 64 c_BLOCK_LEN (blake3_chunk_state_buf_len self)) as [t| |]; cbn [bind];
        try reflexivity.
      cbv zeta. rewrite firstn_firstn_le; [reflexivity|]. destruct (n <? t) eqn:E; [lia|]. apply N.ltb_ge in E. lia. }
    rewrite E. pose proof (src_chunk_state_fill_buf_eq self _ n Hbuf Hl) as Em.
    apply (rsim_of_map _ (fun r => (cs_of_src (fst r), snd r))); [exact Em|].
    intros [s t] Es. rewrite Es in Em. destruct (c_cs_fill_buf_Ok _ _ _ _ (eq_sym Em)) as (Ht & Hb & Hc). cbn [fst snd] in *.
    rewrite <- Hl in Ht. split; [split; [reflexivity|]|split; [reflexivity|exact Ht]].
    clear -Hb Hc Hcv Hbuf. destruct self, s; cbn in *. split; congruence.
  Qed.

  (* The block loop, without hypotheses: buf is not touched, Inv is kept, the (pointer, length) pair handed on is
     `rest`, and what lies behind `length` stays behind it (the last conjunct: for input_len = nlen input the loop
     hands on the exact length). *)
  Lemma csu_loop_sim : forall fuel self input n, n <= nlen input ->
    rsim (fun '(cs, rest) '(s, i, l) =>
            cs = cs_of_src s /\ blake3_chunk_state_buf s = blake3_chunk_state_buf self /\
            (Inv (blake3_chunk_state_cv self) -> Inv (blake3_chunk_state_cv s)) /\ Pin rest i l /\ nlen i - l = nlen input - n)
      (c_cs_update_loop fuel p (cs_of_src self) (firstn (N.to_nat n) input))
      (src_chunk_state_update_loop1 (p_compress_in_place p) fuel self input n).
  Proof.
    induction fuel as [|fuel IH]; intros self input n Hn; cbn [src_chunk_state_update_loop1 c_cs_update_loop];
      (replace (nlen (firstn (N.to_nat n) input)) with n by (unfold nlen in *; rewrite firstn_length; lia));
      rewrite N.ltb_antisym; (destruct (n <=? c_BLOCK_LEN) eqn:E; cbn [negb];
      [apply rsim_ret; exact (conj eq_refl (conj eq_refl (conj (fun H => H) (conj (conj eq_refl Hn) eq_refl))))|]); [reflexivity|].
    apply N.leb_gt in E. change c_BLOCK_LEN with 64 in *. rewrite firstn_firstn_le by lia.
    destruct (Pin_skip input n 64 ltac:(lia) Hn) as [-> Hn']. change (N.to_nat 64) with 64%nat.
    destruct self as [cv ctr buf bl blocks fl]. cbn [cs_of_src cs_cv cs_ctr cs_buf cs_buf_len cs_blocks cs_flags blake3_chunk_state_cv
         blake3_chunk_state_chunk_counter blake3_chunk_state_buf blake3_chunk_state_buf_len
         blake3_chunk_state_blocks_compressed blake3_chunk_state_flags set_blake3_chunk_state_cv
         set_blake3_chunk_state_blocks_compressed] in *.
    apply rsim_same. intros b' _. rewrite (sub_small 64) by lia. cbn [bind].
    refine (rsim_impl _ _ _ _ _ (IH (mk_blake3_chunk_state _ ctr buf bl b' fl) _ _ Hn')).
    intros [cs rest] [[s i] l] (A & B & C & D & F). cbn [blake3_chunk_state_buf blake3_chunk_state_cv] in *.
    split; [exact A|]. split; [exact B|]. split; [intros H; apply C, Hstep, H|]. split; [exact D|].
    rewrite F. clear -E Hn. unfold nlen in *. rewrite skipn_length. lia.
  Qed.

  Theorem csu_sim fuel self input n : length (blake3_chunk_state_buf self) = 64%nat -> Inv (blake3_chunk_state_cv self) ->
    n <= nlen input ->
    rsim (CsI Inv) ('(c1, in1) <- c_cs_update_head p (cs_of_src self) (firstn (N.to_nat n) input) ;; c_cs_update_tail fuel p c1 in1)
         (src_chunk_state_update (p_compress_in_place p) fuel self input n).
  Proof.
    intros Hb Hc Hn. unfold src_chunk_state_update, c_cs_update_head, c_cs_update_tail.
    change (cs_buf_len (cs_of_src self)) with (blake3_chunk_state_buf_len self).
    apply (rsim_bind (fun '(cs, rest) '(s, i, l) => CsI Inv cs s /\ Pin rest i l)).
    { destruct (0 <? blake3_chunk_state_buf_len self);
        [|apply rsim_ret; split; [split; [reflexivity|split; assumption]|split; [reflexivity|exact Hn]]].
      apply (rsim_bind _ _ _ _ _ _ (csu_fill_buf_sim self input n Hb Hc Hn)). intros [cs t] [s t'] ((-> & Hsb & Hsc) & -> & Ht). cbv zeta.
      rewrite (sub_small 64) by exact Ht. cbn [bind]. pose proof (Pin_skip input n t Ht Hn) as HP.
      replace (nlen (skipn (N.to_nat t) (firstn (N.to_nat n) input))) with (n - t)
        by (destruct HP as [-> HP]; unfold nlen in *; rewrite firstn_length; lia).
      destruct (0 <? n - t); [|cbn [bind]; apply rsim_ret; split; [split; [reflexivity|split; assumption]|exact HP]].
      destruct s as [cv1 ctr1 buf1 bl1 blocks1 fl1].
      cbn [cs_of_src cs_cv cs_ctr cs_buf cs_buf_len cs_blocks cs_flags blake3_chunk_state_cv blake3_chunk_state_chunk_counter
           blake3_chunk_state_buf blake3_chunk_state_buf_len blake3_chunk_state_blocks_compressed blake3_chunk_state_flags
           set_blake3_chunk_state_cv set_blake3_chunk_state_blocks_compressed set_blake3_chunk_state_buf_len
           set_blake3_chunk_state_buf] in *.
      rewrite bind_assoc. apply rsim_same. intros b' _. cbn [bind]. apply rsim_ret. rewrite (memset_whole buf1 0 64 Hsb).
      split; [split; [reflexivity|split; [reflexivity|apply Hstep, Hsc]]|exact HP]. }
    intros [cs rest] [[s i] l] ((-> & Hsb & Hsc) & -> & Hl).
    apply (rsim_bind _ _ _ _ _ _ (csu_loop_sim fuel s i l Hl)). intros [cs2 rest2] [[s2 i2] l2] (-> & Hb2 & Hc2 & [-> Hl2] & _).
    rewrite <- Hb2 in Hsb. apply (rsim_bind _ _ _ _ _ _ (csu_fill_buf_sim s2 i2 l2 Hsb (Hc2 Hsc) Hl2)).
    intros [cs3 t3] [s3 t3'] (HR & _). apply rsim_ret. exact HR.
  Qed.
End Csu.

Definition InvT (_ : list N) : Prop := True.

Lemma InvT_step p cv block bl ctr fl : InvT cv -> InvT (p_compress_in_place p cv block bl ctr fl).
Proof. intros _. exact I. Qed.

Lemma firstn_nlen_eq (i : list N) l : l <= nlen i -> nlen i - l = 0 -> firstn (N.to_nat l) i = i.
Proof. intros H1 H2. apply firstn_all2. unfold nlen in *. lia. Qed.

Lemma src_chunk_state_update_loop1_eq p fuel self input :
  res_map (fun r => (cs_of_src (fst (fst r)), snd (fst r)))
          (src_chunk_state_update_loop1 (p_compress_in_place p) fuel self input (nlen input))
  = c_cs_update_loop fuel p (cs_of_src self) input.
Proof.
  pose proof (csu_loop_sim p InvT (InvT_step p) fuel self input (nlen input) (N.le_refl _)) as H. rewrite firstn_nlen in H.
  refine (rsim_res_map _ _ _ _ _ H). intros [cs rest] [[s i] l] (-> & _ & _ & [-> Hl] & F). cbn [fst snd].
  rewrite N.sub_diag in F. rewrite (firstn_nlen_eq i l Hl F). reflexivity.
Qed.

Lemma src_chunk_state_update_loop1_len p fuel self input s i l :
  src_chunk_state_update_loop1 (p_compress_in_place p) fuel self input (nlen input) = Ok (s, i, l) -> l = nlen i.
Proof.
  intros E. destruct (rsim_Ok _ _ _ _ (csu_loop_sim p InvT (InvT_step p) fuel self input (nlen input) (N.le_refl _)) E)
    as ([cs rest] & _ & _ & _ & _ & [_ Hl] & F).
  rewrite N.sub_diag in F. clear -Hl F. lia.
Qed.

Lemma src_csu_with p fuel self input n : cs_shape self -> n <= nlen input ->
  res_map cs_of_src (src_chunk_state_update (p_compress_in_place p) fuel self input n)
  = ('(c1, in1) <- c_cs_update_head p (cs_of_src self) (firstn (N.to_nat n) input) ;; c_cs_update_tail fuel p c1 in1).
Proof.
  intros [_ HS] Hn. exact (rsim_res_map _ cs_of_src _ _ (fun cs s H => proj1 H) (csu_sim p InvT (InvT_step p) fuel self input n HS I Hn)).
Qed.

Definition CsR (cs : chunk_state) (s : src_blake3_chunk_state) : Prop := cs = cs_of_src s /\ cs_shape s.

Lemma csu_shape_sim p fuel self input n : compress_len8 p -> cs_shape self -> n <= nlen input ->
  rsim CsR ('(c1, in1) <- c_cs_update_head p (cs_of_src self) (firstn (N.to_nat n) input) ;; c_cs_update_tail fuel p c1 in1)
       (src_chunk_state_update (p_compress_in_place p) fuel self input n).
Proof.
  intros HP [Hc Hb] Hn. refine (rsim_impl _ _ _ _ _ (csu_sim p (fun cv => length cv = 8%nat) HP fuel self input n Hb Hc Hn)).
  intros cs s (E & B & C). exact (conj E (conj C B)).
Qed.

Lemma c_cs_update_loop_enough p : forall fuel cs input fuel', (length input <= 64 * fuel)%nat -> (fuel <= fuel')%nat ->
  c_cs_update_loop fuel' p cs input = c_cs_update_loop fuel p cs input.
Proof.
  induction fuel as [|fuel IH]; intros cs input fuel' Hl Hf; destruct fuel' as [|fuel']; try lia;
    cbn [c_cs_update_loop]; destruct (nlen input <=? c_BLOCK_LEN) eqn:E; try reflexivity.
  - unfold nlen in E. change c_BLOCK_LEN with 64 in E. lia.
  - destruct (mi_add 8 (cs_blocks cs) 1); cbn [bind]; try reflexivity.
    apply IH; [|lia]. rewrite skipn_length. change (N.to_nat c_BLOCK_LEN) with 64%nat. lia.
Qed.

Lemma c_cs_update_loop_fuel p fuel cs input : (length input <= 64 * fuel)%nat ->
  c_cs_update_loop fuel p cs input = c_cs_update_loop (S (Nat.div (length input) 64)) p cs input.
Proof.
  intros H. set (m := S (Nat.div (length input) 64)).
  assert (Hm : (length input <= 64 * m)%nat) by (unfold m; lia).
  rewrite <- (c_cs_update_loop_enough p fuel cs input (Nat.max fuel m) H (Nat.le_max_l _ _)).
  apply (c_cs_update_loop_enough p m cs input (Nat.max fuel m) Hm (Nat.le_max_r _ _)).
Qed.

Lemma c_cs_update_head_len p cs input cs1 in1 : c_cs_update_head p cs input = Ok (cs1, in1) -> (length in1 <= length input)%nat.
Proof.
  unfold c_cs_update_head. intros H. destruct (0 <? cs_buf_len cs); [|inversion H; subst; lia].
  inv_bind H r Ef. destruct r as [c0 take]. cbv zeta in H.
  assert (Hin : forall c, Ok (c, skipn (N.to_nat take) input) = Ok (cs1, in1) -> (length in1 <= length input)%nat).
  { intros c Hc. inversion Hc; subst. rewrite skipn_length. lia. }
  destruct (0 <? nlen (skipn (N.to_nat take) input)); [inv_bind H b Eb|]; exact (Hin _ H).
Qed.

Lemma c_cs_update_fuel p fuel cs input : (length input <= 64 * fuel)%nat ->
  ('(cs1, in1) <- c_cs_update_head p cs input ;; c_cs_update_tail fuel p cs1 in1) = c_cs_update p cs input.
Proof.
  intros Hfuel. rewrite c_cs_update_split.
  destruct (c_cs_update_head p cs input) as [[cs1 in1]| |] eqn:E; cbn [bind]; try reflexivity.
  apply c_cs_update_head_len in E. unfold c_cs_update_tail. rewrite (c_cs_update_loop_fuel p fuel) by lia. reflexivity.
Qed.

Lemma src_chunk_state_update_eq p fuel self input : cs_shape self -> (length input <= 64 * fuel)%nat ->
  res_map cs_of_src (src_chunk_state_update (p_compress_in_place p) fuel self input (nlen input))
  = c_cs_update p (cs_of_src self) input.
Proof.
  intros Hs Hfuel. rewrite (src_csu_with p fuel self input (nlen input) Hs (N.le_refl _)), firstn_nlen. apply c_cs_update_fuel, Hfuel.
Qed.

Lemma src_chunk_state_update_model_fuel p self input : cs_shape self ->
  res_map cs_of_src (src_chunk_state_update (p_compress_in_place p) (S (Nat.div (length input) 64)) self input (nlen input))
  = c_cs_update p (cs_of_src self) input.
Proof. intros H. apply src_chunk_state_update_eq; [exact H|lia]. Qed.


Fixpoint chunks32 (n : nat) (l : list N) : list (list N) :=
  match n with
  | O => []
  | S n' => firstn 32 l :: chunks32 n' (skipn 32 l)
  end.

Definition slots_of_flat (l : list N) : list (list N) := chunks32 (N.to_nat c_cv_stack_slots) l.

Definition src_flat_hasher : Type := src_blake3_hasher (list N).

Definition hasher_of_flat (h : src_flat_hasher) : c_hasher :=
  mkCH (blake3_hasher_key h) (cs_of_src (blake3_hasher_chunk h)) (blake3_hasher_cv_stack_len h)
       (slots_of_flat (blake3_hasher_cv_stack h)).

Definition flat_shape (h : src_flat_hasher) : Prop :=
  hasher_shape h /\ length (blake3_hasher_cv_stack h) = N.to_nat c_cv_stack_bytes.

Lemma chunks32_length n l : length (chunks32 n l) = n.
Proof. revert l. induction n as [|n IH]; intros l; cbn [chunks32 length]; [reflexivity|]. rewrite IH. reflexivity. Qed.

Lemma chunks32_nth : forall n l i, (i < n)%nat -> nth i (chunks32 n l) [] = firstn 32 (skipn (32 * i) l).
Proof.
  induction n as [|n IH]; intros l i Hi; [lia|]. destruct i as [|i]; cbn [chunks32 nth]; [reflexivity|].
  rewrite IH by lia. replace (32 * S i)%nat with (32 + 32 * i)%nat by lia. rewrite <- skipn_skipn. reflexivity.
Qed.

Lemma chunks32_concat : forall sl, Forall (fun s => length s = 32%nat) sl -> chunks32 (length sl) (concat sl) = sl.
Proof.
  induction sl as [|s sl IH]; intros H; [reflexivity|]. inversion H; subst. cbn [length chunks32 concat].
  rewrite firstn_app_exact, skipn_app_exact by assumption. rewrite IH by assumption. reflexivity.
Qed.

Lemma concat_chunks32 : forall n l, length l = (32 * n)%nat -> concat (chunks32 n l) = l.
Proof.
  induction n as [|n IH]; intros l H; cbn [chunks32 concat].
  - destruct l; [reflexivity|discriminate].
  - rewrite IH by (rewrite skipn_length; lia). apply firstn_skipn.
Qed.

Lemma slots_of_flat_concat sl : length sl = N.to_nat c_cv_stack_slots -> Forall (fun s => length s = 32%nat) sl ->
  slots_of_flat (concat sl) = sl.
Proof. intros H1 H2. unfold slots_of_flat. rewrite <- H1. apply chunks32_concat. exact H2. Qed.

Lemma concat_slots_of_flat l : length l = N.to_nat c_cv_stack_bytes -> concat (slots_of_flat l) = l.
Proof. intros H. apply concat_chunks32. rewrite H. reflexivity. Qed.

Lemma chunks32_store : forall n l i v, length v = 32%nat -> (32 * i + 32 <= length l)%nat ->
  chunks32 n (arr_store l (32 * i) v) = upd_nth i v (chunks32 n l).
Proof.
  induction n as [|n IH]; intros l i v Hv Hl; [destruct i; reflexivity|].
  destruct i as [|i]; cbn [chunks32 upd_nth].
  - replace (32 * 0)%nat with 0%nat by lia. unfold arr_store. change (firstn 0 l) with (@nil N).
    cbn [app Nat.add]. rewrite Hv, firstn_app_exact, skipn_app_exact by exact Hv. reflexivity.
  - replace (32 * S i)%nat with (32 + 32 * i)%nat by lia. rewrite arr_store_shift.
    assert (H32 : length (firstn 32 l) = 32%nat) by (rewrite firstn_length; lia).
    rewrite firstn_app_exact, skipn_app_exact by exact H32. f_equal.
    apply IH; [exact Hv|]. rewrite skipn_length. lia.
Qed.

Lemma slot_flat l i : i < c_cv_stack_slots -> slot (slots_of_flat l) i = firstn 32 (skipn (32 * N.to_nat i) l).
Proof. intros H. unfold slot, slots_of_flat. apply chunks32_nth. lia. Qed.

Lemma slot_pair_flat l i : i + 2 <= c_cv_stack_slots ->
  firstn 64 (skipn (32 * N.to_nat i) l) = slot (slots_of_flat l) i ++ slot (slots_of_flat l) (i + 1).
Proof.
  intros H. rewrite !slot_flat by lia. change 64%nat with (32 + 32)%nat. rewrite firstn_plus, skipn_skipn.
  do 3 f_equal. lia.
Qed.

Lemma slots_store l i v : length v = 32%nat -> (32 * N.to_nat i + 32 <= length l)%nat ->
  slots_of_flat (arr_store l (32 * N.to_nat i) v) = upd_nth (N.to_nat i) v (slots_of_flat l).
Proof. intros Hv Hl. unfold slots_of_flat. apply chunks32_store; assumption. Qed.

Lemma c_output_chaining_value_length p o : compress_len8 p -> length (o_cv o) = 8%nat ->
  length (c_output_chaining_value p o) = 32%nat.
Proof. intros H Ho. unfold c_output_chaining_value. rewrite bytes_of_words_length, H by exact Ho. reflexivity. Qed.

Lemma output_t_input_cv_of_src o : output_t_input_cv o = o_cv (output_of_src o).
Proof. reflexivity. Qed.

Lemma stack_bytes : N.to_nat c_cv_stack_bytes = 1760%nat.
Proof. reflexivity. Qed.
Lemma stack_slots : c_cv_stack_slots = 55.
Proof. reflexivity. Qed.

Lemma at_site_sub W site a b : at_site site (mi_sub W a b) = (assert! (b <=? a) code site ;; Ok (a - b)).
Proof. unfold at_site, mi_sub. destruct (b <=? a); reflexivity. Qed.

(* an access to k slots from slot i on: the translation computes the byte offset in W bits and checks the byte
   range of the flat array, the model checks the slot range.  W = 31 where the source multiplies in `int` (the uint8_t
   cv_stack_len promoted: merge_cv_stack, push_cv), 64 where in size_t (cvs_remaining of finalize_seek) *)
Lemma flat_offset {A} W site i b k (K : N -> res A) : b = 32 * k -> 1 <= k -> 1760 < 2 ^ W ->
  (t <- at_site site (mi_mul W i 32) ;; assert! (t + b <=? 1760) code site ;; K t)
  = (assert! (i + k <=? 55) code site ;; K (i * 32)).
Proof.
  intros -> Hk HW. unfold at_site, mi_mul, MachInt.fits.
  destruct (i + k <=? 55) eqn:E; cbn [check bind].
  - replace (i * 32 <? 2 ^ W) with true by lia. cbn [bind]. replace (i * 32 + 32 * k <=? 1760) with true by lia. reflexivity.
  - destruct (i * 32 <? 2 ^ W); cbn [bind]; [|reflexivity]. replace (i * 32 + 32 * k <=? 1760) with false by lia. reflexivity.
Qed.

Definition FlatR (self : src_flat_hasher) (h : c_hasher) (s : src_flat_hasher) : Prop :=
  h = hasher_of_flat s /\ flat_shape s /\
  blake3_hasher_chunk s = blake3_hasher_chunk self /\ blake3_hasher_key s = blake3_hasher_key self.

Lemma FlatR_refl self : flat_shape self -> FlatR self (hasher_of_flat self) self.
Proof. intros H. repeat split; apply H. Qed.

Lemma merge_loop_sim p : compress_len8 p -> forall fuel (self : src_flat_hasher) post, flat_shape self ->
  rsim (FlatR self) (c_merge_loop fuel p (hasher_of_flat self) post)
       (src_hasher_merge_cv_stack_loop1 (p_compress_in_place p) fuel self post).
Proof.
  intros HP. induction fuel as [|fuel IH]; intros self post HS;
    cbn [src_hasher_merge_cv_stack_loop1 c_merge_loop];
    change (ch_stack_len (hasher_of_flat self)) with (blake3_hasher_cv_stack_len self);
    rewrite N.ltb_antisym; destruct (blake3_hasher_cv_stack_len self <=? post) eqn:E; cbn [negb];
    try (apply rsim_ret, FlatR_refl, HS); try reflexivity.
  pose proof HS as [[Hk Hcs] Hst]. destruct self as [key chunk len st].
  cbn [blake3_hasher_key blake3_hasher_chunk blake3_hasher_cv_stack_len blake3_hasher_cv_stack] in *.
  unfold hasher_of_flat.
  cbn [blake3_hasher_key blake3_hasher_chunk blake3_hasher_cv_stack_len blake3_hasher_cv_stack
       ch_key ch_chunk ch_stack_len ch_stack ch_flags].
  rewrite stack_bytes in Hst.
  rewrite at_site_sub. destruct (2 <=? len) eqn:E2; cbn [check bind rsim]; [|reflexivity].
  rewrite stack_slots, Hst. change c_OUT_LEN with 32. change (N.of_nat 1760) with 1760. cbv zeta.
  rewrite (flat_offset 31 321 (len - 2) 64 2) by (reflexivity || lia).
  destruct (len - 2 + 2 <=? 55) eqn:E3; cbn [check bind rsim]; [|reflexivity].
  replace ((len - 2) * 32 + 32 <=? 1760) with true by lia. cbn [bind check].
  cbn [blake3_hasher_key blake3_hasher_chunk blake3_hasher_cv_stack_len blake3_hasher_cv_stack
       set_blake3_hasher_cv_stack set_blake3_hasher_cv_stack_len].
  replace (N.to_nat ((len - 2) * 32)) with (32 * N.to_nat (len - 2))%nat by lia.
  set (i := len - 2) in *.
  assert (Hblock : firstn 64 (skipn (32 * N.to_nat i) st) = slot (slots_of_flat st) i ++ slot (slots_of_flat st) (i + 1))
    by (apply slot_pair_flat; rewrite stack_slots; lia).
  assert (Hb64 : length (firstn 64 (skipn (32 * N.to_nat i) st)) = 64%nat) by (rewrite firstn_length, skipn_length; lia).
  assert (Hb32 : length (firstn 32 (skipn (32 * N.to_nat i) st)) = 32%nat) by (rewrite firstn_length, skipn_length; lia).
  set (o := src_parent_output (firstn 64 (skipn (32 * N.to_nat i) st)) key (blake3_chunk_state_flags chunk)).
  assert (Ho : output_of_src o = c_parent_output (slot (slots_of_flat st) i ++ slot (slots_of_flat st) (i + 1)) key
                                   (cs_flags (cs_of_src chunk))).
  { unfold o. rewrite src_parent_output_eq by assumption. rewrite Hblock. reflexivity. }
  rewrite (src_output_chaining_value_eq p o _) by (rewrite ?output_t_input_cv_of_src, ?Ho; auto).
  rewrite Ho.
  set (cv := c_output_chaining_value p _).
  assert (Hcv : length cv = 32%nat) by (apply c_output_chaining_value_length; [exact HP|exact Hk]).
  destruct (mi_sub 8 len 1) as [len'| |]; cbn [bind rsim]; try reflexivity.
  rewrite <- slots_store by (rewrite ?Hcv; lia).
  apply (IH (mk_blake3_hasher key chunk len' (arr_store st (32 * N.to_nat i) cv)) post).
  split; [split; assumption|]. cbn [blake3_hasher_cv_stack]. rewrite arr_store_length by (rewrite Hcv; lia).
    rewrite stack_bytes. exact Hst.
Qed.

Lemma src_hasher_merge_cv_stack_loop1_eq p : compress_len8 p -> forall fuel (self : src_flat_hasher) post,
  flat_shape self ->
  res_map hasher_of_flat (src_hasher_merge_cv_stack_loop1 (p_compress_in_place p) fuel self post)
  = c_merge_loop fuel p (hasher_of_flat self) post.
Proof. intros HP fuel self post HS. exact (rsim_res_map _ _ _ _ (fun h s H => proj1 H) (merge_loop_sim p HP fuel self post HS)). Qed.

Lemma merge_sim p fuel (self : src_flat_hasher) total_len : compress_len8 p -> flat_shape self ->
  rsim (FlatR self) (post <- c_popcnt total_len ;; c_merge_loop fuel p (hasher_of_flat self) post)
       (src_hasher_merge_cv_stack (p_compress_in_place p) fuel self total_len).
Proof.
  intros HP HS. unfold src_hasher_merge_cv_stack. apply rsim_same. intros post _. cbv zeta.
  apply rsim_ret_r, merge_loop_sim; assumption.
Qed.

Lemma src_hasher_merge_cv_stack_eq p (self : src_flat_hasher) total_len : compress_len8 p -> flat_shape self ->
  res_map hasher_of_flat (src_hasher_merge_cv_stack (p_compress_in_place p) c_merge_fuel self total_len)
  = c_merge_cv_stack p (hasher_of_flat self) total_len.
Proof. intros HP HS. exact (rsim_res_map _ _ _ _ (fun h s H => proj1 H) (merge_sim p c_merge_fuel self total_len HP HS)). Qed.

Lemma src_hasher_merge_cv_stack_shape p fuel (self h' : src_flat_hasher) total_len : compress_len8 p -> flat_shape self ->
  src_hasher_merge_cv_stack (p_compress_in_place p) fuel self total_len = Ok h' -> flat_shape h'.
Proof. intros HP HS E. destruct (rsim_Ok _ _ _ _ (merge_sim p fuel self total_len HP HS) E) as (h & _ & HR). apply HR. Qed.

(* the statements after the call of hasher_merge_cv_stack, on whatever it returned; the source copies the first
   BLAKE3_OUT_LEN bytes of what new_cv points to *)
Lemma push_cv_tail_sim self h (s : src_flat_hasher) new_cv cv : FlatR self h s -> length cv = 32%nat -> firstn 32 new_cv = cv ->
  rsim (FlatR self)
    (assert! (ch_stack_len h <? c_cv_stack_slots) code 322 ;;
     len' <- mi_add 8 (ch_stack_len h) 1 ;;
     Ok (mkCH (ch_key h) (ch_chunk h) len' (upd_nth (N.to_nat (ch_stack_len h)) cv (ch_stack h))))
    (t1 <- at_site 322 (mi_mul 31 (blake3_hasher_cv_stack_len s) c_OUT_LEN) ;;
     assert! (t1 + 32 <=? N.of_nat (length (blake3_hasher_cv_stack s))) code 322 ;;
     let self := set_blake3_hasher_cv_stack s (arr_store (blake3_hasher_cv_stack s) (N.to_nat t1) (firstn 32%nat new_cv)) in
     t2 <- mi_add 8 (blake3_hasher_cv_stack_len self) 1 ;;
     let self := set_blake3_hasher_cv_stack_len self t2 in
     Ok self).
Proof.
  intros (-> & [[Hk Hcs] Hst] & Hch & Hkey) Hn ->. destruct s as [key chunk len st].
  unfold hasher_of_flat, set_blake3_hasher_cv_stack_len, set_blake3_hasher_cv_stack.
  cbn [blake3_hasher_key blake3_hasher_chunk blake3_hasher_cv_stack_len blake3_hasher_cv_stack
       ch_key ch_chunk ch_stack_len ch_stack] in *.
  rewrite stack_bytes in Hst. rewrite stack_slots, Hst. change c_OUT_LEN with 32. change (N.of_nat 1760) with 1760.
  rewrite (flat_offset 31 322 len 32 1) by (reflexivity || lia).
  replace (len + 1 <=? 55) with (len <? 55) by lia.
  destruct (len <? 55) eqn:E; cbn [check bind rsim]; [|reflexivity]. cbv zeta.
  destruct (mi_add 8 len 1) as [len'| |]; cbn [bind rsim]; try reflexivity.
  cbn [blake3_hasher_key blake3_hasher_chunk blake3_hasher_cv_stack_len blake3_hasher_cv_stack].
  replace (N.to_nat (len * 32)) with (32 * N.to_nat len)%nat by lia.
  eexists. split; [reflexivity|]. unfold FlatR, hasher_of_flat.
  cbn [blake3_hasher_key blake3_hasher_chunk blake3_hasher_cv_stack_len blake3_hasher_cv_stack].
  rewrite slots_store by lia. split; [reflexivity|]. split; [|split; assumption].
  split; [split; assumption|]. cbn [blake3_hasher_cv_stack]. rewrite arr_store_length, stack_bytes by lia. exact Hst.
Qed.

Lemma src_hasher_push_cv_eq p (self : src_flat_hasher) new_cv chunk_counter :
  compress_len8 p -> flat_shape self -> length new_cv = 32%nat ->
  res_map hasher_of_flat (src_hasher_push_cv (p_compress_in_place p) c_merge_fuel self new_cv chunk_counter)
  = c_push_cv p (hasher_of_flat self) new_cv chunk_counter.
Proof.
  intros HP HS Hn. apply (rsim_res_map (FlatR self)); [intros h s H; apply H|].
  apply (rsim_bind (FlatR self)); [apply merge_sim; assumption|]. intros h s HR.
  apply push_cv_tail_sim; [exact HR|exact Hn|apply firstn_all2; lia].
Qed.


Definition m_output_root_bytes (p : platform) (self : src_output_t) (seek : N) (out : list N) (out_len : N)
  : res (list N) :=
  res_map (fun bs => arr_store out 0 bs) (c_output_root_bytes p (output_of_src self) seek out_len).

(* uint8_t parent_block[64]; memcpy(parent_block, a, 32); <32 bytes b written at &parent_block[32]> *)
Lemma parent_block_two (a b : list N) : length a = 32%nat -> length b = 32%nat ->
  arr_store (arr_store (repeat 0 64%nat) 0 a) 32 b = a ++ b.
Proof.
  intros Ha Hb. unfold arr_store at 2. rewrite Ha. change (firstn 0 (repeat 0 64%nat)) with (@nil N).
  change (skipn (0 + 32) (repeat 0 64%nat)) with (repeat 0 32%nat). cbn [app].
  unfold arr_store. rewrite firstn_app_exact by exact Ha. rewrite Hb.
  rewrite skipn_all2 by (rewrite app_length, Ha, repeat_length; lia). rewrite app_nil_r. reflexivity.
Qed.

Lemma parent_block_cv_length (a : list N) : length a = 32%nat ->
  length (firstn 32 (skipn 32 (arr_store (repeat 0 64%nat) 0 a))) = 32%nat.
Proof.
  intros Ha. unfold arr_store. rewrite Ha. change (firstn 0 (repeat 0 64%nat)) with (@nil N).
  change (skipn (0 + 32) (repeat 0 64%nat)) with (repeat 0 32%nat). cbn [app].
  rewrite skipn_app_exact by exact Ha. reflexivity.
Qed.

Lemma src_blake3_hasher_finalize_seek_loop1_eq p : compress_len8 p -> forall fuel (self : src_flat_hasher) output r,
  flat_shape self -> length (output_t_input_cv output) = 8%nat -> (N.to_nat r <= fuel)%nat ->
  res_map (fun x => output_of_src (fst x))
          (src_blake3_hasher_finalize_seek_loop1 (p_compress_in_place p) fuel self output r)
  = c_finalize_loop (N.to_nat r) p (hasher_of_flat self) (output_of_src output).
Proof.
  intros HP. induction fuel as [|fuel IH]; intros self output r HS Ho Hf;
    cbn [src_blake3_hasher_finalize_seek_loop1]; destruct (0 <? r) eqn:E.
  - lia.
  - replace r with 0 by lia. reflexivity.
  - unfold mi_sub at 1. replace (1 <=? r) with true by lia.
    cbn [bind]. cbv zeta. set (r' := r - 1). replace (N.to_nat r) with (S (N.to_nat r')) by lia.
    cbn [c_finalize_loop]. rewrite N2Nat.id, stack_slots.
    pose proof HS as HS0. destruct HS as [[Hk Hcs] Hst]. rewrite stack_bytes in Hst.
    rewrite Hst. change (N.of_nat 1760) with 1760. rewrite (flat_offset 64 324 r' 32 1) by (reflexivity || lia).
    replace (r' + 1 <=? 55) with (r' <? 55) by lia.
    destruct (r' <? 55) eqn:E3; cbn [check bind res_map]; [|reflexivity].
    replace (N.to_nat (r' * 32)) with (32 * N.to_nat r')%nat by lia.
    rewrite <- (slot_flat (blake3_hasher_cv_stack self) r') by (rewrite stack_slots; lia).
    change (slots_of_flat (blake3_hasher_cv_stack self)) with (ch_stack (hasher_of_flat self)).
    set (a := slot (ch_stack (hasher_of_flat self)) r').
    assert (Ha : length a = 32%nat).
    { unfold a. change (ch_stack (hasher_of_flat self)) with (slots_of_flat (blake3_hasher_cv_stack self)).
      rewrite slot_flat by (rewrite stack_slots; lia). rewrite firstn_length, skipn_length. lia. }
    rewrite (src_output_chaining_value_eq p output _ Ho (parent_block_cv_length a Ha) (HP _ _ _ _ _ Ho)).
    rewrite (parent_block_two a _ Ha (c_output_chaining_value_length p (output_of_src output) HP Ho)).
    set (blk := a ++ c_output_chaining_value p (output_of_src output)).
    assert (Hblk : length blk = 64%nat)
      by (unfold blk; rewrite app_length, Ha, (c_output_chaining_value_length p (output_of_src output) HP Ho); reflexivity).
    set (o' := src_parent_output blk (blake3_hasher_key self) (blake3_chunk_state_flags (blake3_hasher_chunk self))).
    assert (Ho' : output_of_src o' = c_parent_output blk (ch_key (hasher_of_flat self)) (ch_flags (hasher_of_flat self)))
      by (unfold o'; rewrite src_parent_output_eq by assumption; reflexivity).
    rewrite <- Ho'. apply IH; [exact HS0| |lia].
    rewrite output_t_input_cv_of_src, Ho'. exact Hk.
  - replace r with 0 by lia. reflexivity.
Qed.

Lemma src_finalize_tail p fuel (self : src_flat_hasher) output r seek out out_len :
  compress_len8 p -> flat_shape self -> length (output_t_input_cv output) = 8%nat -> (N.to_nat r <= fuel)%nat ->
  ('(output0, cvs_remaining) <- src_blake3_hasher_finalize_seek_loop1 (p_compress_in_place p) fuel self output r ;;
   out0 <- m_output_root_bytes p output0 seek out out_len ;; Ok out0)
  = res_map (fun bs => arr_store out 0 bs)
      (o <- c_finalize_loop (N.to_nat r) p (hasher_of_flat self) (output_of_src output) ;;
       c_output_root_bytes p o seek out_len).
Proof.
  intros HP HS Ho Hf. rewrite <- (src_blake3_hasher_finalize_seek_loop1_eq p HP fuel self output r HS Ho Hf).
  destruct (src_blake3_hasher_finalize_seek_loop1 (p_compress_in_place p) fuel self output r) as [[o1 r1]| |];
    cbn [res_map bind fst]; try reflexivity.
  unfold m_output_root_bytes. destruct (c_output_root_bytes p (output_of_src o1) seek out_len); reflexivity.
Qed.

Lemma src_blake3_hasher_finalize_seek_eq p fuel (self : src_flat_hasher) seek out out_len :
  compress_len8 p -> flat_shape self -> (N.to_nat (blake3_hasher_cv_stack_len self) <= fuel)%nat ->
  src_blake3_hasher_finalize_seek (m_output_root_bytes p) (p_compress_in_place p) fuel self seek out out_len
  = res_map (fun bs => arr_store out 0 bs) (c_hasher_finalize_seek p (hasher_of_flat self) seek out_len).
Proof.
  intros HP HS Hf. unfold src_blake3_hasher_finalize_seek, c_hasher_finalize_seek.
  destruct (out_len =? 0); [reflexivity|].
  unfold c_final_output. change (ch_stack_len (hasher_of_flat self)) with (blake3_hasher_cv_stack_len self).
  pose proof HS as HS0. destruct HS as [[Hk [Hcv Hbuf]] Hst]. rewrite stack_bytes in Hst.
  assert (Hco : output_of_src (src_chunk_state_output (blake3_hasher_chunk self))
                = c_cs_output (ch_chunk (hasher_of_flat self)))
    by (apply src_chunk_state_output_eq; split; assumption).
  destruct (blake3_hasher_cv_stack_len self =? 0) eqn:E0.
  - cbv zeta. cbn [bind]. unfold m_output_root_bytes. rewrite Hco.
    destruct (c_output_root_bytes p (c_cs_output (ch_chunk (hasher_of_flat self))) seek out_len); reflexivity.
  - cbv zeta. unfold c_cs_len.
    change (cs_blocks (ch_chunk (hasher_of_flat self)))
      with (blake3_chunk_state_blocks_compressed (blake3_hasher_chunk self)).
    change (cs_buf_len (ch_chunk (hasher_of_flat self))) with (blake3_chunk_state_buf_len (blake3_hasher_chunk self)).
    destruct (c_chunk_state_len _ _) as [clen| |]; cbn [bind res_map]; try reflexivity.
    destruct (0 <? clen).
    + cbn [bind]. rewrite <- Hco. apply src_finalize_tail; try assumption.
      rewrite output_t_input_cv_of_src, Hco. exact Hcv.
    + rewrite at_site_sub. destruct (2 <=? blake3_hasher_cv_stack_len self) eqn:E2; cbn [check bind res_map]; [|reflexivity].
      set (r := blake3_hasher_cv_stack_len self - 2) in *. rewrite stack_slots.
      rewrite Hst. change (N.of_nat 1760) with 1760. rewrite (flat_offset 64 326 r 64 2) by (reflexivity || lia).
      destruct (r + 2 <=? 55) eqn:E3; cbn [check bind res_map]; [|reflexivity].
      replace (N.to_nat (r * 32)) with (32 * N.to_nat r)%nat by lia.
      rewrite (slot_pair_flat (blake3_hasher_cv_stack self) r) by (rewrite stack_slots; lia).
      change (slots_of_flat (blake3_hasher_cv_stack self)) with (ch_stack (hasher_of_flat self)).
      set (blk := slot (ch_stack (hasher_of_flat self)) r ++ slot (ch_stack (hasher_of_flat self)) (r + 1)).
      assert (Hblk : length blk = 64%nat).
      { unfold blk. change (ch_stack (hasher_of_flat self)) with (slots_of_flat (blake3_hasher_cv_stack self)).
        rewrite <- (slot_pair_flat (blake3_hasher_cv_stack self) r) by (rewrite stack_slots; lia).
        rewrite firstn_length, skipn_length. lia. }
      set (o' := src_parent_output blk (blake3_hasher_key self) (blake3_chunk_state_flags (blake3_hasher_chunk self))).
      assert (Ho' : output_of_src o' = c_parent_output blk (ch_key (hasher_of_flat self)) (ch_flags (hasher_of_flat self)))
        by (unfold o'; rewrite src_parent_output_eq by assumption; reflexivity).
      rewrite <- Ho'. apply src_finalize_tail; try assumption; [|unfold r; lia].
      rewrite output_t_input_cv_of_src, Ho'. exact Hk.
Qed.

(* 256: the range of `uint8_t cv_stack_len` *)
Lemma src_blake3_hasher_finalize_seek_eq_256 p (self : src_flat_hasher) seek out out_len :
  compress_len8 p -> flat_shape self -> blake3_hasher_cv_stack_len self < 256 ->
  src_blake3_hasher_finalize_seek (m_output_root_bytes p) (p_compress_in_place p) c_merge_fuel self seek out out_len
  = res_map (fun bs => arr_store out 0 bs) (c_hasher_finalize_seek p (hasher_of_flat self) seek out_len).
Proof. intros HP HS H. apply src_blake3_hasher_finalize_seek_eq; try assumption. unfold c_merge_fuel. lia. Qed.
