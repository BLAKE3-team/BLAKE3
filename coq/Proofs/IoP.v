(* C11: copy_wide over any finite reader script absorbs exactly the bytes yielded
   before the first hard error or end of file; Interrupted is retried without
   losing or duplicating data; Write::write consumes the whole buffer. *)
From V Require Import Proofs.ListP Proofs.ResP.
From V Require Import Base.Res Base.Word Base.MachInt gen.GenConsts gen.GenFormulas
  Spec.Tree Model.Platform Model.RsChunk Model.RsHasher Model.RsIo Proofs.FormulasP.
Open Scope N_scope.

Fixpoint updates (p : platform) (h : hasher) (pieces : list (list N)) : res hasher :=
  match pieces with
  | [] => Ok h
  | x :: tl => h' <- hasher_update p h x ;; updates p h' tl
  end.

Lemma delivered_prefix : forall fuel data script,
  exists rest, data = concat (fst (delivered fuel data script)) ++ rest.
Proof.
  induction fuel as [|fuel IH]; intros data script; [exists data; reflexivity|].
  cbn [delivered].
  destruct (match script with [] => (RDeliver rs_COPY_BUF, []) | it :: tl => (it, tl) end) as [item script'].
  destruct item as [n| |k|].
  - destruct (N.min (N.min n rs_COPY_BUF) (nlen data) =? 0); [exists data; reflexivity|].
    destruct (IH (skipn (N.to_nat (N.min (N.min n rs_COPY_BUF) (nlen data))) data) script') as [rest Hr].
    destruct (delivered fuel _ script') as [ps e]. cbn [fst concat] in *. exists rest.
    rewrite <- app_assoc, <- Hr. symmetry. apply firstn_skipn.
  - apply IH.
  - exists data. reflexivity.
  - exists data. reflexivity.
Qed.

Lemma delivered_pieces : forall fuel data script,
  Forall (fun x => 0 < nlen x <= rs_COPY_BUF) (fst (delivered fuel data script)).
Proof.
  induction fuel as [|fuel IH]; intros data script; [constructor|].
  cbn [delivered].
  destruct (match script with [] => (RDeliver rs_COPY_BUF, []) | it :: tl => (it, tl) end) as [item script'].
  destruct item as [n| |k|]; try (constructor; fail); [|apply IH].
  destruct (N.min (N.min n rs_COPY_BUF) (nlen data) =? 0) eqn:E; [constructor|].
  specialize (IH (skipn (N.to_nat (N.min (N.min n rs_COPY_BUF) (nlen data))) data) script').
  destruct (delivered fuel _ script') as [ps e]. cbn [fst] in *. constructor; [|exact IH].
  unfold nlen in *. rewrite firstn_length. lia.
Qed.

Theorem copy_wide_spec p : forall fuel h data script total h',
  total + nlen data < 2 ^ 64 ->
  updates p h (fst (delivered fuel data script)) = Ok h' ->
  copy_wide fuel p h data script total =
  match snd (delivered fuel data script) with
  | EndEof => Ok (h', CopyOk (total + nlen (concat (fst (delivered fuel data script)))))
  | EndErr k => Ok (h', CopyErr k)
  | EndFuel => OutOfFuel
  end.
Proof.
  induction fuel as [|fuel IH]; intros h data script total h' Htot Hu; [reflexivity|].
  cbn [delivered copy_wide] in *.
  destruct (match script with [] => (RDeliver rs_COPY_BUF, []) | it :: tl => (it, tl) end) as [item script'].
  destruct item as [n| |k|].
  - set (k := N.min (N.min n rs_COPY_BUF) (nlen data)) in *.
    destruct (k =? 0) eqn:E.
    + cbn [fst snd updates concat] in *. inversion Hu; subst. change (nlen []) with 0. rewrite N.add_0_r. reflexivity.
    + destruct (delivered fuel (skipn (N.to_nat k) data) script') as [ps e] eqn:Ed.
      cbn [fst snd updates concat] in *.
      destruct (hasher_update p h (firstn (N.to_nat k) data)) as [h1| |]; cbn [bind] in *; try discriminate.
      rewrite add_small by (unfold k; lia). cbn [bind].
      specialize (IH h1 (skipn (N.to_nat k) data) script' (total + k) h').
      rewrite Ed in IH. cbn [fst snd] in IH. rewrite IH.
      * destruct e; try reflexivity. f_equal. f_equal. f_equal.
        unfold nlen. rewrite app_length, firstn_length. unfold k, nlen in *. lia.
      * unfold nlen in *. rewrite skipn_length. lia.
      * exact Hu.
  - apply IH; assumption.
  - cbn [fst snd updates] in *. inversion Hu; subst. reflexivity.
  - cbn [fst snd updates concat] in *. inversion Hu; subst. change (nlen []) with 0. rewrite N.add_0_r. reflexivity.
Qed.

Lemma delivered_fuel : forall fuel data script,
  (length script + N.to_nat ((nlen data + 65535) / rs_COPY_BUF) + 1 <= fuel)%nat ->
  snd (delivered fuel data script) <> EndFuel.
Proof.
  induction fuel as [|fuel IH]; intros data script Hf; change rs_COPY_BUF with 65536 in Hf; [lia|].
  cbn [delivered]. change rs_COPY_BUF with 65536 in *.
  destruct script as [|it tl].
  - (* script exhausted: deliver min(65536, remaining) each time *)
    set (k := N.min (N.min 65536 65536) (nlen data)).
    destruct (k =? 0) eqn:E; [discriminate|].
    specialize (IH (skipn (N.to_nat k) data) []).
    destruct (delivered fuel (skipn (N.to_nat k) data) []) as [ps e]. cbn [snd] in *.
    apply IH. cbn [length] in *. unfold nlen in *. rewrite skipn_length. unfold k in *. lia.
  - destruct it as [n| |k|]; try discriminate.
    + set (k := N.min (N.min n 65536) (nlen data)).
      destruct (k =? 0) eqn:E; [discriminate|].
      specialize (IH (skipn (N.to_nat k) data) tl).
      destruct (delivered fuel (skipn (N.to_nat k) data) tl) as [ps e]. cbn [snd] in *.
      apply IH. cbn [length] in *. unfold nlen in *. rewrite skipn_length. unfold k in *. lia.
    + apply IH. cbn [length] in *. lia.
Qed.

Lemma hasher_write_consumes_all p h input h' n :
  hasher_write p h input = Ok (h', n) -> n = nlen input /\ hasher_update p h input = Ok h'.
Proof.
  unfold hasher_write. destruct (hasher_update p h input) as [h1| |]; cbn [bind]; intros H; inversion H; auto.
Qed.

(* maybe_mmap_file's decision for a regular file of length n (seek End(-16383) succeeds iff
   n >= 16383 and returns n - 16383; mapping succeeds): map exactly n bytes iff n >= 16 KiB.  The source maps only
   if n - 16383 <= isize::MAX - 16383; any n <= 2^63 - 1 passes that, 2^62 is not the sharp bound. *)
Lemma mmap_decision_regular n : n < 2 ^ 62 ->
  mmap_decision (if rs_seek_offset <=? n then Some (n - rs_seek_offset) else None) true =
  if rs_MIN_MMAP <=? n then Some n else None.
Proof.
  intros Hn. change (2 ^ 62) with 4611686018427387904 in Hn.
  unfold mmap_decision, isize_max. change rs_seek_offset with 16383. change rs_MIN_MMAP with 16384.
  change (2 ^ 63 - 1) with 9223372036854775807.
  destruct (16383 <=? n) eqn:E1.
  - destruct (n - 16383 =? 0) eqn:E2.
    + replace (16384 <=? n) with false by lia. reflexivity.
    + replace (n - 16383 <=? 9223372036854775807 - 16383) with true by lia.
      replace (16384 <=? n) with true by lia. f_equal. lia.
  - replace (16384 <=? n) with false by lia. reflexivity.
Qed.

Lemma copy_fuel_enough data script : snd (delivered (copy_fuel data script) data script) <> EndFuel.
Proof.
  apply delivered_fuel. unfold copy_fuel. change rs_COPY_BUF with 65536. lia.
Qed.
