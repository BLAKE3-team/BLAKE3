(* `OutputReader` of src/lib.rs as TRANSLATED statement by statement (gen/GenXof.v: OutputReader::new, fill_one_block,
   fill, position, set_position, std::io::Read::read, std::io::Seek::seek) equals the hand-written model
   Model/RsXof.v, for all arguments, including the Panic results.

   Representation.  The translated record keeps the platform inside `inner: Output`, the model passes it separately:
   lib_of_rd p r is the translated reader of the model reader r on platform p.  A destination `&mut [u8]` of n bytes is
   the list of its n bytes in the translation (the result contains the buffer after the call) and the number n in the
   model (the result contains the bytes written); the two results are the same list.  `platform.xof_many` stays a call
   in the translation: it is instantiated with m_xof_many, the model's p_xof_many on the number of blocks of the
   destination.  Hypotheses are type invariants of the source only: position_within_block is a u8, a slice length is a
   usize, compress_xof returns [u8; 64] and xof_many fills exactly its destination (xof_shape). *)
From Coq Require Import NArith ZArith List Bool Lia Arith.
From V Require Import Base.Res Base.Word Base.MachInt Base.Arr Base.ArrayVec Base.MutSlice Base.SInt
  gen.GenConsts gen.GenFormulas gen.GenLibSmall gen.GenLibLoops gen.GenXof
  Spec.Tree Model.Portable Model.Platform Model.RsChunk Model.RsHasher Model.RsXof
  Proofs.ListP Proofs.PortableP Proofs.KernelsXofP Proofs.ResP Proofs.GenLibSmallP Proofs.GenLibLoopsP.
Import ListNotations.
Open Scope N_scope.
(* a tactic that diverges when the generated text changes is a failure, not a hang *)
Set Default Timeout 300.

Definition lib_of_rd (p : platform) (r : reader) : lib_OutputReader :=
  lib_OutputReader_mk (lib_of_out p (r_out r)) (r_pwb r).
Definition rd_of_lib (r : lib_OutputReader) : reader :=
  mkReader (out_of_lib (lib_OutputReader_inner r)) (lib_OutputReader_position_within_block r).
Definition lib_of_seek (s : seek_from) : lib_SeekFrom :=
  match s with
  | SeekStart x => lib_SeekFrom_Start x
  | SeekCurrent d => lib_SeekFrom_Current d
  | SeekEnd d => lib_SeekFrom_End d
  end.
(* "InvalidInput" *)
Definition InvalidInput : list N := [73; 110; 118; 97; 108; 105; 100; 73; 110; 112; 117; 116].
Definition io_of_opt (o : option N) : io_result N :=
  match o with Some q => IoOk q | None => IoErr InvalidInput end.
Definition m_xof_many (p : platform) (cv block : list N) (block_len counter flags : N) (out : list N) : res (list N) :=
  p_xof_many p cv block block_len counter flags (nlen out / rs_BLOCK_LEN).

Lemma rd_of_lib_of_rd p r : rd_of_lib (lib_of_rd p r) = r.
Proof. destruct r as [o pwb]. unfold rd_of_lib, lib_of_rd. cbn [lib_OutputReader_inner lib_OutputReader_position_within_block r_out r_pwb].
  rewrite out_of_lib_of_out. reflexivity. Qed.
Lemma lib_of_rd_of_lib r :
  lib_of_rd (lib_Output_platform (lib_OutputReader_inner r)) (rd_of_lib r) = r.
Proof. destruct r as [o pwb]. unfold rd_of_lib, lib_of_rd. cbn [lib_OutputReader_inner lib_OutputReader_position_within_block r_out r_pwb].
  rewrite lib_of_out_of_lib. reflexivity. Qed.

(* stated at the cv, block and block length of one Output (GenCHasherWideP.xof_wf says the same of every 8-word cv and
   64-byte block).  Proved for sim_platform (xof_shape_sim below), for no other platform. *)
Definition xof_shape (p : platform) (o : output) : Prop :=
  (forall ctr fl, length (p_compress_xof p (o_cv o) (o_block o) (o_blen o) ctr fl) = 64%nat) /\
  (forall ctr fl n bs, p_xof_many p (o_cv o) (o_block o) (o_blen o) ctr fl n = Ok bs -> length bs = (64 * N.to_nat n)%nat).

Lemma xof_shape_with_counter p o c : xof_shape p o -> xof_shape p (with_counter o c).
Proof. intros H. exact H. Qed.

Lemma ms_write_len (s : mslice) (t : list N) : (length t <= length (snd s))%nat ->
  ms_len (ms_write s 0 t) = ms_len s.
Proof.
  intros H. unfold ms_len, ms_write. cbn [snd]. rewrite arr_store_0, app_length, skipn_length. f_equal. lia.
Qed.

Lemma ms_write_advance (s : mslice) (t : list N) :
  ms_advance (ms_write s 0 t) (length t) = (fst s ++ t, skipn (length t) (snd s)).
Proof.
  unfold ms_advance, ms_write. cbn [fst snd]. rewrite arr_store_0, firstn_app_exact, skipn_app_exact by reflexivity. reflexivity.
Qed.

(* the model returns the bytes written; the translation the slice after the call: what it has left behind grows by
   those bytes, what it covers shrinks by as many *)
Definition fob_map (p : platform) (s : mslice) (x : reader * list N) : lib_OutputReader * mslice :=
  (lib_of_rd p (fst x), (fst s ++ snd x, skipn (length (snd x)) (snd s))).

Lemma root_block_eq p r :
  lib_Output_root_output_block (lib_OutputReader_inner (lib_of_rd p r)) = out_root_output_block p (r_out r).
Proof. unfold lib_of_rd. cbn [lib_OutputReader_inner]. rewrite lib_Output_root_output_block_eq, out_of_lib_of_out. reflexivity. Qed.

Lemma fill_one_block_eq p r s :
  r_pwb r < 2 ^ 8 -> length (out_root_output_block p (r_out r)) = 64%nat ->
  lib_OutputReader_fill_one_block (lib_of_rd p r) s = res_map (fob_map p s) (fill_one_block p r (ms_len s)).
Proof.
  intros Hpwb Hblk. unfold lib_OutputReader_fill_one_block, fill_one_block. rewrite root_block_eq.
  set (block := out_root_output_block p (r_out r)) in *.
  change (lib_OutputReader_position_within_block (lib_of_rd p r)) with (r_pwb r). mstep.
  rewrite (cast_small 64 (r_pwb r)) by word_lia.
  cbn [bind]. fold (nlen block). apply check_same. intros _.
  set (ob := skipn (N.to_nat (r_pwb r)) block).
  assert (Hob : length ob = (64 - N.to_nat (r_pwb r))%nat) by (unfold ob; rewrite skipn_length, Hblk; reflexivity).
  unfold mi_min. cbn [bind]. fold (nlen ob). set (take := N.min (ms_len s) (nlen ob)).
  assert (Ht1 : take <= ms_len s) by apply N.le_min_l. assert (Ht2 : take <= nlen ob) by apply N.le_min_r. clearbody take.
  set (t2 := firstn (N.to_nat take) ob).
  assert (Ht2len : length t2 = N.to_nat take) by (unfold t2, nlen in *; rewrite firstn_length; lia).
  rewrite (proj2 (N.leb_le _ _) Ht1), (proj2 (N.leb_le _ _) Ht2), (proj2 (N.eqb_eq (N.of_nat (length t2)) take)) by lia.
  cbn [check bind]. change (N.to_nat 0) with 0%nat.
  rewrite (cast_small 8 take) by (unfold nlen in Ht2; word_lia). cbn [bind].
  apply bind_same. intros pwb' _. unfold mi_cast. cbn [bind]. change (N.land rs_BLOCK_LEN (N.ones 8)) with rs_BLOCK_LEN.
  rewrite (ms_write_len s t2), (proj2 (N.leb_le _ _) Ht1), <- Ht2len, ms_write_advance by (unfold ms_len in Ht1; lia).
  cbn [lib_OutputReader_set_position_within_block lib_OutputReader_set_inner lib_Output_set_counter lib_of_rd lib_of_out
       lib_OutputReader_position_within_block lib_OutputReader_inner lib_Output_input_chaining_value lib_Output_block
       lib_Output_block_len lib_Output_counter lib_Output_flags lib_Output_platform].
  destruct (pwb' =? rs_BLOCK_LEN); [mstep; rewrite bind_assoc; apply bind_same; intros c _|]; reflexivity.
Qed.

Lemma fill_one_block_post p r n r' bs : fill_one_block p r n = Ok (r', bs) ->
  nlen bs <= n /\ r_pwb r' < 2 ^ 8 /\ o_cv (r_out r') = o_cv (r_out r) /\ o_block (r_out r') = o_block (r_out r) /\
  o_blen (r_out r') = o_blen (r_out r).
Proof.
  unfold fill_one_block. intros H. apply bind_Ok in H. destruct H as ([] & _ & H).
  set (ob := skipn (N.to_nat (r_pwb r)) (out_root_output_block p (r_out r))) in *.
  assert (Hlen : nlen (firstn (N.to_nat (N.min n (nlen ob))) ob) <= n).
  { unfold nlen. rewrite firstn_length. pose proof (N.le_min_l n (N.of_nat (length ob))). lia. }
  apply bind_Ok in H. destruct H as (pwb' & Ea & H). apply mi_add_Ok in Ea. destruct Ea as [_ Hp].
  destruct (pwb' =? rs_BLOCK_LEN).
  - apply bind_Ok in H. destruct H as (c & _ & H). inversion H; subst. repeat split; try reflexivity; exact Hlen.
  - inversion H; subst. repeat split; try reflexivity; assumption.
Qed.

Lemma xof_shape_same p o o' : o_cv o' = o_cv o -> o_block o' = o_block o -> o_blen o' = o_blen o ->
  xof_shape p o -> xof_shape p o'.
Proof. intros H1 H2 H3 [Ha Hb]. unfold xof_shape. rewrite H1, H2, H3. split; assumption. Qed.

Lemma xof_shape_block p o : xof_shape p o -> length (out_root_output_block p o) = 64%nat.
Proof. intros [H _]. apply H. Qed.

Definition fill_map (p : platform) (x : reader * list N) : lib_OutputReader * list N := (lib_of_rd p (fst x), snd x).

Lemma div64_mul_le n : n / 64 * 64 <= n.
Proof. pose proof (N.mul_div_le n 64 ltac:(lia)). lia. Qed.

(* The three phases of fill run in lockstep.  After each, the translation's slice has left behind what the model has
   produced so far and covers as many bytes as the model has left to produce. *)
Theorem lib_OutputReader_fill_eq p r buf : r_pwb r < 2 ^ 8 -> nlen buf < 2 ^ 64 -> xof_shape p (r_out r) ->
  lib_OutputReader_fill m_xof_many (lib_of_rd p r) buf = res_map (fill_map p) (reader_fill p r (nlen buf)).
Proof.
  intros Hpwb Hn Hsh. unfold lib_OutputReader_fill, reader_fill. cbv zeta. mstep. change (ms_len (ms_of buf)) with (nlen buf).
  destruct (nlen buf =? 0) eqn:E0.
  { apply N.eqb_eq in E0. destruct buf; [reflexivity|discriminate]. }
  change (lib_OutputReader_position_within_block (lib_of_rd p r)) with (r_pwb r). unfold nneb.
  (* phase 1: up to the end of the current block *)
  apply (bind_sim (fun x : reader * list N * N => (lib_of_rd p (fst (fst x)), (snd (fst x), skipn (length (snd (fst x))) buf)))).
  { apply if_same; intros _; [|reflexivity].
    apply (bind_sim (fob_map p (ms_of buf))); [exact (fill_one_block_eq p r (ms_of buf) Hpwb (xof_shape_block p _ Hsh))|].
    intros [r' bs] _. reflexivity. }
  intros [[r1 head] n1] E1. cbn [fst snd].
  assert (H1 : r_pwb r1 < 2 ^ 8 /\ xof_shape p (r_out r1) /\ n1 = nlen (skipn (length head) buf)).
  { destruct (negb (r_pwb r =? 0)); [|inversion E1; subst; auto].
    apply bind_Ok in E1. destruct E1 as ([r' bs] & Ef & E1). inversion E1; subst.
    destruct (fill_one_block_post p r _ _ _ Ef) as (Hlen & Hp1 & Ha & Hb & Hc).
    split; [exact Hp1|]. split; [exact (xof_shape_same p _ _ Ha Hb Hc Hsh)|]. clear -Hlen. unfold nlen in *. rewrite skipn_length. lia. }
  destruct H1 as (Hpwb1 & Hsh1 & ->). clear E1. set (win1 := skipn (length head) buf).
  assert (Hn1 : nlen win1 < 2 ^ 64) by (unfold win1; clear -Hn; unfold nlen in *; rewrite skipn_length; lia).
  change (ms_len (head, win1)) with (nlen win1).
  (* phase 2: the whole blocks, by xof_many *)
  unfold mi_div. change (rs_BLOCK_LEN =? 0) with false. cbn [bind]. change rs_BLOCK_LEN with 64. set (fb := nlen win1 / 64).
  assert (Hfb : fb * 64 <= nlen win1) by apply div64_mul_le.
  assert (Hfb64 : fb * 64 < 2 ^ 64 /\ fb < 2 ^ 64) by (clear -Hfb Hn1; word_lia).
  rewrite (mul_small 64 fb 64 (proj1 Hfb64)). cbn [bind].
  apply (bind_sim (fun x : reader * list N * N => (lib_of_rd p (fst (fst x)), (head ++ snd (fst x), skipn (length (snd (fst x))) win1)))).
  { apply if_same; intros _; [|cbn [ResP.res_map fst snd length skipn]; rewrite app_nil_r; reflexivity].
    change (lib_OutputReader_position_within_block (lib_of_rd p r1)) with (r_pwb r1). rewrite (N.eqb_sym 0).
    apply check_same. intros _. unfold mi_or. cbn [bind]. rewrite (check_leb (fb * 64)) by exact Hfb.
    unfold m_xof_many, ms_win.
    cbn [lib_of_rd lib_of_out lib_OutputReader_inner lib_OutputReader_position_within_block snd
         lib_Output_input_chaining_value lib_Output_block lib_Output_block_len lib_Output_counter lib_Output_flags lib_Output_platform].
    replace (nlen (firstn (N.to_nat (fb * 64)) win1)) with (fb * 64) by (clear -Hfb; unfold nlen in *; rewrite firstn_length; lia).
    change rs_BLOCK_LEN with 64. rewrite (N.div_mul fb 64) by discriminate. apply bind_same. intros bs Ex.
    assert (Hbs : length bs = N.to_nat (fb * 64)) by (rewrite (proj2 Hsh1 _ _ _ _ Ex); clear; lia).
    rewrite (cast_small 64 fb (proj2 Hfb64)). cbn [bind]. apply bind_same. intros c _.
    rewrite (ms_write_len (head, win1) bs) by (cbn [snd]; clear -Hfb Hbs; unfold nlen in Hfb; lia). change (ms_len (head, win1)) with (nlen win1).
    rewrite (check_leb (fb * 64)) by exact Hfb. rewrite <- Hbs, ms_write_advance. reflexivity. }
  intros [[r2 mid] n2] E2. cbn [fst snd].
  assert (H2 : r_pwb r2 < 2 ^ 8 /\ xof_shape p (r_out r2) /\ n2 = nlen (skipn (length mid) win1)).
  { fold fb in E2. destruct (0 <? fb); [|inversion E2; subst; auto].
    apply bind_Ok in E2. destruct E2 as ([] & _ & E2). apply bind_Ok in E2. destruct E2 as (bs & Ex & E2).
    apply bind_Ok in E2. destruct E2 as (c & _ & E2). inversion E2; subst. cbn [r_pwb r_out].
    split; [exact Hpwb1|]. split; [exact Hsh1|]. pose proof (proj2 Hsh1 _ _ _ _ Ex) as Hbs. clear -Hbs Hfb. unfold nlen in *. rewrite skipn_length. lia. }
  destruct H2 as (Hpwb2 & Hsh2 & ->). clear E2. set (win2 := skipn (length mid) win1). change (ms_len (head ++ mid, win2)) with (nlen win2).
  (* phase 3: the trailing partial block *)
  destruct (nlen win2 =? 0) eqn:E3; cbn [negb bind ResP.res_map].
  { apply N.eqb_eq in E3. destruct win2; [|discriminate]. unfold ms_buffer, fill_map. cbn [fst snd]. rewrite app_nil_r. reflexivity. }
  rewrite bind_assoc. apply check_same. intros _.
  rewrite (fill_one_block_eq p r2 (head ++ mid, win2) Hpwb2 (xof_shape_block p _ Hsh2)), bind_res_map, bind_assoc.
  change (ms_len (head ++ mid, win2)) with (nlen win2). apply bind_same. intros [r3 tail] Ef.
  destruct (fill_one_block_post p r2 _ _ _ Ef) as (Hlen & _). unfold fob_map, ms_len. cbn [fst snd]. rewrite skipn_length.
  replace (N.of_nat (length win2 - length tail) =? 0) with (nlen tail =? nlen win2)
    by (clear -Hlen; unfold nlen in *; destruct (N.eqb_spec (N.of_nat (length tail)) (N.of_nat (length win2))); symmetry; [apply N.eqb_eq|apply N.eqb_neq]; lia).
  rewrite bind_assoc. apply check_same. intros E. apply N.eqb_eq in E. cbn [bind ResP.res_map]. unfold ms_buffer, fill_map. cbn [fst snd].
  rewrite skipn_all2, app_nil_r, app_assoc by (clear -E; unfold nlen in E; lia). reflexivity.
Qed.

Lemma reader_fill_len p r n r' bs : xof_shape p (r_out r) -> reader_fill p r n = Ok (r', bs) -> nlen bs = n.
Proof.
  unfold reader_fill. intros Hsh H. destruct (n =? 0) eqn:E0; [apply N.eqb_eq in E0; inversion H; subst; reflexivity|].
  apply bind_Ok in H. destruct H as ([[r1 head] n1] & E1 & H).
  assert (H1 : xof_shape p (r_out r1) /\ nlen head + n1 = n).
  { destruct (negb (r_pwb r =? 0)); [|inversion E1; subst; split; [exact Hsh|reflexivity]].
    apply bind_Ok in E1. destruct E1 as ([r0 bs0] & Ef & E1). inversion E1; subst.
    destruct (fill_one_block_post p r _ _ _ Ef) as (Hlen & _ & Ha & Hb & Hc). split; [exact (xof_shape_same p _ _ Ha Hb Hc Hsh)|clear -Hlen; lia]. }
  destruct H1 as [Hsh1 <-]. clear E1. cbv zeta in H. apply bind_Ok in H. destruct H as ([[r2 mid] n2] & E2 & H).
  assert (H2 : nlen mid + n2 = n1).
  { pose proof (div64_mul_le n1). change rs_BLOCK_LEN with 64 in E2. destruct (0 <? n1 / 64); [|inversion E2; subst; reflexivity].
    apply bind_Ok in E2. destruct E2 as ([] & _ & E2). apply bind_Ok in E2. destruct E2 as (bs0 & Ex & E2).
    apply bind_Ok in E2. destruct E2 as (c & _ & E2). inversion E2; subst.
    pose proof (proj2 Hsh1 _ _ _ _ Ex) as Hbs. clear -Hbs H0. unfold nlen. lia. }
  destruct H2. clear E2. unfold nlen in *. destruct (n2 =? 0) eqn:E3; cbn [negb] in H.
  - apply N.eqb_eq in E3. inversion H; subst. rewrite app_length. clear. lia.
  - apply bind_Ok in H. destruct H as ([] & _ & H). apply bind_Ok in H. destruct H as ([r3 tail] & _ & H).
    apply bind_Ok in H. destruct H as ([] & E & H). apply check_Ok, N.eqb_eq in E. inversion H; subst. rewrite !app_length. clear. lia.
Qed.

Lemma lib_OutputReader_position_eq p r : lib_OutputReader_position (lib_of_rd p r) = reader_position r.
Proof. unfold lib_OutputReader_position, reader_position, rs_position. apply bind_ret. Qed.

Lemma lib_OutputReader_set_position_eq p r q :
  lib_OutputReader_set_position (lib_of_rd p r) q = res_map (lib_of_rd p) (reader_set_position r q).
Proof.
  unfold lib_OutputReader_set_position, reader_set_position, rs_set_position_pwb, rs_set_position_ctr.
  destruct (mu (mi_cast 8) (mb (mi_rem 64) (Ok q) (mu (mi_cast 64) (Ok rs_BLOCK_LEN)))) as [pwb| |]; cbn [bind res_map]; try reflexivity.
Qed.

Theorem lib_OutputReader_read_eq p r buf : r_pwb r < 2 ^ 8 -> nlen buf < 2 ^ 64 -> xof_shape p (r_out r) ->
  lib_OutputReader_Read_read m_xof_many (lib_of_rd p r) buf
  = res_map (fun x => (lib_of_rd p (fst x), snd x, IoOk (nlen buf))) (reader_fill p r (nlen buf)).
Proof.
  intros Hpwb Hn Hsh. unfold lib_OutputReader_Read_read. cbv zeta. change (ms_win (ms_of buf)) with buf.
  rewrite (lib_OutputReader_fill_eq p r buf Hpwb Hn Hsh).
  destruct (reader_fill p r (nlen buf)) as [[r' bs]| |] eqn:Ef; cbn [bind res_map]; try reflexivity.
  unfold fill_map. cbn [fst snd]. rewrite <- (reader_fill_len p r _ r' bs Hsh Ef). reflexivity.
Qed.

Lemma rs_position_lt c pwb q : rs_position c pwb = Ok q -> q < 2 ^ 64.
Proof.
  unfold rs_position, mb. intros H.
  destruct (a <- Ok c;; b <- mu (mi_cast 64) (Ok rs_BLOCK_LEN);; mi_mul 64 a b) as [x| |]; cbn [bind] in H; try discriminate.
  unfold mu, mi_cast in H. cbn [bind] in H. unfold mi_add, fits in H.
  destruct (x + N.land pwb (N.ones 64) <? 2 ^ 64) eqn:E; [|discriminate]. inversion H; subst. apply N.ltb_lt in E. exact E.
Qed.

Lemma zi_as_u_small z : (0 <= z < 2 ^ 64)%Z -> zi_as_u 64 z = Z.to_N z.
Proof. intros H. unfold zi_as_u. change (2 ^ Z.of_N 64)%Z with (2 ^ 64)%Z. rewrite Z.mod_small by exact H. reflexivity. Qed.

Definition seek_arg_ok (s : seek_from) : Prop :=
  match s with
  | SeekStart x => x < 2 ^ 64                                   (* u64 *)
  | SeekCurrent d | SeekEnd d => (- 2 ^ 63 <= d < 2 ^ 63)%Z      (* i64 *)
  end.

Definition seek_map (p : platform) (x : reader * option N) : lib_OutputReader * io_result N :=
  (lib_of_rd p (fst x), io_of_opt (snd x)).

Lemma seek_tail_eq p r target : (0 <= target)%Z ->
  (self <- lib_OutputReader_set_position (lib_of_rd p r) (zi_as_u 64 (Z.min target (Z.of_N 18446744073709551615))) ;;
   t5 <- (lib_OutputReader_position self) ;;
   Ok (self, (IoOk t5)))
  = res_map (seek_map p)
      (r' <- reader_set_position r (Z.to_N (Z.min target (Z.of_N (2 ^ 64 - 1)))) ;;
       q <- reader_position r' ;; Ok (r', Some q)).
Proof.
  intros Ht. change (Z.of_N (2 ^ 64 - 1)) with 18446744073709551615%Z. change (Z.of_N 18446744073709551615) with 18446744073709551615%Z.
  rewrite zi_as_u_small by (change (2 ^ 64)%Z with 18446744073709551616%Z; lia).
  rewrite lib_OutputReader_set_position_eq.
  destruct (reader_set_position r (Z.to_N (Z.min target 18446744073709551615))) as [r'| |]; cbn [bind res_map]; try reflexivity.
  rewrite lib_OutputReader_position_eq.
  destruct (reader_position r') as [q| |]; cbn [bind res_map]; reflexivity.
Qed.

Theorem lib_OutputReader_seek_eq p r s : seek_arg_ok s ->
  lib_OutputReader_Seek_seek (lib_of_rd p r) (lib_of_seek s) = res_map (seek_map p) (reader_seek r s).
Proof.
  intros Hs. unfold lib_OutputReader_Seek_seek, reader_seek. cbv zeta. destruct s as [x|d|d]; cbn [lib_of_seek bind].
  - cbn [seek_arg_ok] in Hs.
    replace (Z.of_N x <? 0)%Z with false by (symmetry; apply Z.ltb_ge; lia). cbn [bind].
    apply seek_tail_eq. lia.
  - cbn [seek_arg_ok] in Hs. rewrite lib_OutputReader_position_eq.
    destruct (reader_position r) as [cur| |] eqn:Ep; cbn [bind res_map]; try reflexivity.
    pose proof (rs_position_lt _ _ _ Ep) as Hcur.
    unfold zi_add, zfits. change (Z.of_N 128 - 1)%Z with 127%Z.
    replace ((- 2 ^ 127 <=? Z.of_N cur + d)%Z && (Z.of_N cur + d <? 2 ^ 127)%Z) with true.
    2:{ symmetry. apply andb_true_iff. split; [apply Z.leb_le|apply Z.ltb_lt];
        change (2 ^ 64) with 18446744073709551616 in Hcur; change (2 ^ 63)%Z with 9223372036854775808%Z in Hs;
        change (2 ^ 127)%Z with 170141183460469231731687303715884105728%Z; lia. }
    cbn [bind].
    destruct (Z.of_N cur + d <? 0)%Z eqn:Eneg; cbn [bind].
    + reflexivity.
    + apply seek_tail_eq. apply Z.ltb_ge in Eneg. exact Eneg.
  - reflexivity.
Qed.

Lemma xof_shape_sim d m o : length (o_cv o) = 8%nat -> length (o_block o) = 64%nat -> xof_shape (sim_platform d m) o.
Proof.
  intros Hcv Hb. split; cbn [sim_platform p_compress_xof p_xof_many].
  - intros ctr fl. rewrite Proofs.PortableP.compress_xof_is_spec by assumption.
    rewrite bytes_of_words_length, Proofs.PortableP.compress_length by assumption. reflexivity.
  - intros ctr fl n bs H. unfold portable_xof_many in H. exact (xof_many_footprint _ _ _ _ Hcv Hb _ _ _ H).
Qed.
