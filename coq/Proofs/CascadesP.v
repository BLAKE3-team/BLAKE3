(* hash1 / hash_many of src/portable.rs and the Rust intrinsics files, hash_one_* / blake3_hash_many_* of the C files,
   as TRANSLATED statement by statement (gen/GenCascades.v), against the hand-written models:
   Portable.hash1 / hash_many (Model/Portable.v), hash1_rs / hash_one_c and the loops batch_while / single_loop of the
   cascades (Model/Kernels.v).  This file has the loops one by one; Proofs/CascadesP2.v has the whole functions.
   The `while` loops are fuel recursions; every theorem holds for EVERY fuel above the number of iterations the loop
   can make (the translated function and the model agree, and the result is not OutOfFuel).
   Each kind of loop is treated once, in a section whose hypothesis `loop_eq` spells the text of the generated loop;
   an instance discharges it by `destruct fuel; reflexivity`, which fails on any change of a translated statement. *)
From Coq Require Import NArith List Bool Lia Arith.
From V Require Import Base.Res Base.Word Base.MachInt Base.Arr gen.GenConsts gen.GenFormulas gen.GenPortable
  gen.GenLibSmall gen.GenCHasherSmall gen.GenCascades Model.Portable Model.Kernels
  Proofs.ListP Proofs.ResP Proofs.PortableP Proofs.KernelsP Proofs.GenPortableP Proofs.GenLibSmallP Proofs.GenCHasherSmallP.
Import ListNotations.
Open Scope N_scope.

Lemma div64_skip (l : list N) : (64 <= length l)%nat -> (length l / 64 = S (length (skipn 64 l) / 64))%nat.
Proof.
  intros H. rewrite skipn_length.
  replace (length l) with ((length l - 64) + 1 * 64)%nat at 1 by lia.
  rewrite Nat.div_add by discriminate. lia.
Qed.

Lemma c_wsub_small W a k : k <= a -> a < 2 ^ W -> c_wsub W a k = a - k.
Proof.
  intros H1 H2. unfold c_wsub. replace (a + 2 ^ W - k) with ((a - k) + 1 * 2 ^ W) by lia.
  rewrite N.mod_add by (apply N.pow_nonzero; discriminate). apply N.mod_small. lia.
Qed.

Lemma hash1_rs_go_fuel cip : forall f1 f2 cv input ctr fl bf fe,
  (length input / 64 < f1)%nat -> (length input / 64 < f2)%nat ->
  hash1_rs_go cip f1 cv input ctr fl bf fe = hash1_rs_go cip f2 cv input ctr fl bf fe.
Proof.
  induction f1 as [|f1 IH]; intros f2 cv input ctr fl bf fe H1 H2; [lia|].
  destruct f2 as [|f2]; [lia|]. cbn [hash1_rs_go]. change rs_BLOCK_LEN with 64.
  destruct (N.ltb_spec (N.of_nat (length input)) 64) as [Hl|Hl]; [reflexivity|].
  assert (L : (64 <= length input)%nat) by lia. pose proof (div64_skip input L) as D.
  change (N.to_nat 64) with 64%nat. apply IH; lia.
Qed.

Lemma hash_one_go_portable : forall blocks cv input ctr fl bf fe fuel,
  length input = (blocks * 64)%nat -> (blocks < fuel)%nat ->
  hash_one_go Portable.compress_in_place blocks cv input ctr fl bf fe = hash1_go fuel cv input ctr fl bf fe.
Proof.
  intros. rewrite (hash_one_go_rs _ blocks cv input ctr fl bf fe fuel) by assumption.
  apply (hash1_rs_go_inv (fun _ => True)); auto.
Qed.

(* the translated Rust functions call their compress_in_place as a function into `res`: a model cip as such a callee *)
Definition okc (cip : cip_fn) : list N -> list N -> N -> N -> N -> res (list N) := fun a b c d e => Ok (cip a b c d e).

Section RsHash1.
  Variable cip : cip_fn.
  Variable loop : nat -> N -> list N -> list N -> N -> N -> N -> N -> list N -> N -> list N -> res (list N * N * list N).
  Hypothesis loop_eq : forall fuel gN input key counter flags flags_start flags_end cv block_flags slice,
    loop fuel gN input key counter flags flags_start flags_end cv block_flags slice =
    if (rs_BLOCK_LEN <=? (N.of_nat (length slice))) then
      match fuel with
      | O => OutOfFuel
      | S fuel =>
        block_flags <- (if ((N.of_nat (length slice)) =? rs_BLOCK_LEN) then
          let block_flags := (N.lor block_flags flags_end) in
          Ok block_flags
        else Ok block_flags) ;;
        assert! (rs_BLOCK_LEN <=? N.of_nat (length slice)) code 54 ;;
        cv <- okc cip cv (firstn (N.to_nat rs_BLOCK_LEN) slice) rs_BLOCK_LEN counter block_flags ;;
        let block_flags := flags in
        assert! (rs_BLOCK_LEN <=? N.of_nat (length slice)) code 40 ;;
        let slice := skipn (N.to_nat rs_BLOCK_LEN) slice in
        loop fuel gN input key counter flags flags_start flags_end cv block_flags slice
      end
    else Ok (cv, block_flags, slice).

  Lemma rs_hash1_loop_ok : forall fuel gN input key ctr flags fs fe cv bf slice, (length slice / 64 < fuel)%nat ->
    exists bf' slice', loop fuel gN input key ctr flags fs fe cv bf slice
      = Ok (hash1_rs_go cip fuel cv slice ctr flags bf fe, bf', slice').
  Proof.
    induction fuel as [|fuel IH]; intros gN input key ctr flags fs fe cv bf slice Hf; [lia|].
    rewrite loop_eq. cbn [hash1_rs_go]. rewrite N.ltb_antisym. change rs_BLOCK_LEN with 64.
    destruct (N.leb_spec 64 (N.of_nat (length slice))) as [Hl|Hl]; cbn [negb]; [|exists bf, slice; reflexivity].
    pose proof (div64_skip slice ltac:(lia)) as D. change (N.to_nat 64) with 64%nat.
    destruct (N.of_nat (length slice) =? 64); cbv zeta; cbn [bind check okc]; apply IH; lia.
  Qed.

  (* the whole hash1, whatever it makes of the final chaining value *)
  Lemma rs_hash1_ok (post : list N -> list N) fuel input key ctr flags fs fe : (length input / 64 < fuel)%nat ->
    (t_a <- mi_rem 64 (N.of_nat (length input)) rs_BLOCK_LEN ;;
     assert! (t_a =? 0) code 1100 ;;
     '(cv, _, _) <- loop fuel (N.of_nat (length input)) input key ctr flags fs fe key (N.lor flags fs) input ;;
     Ok (post cv))
    = (assert! (N.of_nat (length input) mod rs_BLOCK_LEN =? 0) code 1100 ;;
       Ok (post (hash1_rs_go cip (S (length input / 64)) key input ctr flags (N.lor flags fs) fe))).
  Proof.
    intros Hf. unfold mi_rem. change (rs_BLOCK_LEN =? 0) with false. cbn [bind].
    destruct (_ =? 0); cbn [check bind]; [|reflexivity].
    destruct (rs_hash1_loop_ok fuel (N.of_nat (length input)) input key ctr flags fs fe key (N.lor flags fs) input Hf)
      as (bf' & sl' & ->).
    cbn [bind]. rewrite (hash1_rs_go_fuel cip fuel (S (length input / 64))) by lia. reflexivity.
  Qed.
End RsHash1.

(* src/portable.rs hash1::<N> (N = input.len()) *)
Theorem src_rs_portable_hash1_ok fuel input key ctr flags fs fe :
  length key = 8%nat -> (length input / 64 < fuel)%nat ->
  src_rs_portable_hash1 fuel (N.of_nat (length input)) input key ctr flags fs fe = Portable.hash1 input key ctr flags fs fe.
Proof.
  intros Lk Hf. unfold src_rs_portable_hash1, Portable.hash1.
  rewrite (rs_hash1_ok rs_compress_in_place src_rs_portable_hash1_loop1) by (try exact Hf; intros f; destruct f; reflexivity).
  rewrite (hash1_rs_go_ok64 _ rs_compress_in_place_eq) by exact Lk.
  rewrite lib_le_bytes_from_words_32_eq by (apply hash1_go_length, Lk). reflexivity.
Qed.

(* src/rust_sse2.rs / src/rust_sse41.rs hash1, over any compress_in_place *)
Theorem src_rs_sse2_hash1_ok cip fuel input blocks key ctr flags fs fe : (length input / 64 < fuel)%nat ->
  src_rs_sse2_hash1 (okc cip) fuel (N.of_nat (length input)) input key ctr flags fs fe = hash1_rs cip input blocks key ctr flags fs fe.
Proof. apply (rs_hash1_ok cip (src_rs_sse2_hash1_loop1 (okc cip))). intros f; destruct f; reflexivity. Qed.

Theorem src_rs_sse41_hash1_ok cip fuel input blocks key ctr flags fs fe : (length input / 64 < fuel)%nat ->
  src_rs_sse41_hash1 (okc cip) fuel (N.of_nat (length input)) input key ctr flags fs fe = hash1_rs cip input blocks key ctr flags fs fe.
Proof. apply (rs_hash1_ok cip (src_rs_sse41_hash1_loop1 (okc cip))). intros f; destruct f; reflexivity. Qed.

Section CHashOne.
  Variable cip : cip_fn.
  Variable loop : nat -> list N -> N -> list N -> N -> N -> N -> N -> list N -> list N -> N -> res (list N * N * list N * N).
  Hypothesis loop_eq : forall fuel input blocks key counter flags flags_start flags_end out cv block_flags,
    loop fuel input blocks key counter flags flags_start flags_end out cv block_flags =
    if (0 <? blocks) then
      match fuel with
      | O => OutOfFuel
      | S fuel =>
        block_flags <- (if (blocks =? 1) then
          let block_flags := (N.lor block_flags flags_end) in
          Ok block_flags
        else Ok block_flags) ;;
        let cv := cip cv (firstn 64 input) c_BLOCK_LEN counter block_flags in
        let input := skipn (N.to_nat c_BLOCK_LEN) input in
        let blocks := c_wsub 64 blocks 1 in
        let block_flags := flags in
        loop fuel input blocks key counter flags flags_start flags_end out cv block_flags
      end
    else Ok (input, blocks, cv, block_flags).

  Lemma c_hash_one_loop_ok : forall blocks fuel input key ctr flags fs fe out cv bf,
    (blocks < fuel)%nat -> N.of_nat blocks < 2 ^ 64 ->
    exists input' blocks' bf', loop fuel input (N.of_nat blocks) key ctr flags fs fe out cv bf
      = Ok (input', blocks', hash_one_go cip blocks cv input ctr flags bf fe, bf').
  Proof.
    induction blocks as [|blocks IH]; intros fuel input key ctr flags fs fe out cv bf Hf Hb; rewrite loop_eq.
    - exists input, (N.of_nat 0), bf. reflexivity.
    - destruct fuel as [|fuel]; [lia|].
      replace (0 <? N.of_nat (S blocks)) with true by (symmetry; apply N.ltb_lt; lia).
      cbn [hash_one_go]. rewrite (N_eqb_of_nat (S blocks) 1 : (N.of_nat (S blocks) =? 1) = _).
      rewrite c_wsub_small by lia. replace (N.of_nat (S blocks) - 1) with (N.of_nat blocks) by lia.
      destruct (S blocks =? 1)%nat; cbv zeta; cbn [bind]; apply IH; lia.
  Qed.

  (* the whole hash_one, whatever it makes of the final chaining value (key is `const uint32_t key[8]`) *)
  Lemma c_hash_one_ok (post : list N -> list N) fuel input blocks key ctr flags fs fe out :
    length key = 8%nat -> (blocks < fuel)%nat -> N.of_nat blocks < 2 ^ 64 ->
    (let cv := firstn 8 key in
     let block_flags := N.lor flags fs in
     '(_, _, cv, _) <- loop fuel input (N.of_nat blocks) key ctr flags fs fe out cv block_flags ;;
     Ok (post cv))
    = Ok (post (hash_one_go cip blocks key input ctr flags (N.lor flags fs) fe)).
  Proof.
    intros Lk Hf Hb. cbv zeta. rewrite <- Lk, firstn_all.
    destruct (c_hash_one_loop_ok blocks fuel input key ctr flags fs fe out key (N.lor flags fs) Hf Hb) as (i' & b' & bf' & ->).
    reflexivity.
  Qed.

  (* hash_one_sse2 / _sse41 / _avx512: the final memcpy copies the 8 words of cv *)
  Lemma c_hash_one_simd_ok fuel input blocks key ctr flags fs fe out :
    length key = 8%nat -> (blocks < fuel)%nat -> N.of_nat blocks < 2 ^ 64 ->
    length (hash_one_go cip blocks key input ctr flags (N.lor flags fs) fe) = 8%nat ->
    (let cv := firstn 8 key in
     let block_flags := N.lor flags fs in
     '(_, _, cv, _) <- loop fuel input (N.of_nat blocks) key ctr flags fs fe out cv block_flags ;;
     Ok (bytes_of_words (firstn 8 cv)))
    = hash_one_c cip input blocks key ctr flags fs fe.
  Proof.
    intros Lk Hf Hb L8. rewrite (c_hash_one_ok (fun cv => bytes_of_words (firstn 8 cv))) by assumption.
    rewrite <- L8 at 1. rewrite firstn_all. reflexivity.
  Qed.
End CHashOne.

(* c/blake3_portable.c hash_one_portable; `out`: the 32 bytes the caller passes; all of them are overwritten *)
Theorem src_c_portable_hash_one_portable_ok fuel input blocks key ctr flags fs fe out :
  length key = 8%nat -> length out = 32%nat -> length input = (blocks * 64)%nat -> (blocks < fuel)%nat -> N.of_nat blocks < 2 ^ 64 ->
  src_c_portable_hash_one_portable fuel input (N.of_nat blocks) key ctr flags fs fe out = Portable.hash1 input key ctr flags fs fe.
Proof.
  intros Lk Lo Li Hf Hb. unfold src_c_portable_hash_one_portable, Portable.hash1.
  rewrite (c_hash_one_ok c_blake3_compress_in_place_portable src_c_portable_hash_one_portable_loop1)
    by (try assumption; intros f; destruct f; reflexivity).
  rewrite (hash_one_go_rs _ blocks key input ctr flags _ fe (S (length input / 64)) Li)
    by (rewrite Li, Nat.div_mul by discriminate; lia).
  rewrite (hash1_rs_go_ok64 _ c_compress_in_place_eq) by exact Lk.
  rewrite src_store_cv_words_eq by (try exact Lo; apply hash1_go_length, Lk).
  rewrite bind_check_true by (change rs_BLOCK_LEN with 64; apply N.eqb_eq; rewrite Li, Nat2N.inj_mul; apply N.mod_mul; discriminate).
  reflexivity.
Qed.

(* hash_one_sse2 / hash_one_sse41 / hash_one_avx512 `H`, over any compress_in_place that keeps cv at 8 words *)
Definition c_hash_one_spec (cip : cip_fn) (H : nat -> list N -> N -> list N -> N -> N -> N -> N -> list N -> res (list N)) : Prop :=
  forall fuel input blocks key ctr flags fs fe out,
  length key = 8%nat -> (blocks < fuel)%nat -> N.of_nat blocks < 2 ^ 64 ->
  length (hash_one_go cip blocks key input ctr flags (N.lor flags fs) fe) = 8%nat ->
  H fuel input (N.of_nat blocks) key ctr flags fs fe out = hash_one_c cip input blocks key ctr flags fs fe.

Theorem src_c_sse2_hash_one_sse2_ok cip : c_hash_one_spec cip (src_c_sse2_hash_one_sse2 cip).
Proof. refine (c_hash_one_simd_ok cip (src_c_sse2_hash_one_sse2_loop1 cip) _). intros f; destruct f; reflexivity. Qed.
Theorem src_c_sse41_hash_one_sse41_ok cip : c_hash_one_spec cip (src_c_sse41_hash_one_sse41 cip).
Proof. refine (c_hash_one_simd_ok cip (src_c_sse41_hash_one_sse41_loop1 cip) _). intros f; destruct f; reflexivity. Qed.
Theorem src_c_avx512_hash_one_avx512_ok cip : c_hash_one_spec cip (src_c_avx512_hash_one_avx512 cip).
Proof. refine (c_hash_one_simd_ok cip (src_c_avx512_hash_one_avx512_loop1 cip) _). intros f; destruct f; reflexivity. Qed.

(* `for (&input, output) in inputs.iter().zip(out.chunks_exact_mut(OUT_LEN))`: single_loop over the model h1 of the
   translated hash1, stopping when `out` is exhausted (chunks = out.len() / OUT_LEN); every input is `&[u8; N]` with
   N = n; acc = what was written before *)
Definition rs_single_fn := nat -> N -> list (list N) -> N -> list N -> N -> bool -> N -> N -> N -> list (list N) -> res (N * list (list N)).

Section RsSingle.
  Variable h1 : hash1_fn.
  Variable H1 : nat -> N -> list N -> list N -> N -> N -> N -> N -> res (list N).
  Variables (fuel n blocks : nat) (key : list N) (flags fs fe : N).
  Hypothesis H1_ok : forall input ctr, length input = n ->
    H1 fuel (N.of_nat n) input key ctr flags fs fe = h1 input blocks key ctr flags fs fe.
  Variable loop : rs_single_fn.
  Hypothesis loop_eq : forall fuel gN inputs chunks key counter increment_counter flags flags_start flags_end out_w,
    loop fuel gN inputs chunks key counter increment_counter flags flags_start flags_end out_w =
    match inputs with
    | [] => Ok (counter, out_w)
    | input :: inputs =>
        if chunks =? 0 then Ok (counter, out_w) else
          t_out <- H1 fuel gN input key counter flags flags_start flags_end ;;
          let out_w := out_w ++ [t_out] in
          counter <- (if increment_counter then
            counter <- mi_add 64 counter 1 ;;
            Ok counter
          else Ok counter) ;;
          loop fuel gN inputs (chunks - 1) key counter increment_counter flags flags_start flags_end out_w
    end.

  Lemma rs_single_ok : forall inputs chunks counter incr acc, Forall (fun i => length i = n) inputs ->
    ('(counter, out_w) <- loop fuel (N.of_nat n) inputs chunks key counter incr flags fs fe acc ;; Ok out_w)
    = (r <- single_loop h1 cadd_rs true inputs blocks key counter incr flags fs fe chunks ;; Ok (acc ++ r)).
  Proof.
    induction inputs as [|input tl IH]; intros chunks counter incr acc Hall; rewrite loop_eq.
    - cbn [single_loop bind]. rewrite app_nil_r. reflexivity.
    - cbn [single_loop andb]. destruct (chunks =? 0); [cbn [bind]; rewrite app_nil_r; reflexivity|].
      apply Forall_cons_iff in Hall. destruct Hall as [Hi Htl]. rewrite (H1_ok input counter Hi).
      destruct (h1 input blocks key counter flags fs fe) as [cv| |]; cbn [bind]; try reflexivity.
      cbv zeta. rewrite bind_ret. fold (cadd_rs counter 1).
      destruct (if incr then cadd_rs counter 1 else Ok counter) as [c'| |]; cbn [bind]; try reflexivity.
      rewrite IH by exact Htl.
      destruct (single_loop h1 cadd_rs true tl blocks key c' incr flags fs fe (chunks - 1)); cbn [bind]; try reflexivity.
      rewrite <- app_assoc. reflexivity.
  Qed.
End RsSingle.

Definition rs_single_spec (h1 : hash1_fn) (loop : rs_single_fn) : Prop :=
  forall fuel n blocks inputs chunks key counter incr flags fs fe acc,
  (n / 64 < fuel)%nat -> Forall (fun i => length i = n) inputs ->
  ('(counter, out_w) <- loop fuel (N.of_nat n) inputs chunks key counter incr flags fs fe acc ;; Ok out_w)
  = (r <- single_loop h1 cadd_rs true inputs blocks key counter incr flags fs fe chunks ;; Ok (acc ++ r)).

Theorem src_rs_sse2_hash_many_loop2_ok hN cip : rs_single_spec (hash1_rs cip) (src_rs_sse2_hash_many_loop2 hN (okc cip)).
Proof.
  intros fuel n blocks inputs chunks key counter incr flags fs fe acc Hf.
  apply (rs_single_ok (hash1_rs cip) (src_rs_sse2_hash1 (okc cip)) fuel n blocks key flags fs fe).
  - intros input ctr <-. apply src_rs_sse2_hash1_ok, Hf.
  - intros f g i; destruct i; reflexivity.
Qed.
Theorem src_rs_sse41_hash_many_loop2_ok hN cip : rs_single_spec (hash1_rs cip) (src_rs_sse41_hash_many_loop2 hN (okc cip)).
Proof.
  intros fuel n blocks inputs chunks key counter incr flags fs fe acc Hf.
  apply (rs_single_ok (hash1_rs cip) (src_rs_sse41_hash1 (okc cip)) fuel n blocks key flags fs fe).
  - intros input ctr <-. apply src_rs_sse41_hash1_ok, Hf.
  - intros f g i; destruct i; reflexivity.
Qed.

(* single_loop over Portable.hash1 is portable.rs hash_many's loop when `out` has room for every input and the
   counter is incremented as by the checked u64 addition *)
Lemma single_loop_hash_many_go cadd zip : forall inputs blocks key counter incr flags fs fe cap,
  (zip = true -> N.of_nat (length inputs) <= cap) ->
  (incr = true -> forall c, counter <= c < counter + N.of_nat (length inputs) -> cadd c 1 = mi_add 64 c 1) ->
  single_loop (fun input _ key c f fs fe => Portable.hash1 input key c f fs fe) cadd zip inputs blocks key counter incr flags fs fe cap
  = hash_many_go inputs key counter incr flags fs fe.
Proof.
  induction inputs as [|input tl IH]; intros blocks key counter incr flags fs fe cap Hz Hc; [reflexivity|].
  cbn [single_loop hash_many_go length] in *.
  replace (zip && (cap =? 0)) with false
    by (destruct zip; [symmetry; apply N.eqb_neq; specialize (Hz eq_refl); lia|reflexivity]).
  destruct (Portable.hash1 input key counter flags fs fe) as [cv| |]; cbn [bind]; try reflexivity.
  replace (if incr then cadd counter 1 else Ok counter) with (if incr then mi_add 64 counter 1 else Ok counter)
    by (destruct incr; [symmetry; apply Hc; [reflexivity|lia]|reflexivity]).
  destruct (if incr then mi_add 64 counter 1 else Ok counter) as [c'| |] eqn:Ec; cbn [bind]; try reflexivity.
  rewrite IH; [reflexivity|intros Hzt; specialize (Hz Hzt); lia|].
  intros -> c Hr. apply Hc; [reflexivity|]. unfold mi_add in Ec. destruct (fits 64 (counter + 1)); [|discriminate].
  injection Ec as <-. lia.
Qed.

(* the prologue `debug_assert!(out.len() >= inputs.len() * OUT_LEN)` with out.len() = 32 * cap *)
Lemma rs_prologue {B} (len cap : N) (k : res B) : len * 32 < 2 ^ 64 ->
  (t_b <- mi_mul 64 len rs_OUT_LEN ;; assert! (t_b <=? 32 * cap) code 1101 ;; k)
  = (assert! (len <=? cap) code 1101 ;; k).
Proof.
  intros Hlen. unfold mi_mul, fits. change rs_OUT_LEN with 32.
  replace (len * 32 <? 2 ^ 64) with true by (symmetry; apply N.ltb_lt; exact Hlen). cbn [bind].
  replace (len * 32 <=? 32 * cap) with (len <=? cap)
    by (destruct (N.leb_spec len cap); symmetry; [apply N.leb_le|apply N.leb_gt]; lia).
  reflexivity.
Qed.

Lemma div_OUT_LEN cap : 32 * cap / rs_OUT_LEN = cap.
Proof. change rs_OUT_LEN with 32. rewrite N.mul_comm, N.div_mul; [reflexivity|discriminate]. Qed.

Lemma src_rs_portable_hash_many_loop1_ok fuel n key flags fs fe : length key = 8%nat -> (n / 64 < fuel)%nat ->
  forall inputs chunks counter incr acc, Forall (fun i => length i = n) inputs ->
  ('(counter, out_w) <- src_rs_portable_hash_many_loop1 fuel (N.of_nat n) inputs chunks key counter incr flags fs fe acc ;; Ok out_w)
  = (r <- single_loop (fun input _ key c f fs fe => Portable.hash1 input key c f fs fe) cadd_rs true inputs 0 key counter incr flags fs fe chunks ;;
     Ok (acc ++ r)).
Proof.
  intros Lk Hf. apply (rs_single_ok _ src_rs_portable_hash1 fuel n 0%nat key flags fs fe).
  - intros input ctr <-. apply src_rs_portable_hash1_ok; assumption.
  - intros f g i; destruct i; reflexivity.
Qed.

(* src/portable.rs hash_many::<N>: out.len() = 32 * cap; every input is `&[u8; N]` with N = n *)
Theorem src_rs_portable_hash_many_ok fuel n inputs key counter incr flags fs fe cap :
  length key = 8%nat -> (n / 64 < fuel)%nat -> Forall (fun i => length i = n) inputs -> N.of_nat (length inputs) * 32 < 2 ^ 64 ->
  src_rs_portable_hash_many fuel (N.of_nat n) inputs key counter incr flags fs fe (32 * cap)
  = Portable.hash_many inputs key counter incr flags fs fe cap.
Proof.
  intros Lk Hf Hall Hlen. unfold src_rs_portable_hash_many, Portable.hash_many. cbv zeta.
  rewrite rs_prologue, div_OUT_LEN by exact Hlen.
  destruct (N.leb_spec (N.of_nat (length inputs)) cap) as [Hc|Hc]; cbn [check bind]; [|reflexivity].
  rewrite src_rs_portable_hash_many_loop1_ok by assumption.
  rewrite single_loop_hash_many_go by (intros; try exact Hc; reflexivity).
  destruct (hash_many_go inputs key counter incr flags fs fe); reflexivity.
Qed.

(* the `while inputs.len() >= DEGREE && out.len() >= DEGREE * OUT_LEN` loops of the Rust files:
   hash4 / hash8 = any hN; slice advance, counter += DEGREE, out advance: batch_while DEGREE of the cascade models;
   out.len() = 32 * cap, blocks = N / BLOCK_LEN, acc = what was written before the loop *)
Definition rs_batch_fn := nat -> N -> list (list N) -> list N -> N -> bool -> N -> N -> N -> N -> list (list N) ->
                          res (list (list N) * N * N * list (list N)).
Definition rs_batch_spec (dn : nat) (hN : hashN_fn) (loop : rs_batch_fn) : Prop :=
  forall fuel gN inputs key counter incr flags fs fe cap acc, (length inputs < fuel)%nat ->
  loop fuel gN inputs key counter incr flags fs fe (32 * cap) acc =
  ('(outs, st) <- batch_while fuel dn hN cadd_rs true inputs (N.to_nat (gN / 64)) key counter incr flags fs fe cap ;;
   let '(rest, c', cap') := st in Ok (rest, c', 32 * cap', acc ++ outs)).

Section RsBatch.
  Variable dn : nat.
  Hypothesis dn_pos : (1 <= dn)%nat.
  Variable hN : hashN_fn.
  Variable loop : rs_batch_fn.
  Hypothesis loop_eq : forall fuel gN inputs key counter increment_counter flags flags_start flags_end out_len out_w,
    loop fuel gN inputs key counter increment_counter flags flags_start flags_end out_len out_w =
    if ((N.of_nat dn <=? (N.of_nat (length inputs))) && (32 * N.of_nat dn <=? out_len)) then
      match fuel with
      | O => OutOfFuel
      | S fuel =>
        let input_ptrs := firstn dn inputs in
        blocks <- (mi_div 64 gN rs_BLOCK_LEN) ;;
        assert! (32 * N.of_nat dn <=? out_len) code 54 ;;
        t_out <- hN input_ptrs (N.to_nat blocks) key counter increment_counter flags flags_start flags_end ;;
        let out_w := out_w ++ t_out in
        counter <- (if increment_counter then
          counter <- mi_add 64 counter (N.of_nat dn) ;;
          Ok counter
        else Ok counter) ;;
        assert! (N.of_nat dn <=? N.of_nat (length inputs)) code 40 ;;
        let inputs := skipn dn inputs in
        assert! (32 * N.of_nat dn <=? out_len) code 40 ;;
        let out_len := out_len - 32 * N.of_nat dn in
        loop fuel gN inputs key counter increment_counter flags flags_start flags_end out_len out_w
      end
    else Ok (inputs, counter, out_len, out_w).

  Lemma rs_batch_ok : rs_batch_spec dn hN loop.
  Proof.
    unfold rs_batch_spec. induction fuel as [|fuel IH]; intros gN inputs key counter incr flags fs fe cap acc Hf; [lia|].
    rewrite loop_eq. cbn [batch_while negb orb]. rewrite N_leb_of_nat.
    replace (32 * N.of_nat dn <=? 32 * cap) with (N.of_nat dn <=? cap)
      by (destruct (N.leb_spec (N.of_nat dn) cap); symmetry; [apply N.leb_le|apply N.leb_gt]; lia).
    destruct (Nat.leb_spec dn (length inputs)) as [Hd|Hd]; cbn [andb];
      [|cbn [bind]; rewrite app_nil_r; reflexivity].
    destruct (N.leb_spec (N.of_nat dn) cap) as [Hc|Hc]; [|cbn [bind]; rewrite app_nil_r; reflexivity].
    cbv zeta. unfold mi_div. change (rs_BLOCK_LEN =? 0) with false. change rs_BLOCK_LEN with 64. cbn [bind check].
    destruct (hN (firstn dn inputs) (N.to_nat (gN / 64)) key counter incr flags fs fe) as [outs| |]; cbn [bind]; try reflexivity.
    rewrite bind_ret. fold (cadd_rs counter (N.of_nat dn)).
    destruct (if incr then cadd_rs counter (N.of_nat dn) else Ok counter) as [c'| |]; cbn [bind]; try reflexivity.
    replace (32 * cap - 32 * N.of_nat dn) with (32 * (cap - N.of_nat dn)) by lia.
    rewrite IH by (rewrite skipn_length; lia).
    destruct (batch_while fuel dn hN cadd_rs true (skipn dn inputs) (N.to_nat (gN / 64)) key c' incr flags fs fe (cap - N.of_nat dn))
      as [[o [[r c''] cap'']]| |]; cbn [bind]; try reflexivity.
    rewrite app_assoc. reflexivity.
  Qed.
End RsBatch.

Theorem src_rs_sse41_hash_many_loop1_ok hN ext : rs_batch_spec 4 hN (src_rs_sse41_hash_many_loop1 hN ext).
Proof. apply rs_batch_ok; [lia|intros f; destruct f; reflexivity]. Qed.
Theorem src_rs_sse2_hash_many_loop1_ok hN ext : rs_batch_spec 4 hN (src_rs_sse2_hash_many_loop1 hN ext).
Proof. apply rs_batch_ok; [lia|intros f; destruct f; reflexivity]. Qed.
Theorem src_rs_avx2_hash_many_loop1_ok hN ext : rs_batch_spec 8 hN (src_rs_avx2_hash_many_loop1 hN ext).
Proof. apply rs_batch_ok; [lia|intros f; destruct f; reflexivity]. Qed.

(* the `while (num_inputs >= DEGREE)` loops of the C files:
   batch_while DEGREE with the wrapping counter and no capacity test.  num_inputs = the number of input pointers;
   acc = what was written before the loop; `out'` = where the `out` pointer stands after the loop (it only depends on
   the number of iterations; nothing reads through it in these loops) *)
Definition c_loop_fn := nat -> list (list N) -> N -> N -> list N -> N -> bool -> N -> N -> N -> list N -> list (list N) ->
                        res (list (list N) * N * N * list N * list (list N)).
Definition c_batch_spec (dn : nat) (hN : hashN_fn) (loop : c_loop_fn) : Prop :=
  forall fuel inputs blocks key counter incr flags fs fe out acc,
  (length inputs < fuel)%nat -> N.of_nat (length inputs) < 2 ^ 64 ->
  exists out', loop fuel inputs (N.of_nat (length inputs)) blocks key counter incr flags fs fe out acc =
    ('(outs, st) <- batch_while fuel dn hN cadd_c false inputs (N.to_nat blocks) key counter incr flags fs fe 0 ;;
     let '(rest, c', _) := st in Ok (rest, N.of_nat (length rest), c', out', acc ++ outs)).

Section CBatch.
  Variable dn : nat.
  Hypothesis dn_pos : (1 <= dn)%nat.
  Variable hN : hashN_fn.
  Variable loop : c_loop_fn.
  Hypothesis loop_eq : forall fuel inputs num_inputs blocks key counter increment_counter flags flags_start flags_end out out_w,
    loop fuel inputs num_inputs blocks key counter increment_counter flags flags_start flags_end out out_w =
    if (N.of_nat dn <=? num_inputs) then
      match fuel with
      | O => OutOfFuel
      | S fuel =>
        t_out <- hN (firstn dn inputs) (N.to_nat blocks) key counter increment_counter flags flags_start flags_end ;;
        let out_w := out_w ++ t_out in
        counter <- (if increment_counter then
          let counter := c_wadd 64 counter (N.of_nat dn) in
          Ok counter
        else Ok counter) ;;
        let inputs := skipn dn inputs in
        let num_inputs := c_wsub 64 num_inputs (N.of_nat dn) in
        let out := skipn (32 * dn) out in
        loop fuel inputs num_inputs blocks key counter increment_counter flags flags_start flags_end out out_w
      end
    else Ok (inputs, num_inputs, counter, out, out_w).

  Lemma c_batch_ok : c_batch_spec dn hN loop.
  Proof.
    unfold c_batch_spec. induction fuel as [|fuel IH]; intros inputs blocks key counter incr flags fs fe out acc Hf Hn; [lia|].
    rewrite loop_eq. cbn [batch_while negb orb]. rewrite N_leb_of_nat.
    destruct (Nat.leb_spec dn (length inputs)) as [Hd|Hd]; cbn [andb];
      [|exists out; cbn [bind]; rewrite app_nil_r; reflexivity].
    destruct (hN (firstn dn inputs) (N.to_nat blocks) key counter incr flags fs fe) as [outs| |]; cbn [bind];
      [|exists out; reflexivity|exists out; reflexivity].
    cbv zeta. change (Ok (c_wadd 64 counter (N.of_nat dn))) with (cadd_c counter (N.of_nat dn)).
    destruct (if incr then cadd_c counter (N.of_nat dn) else Ok counter) as [c'| |]; cbn [bind];
      [|exists out; reflexivity|exists out; reflexivity].
    rewrite c_wsub_small by lia.
    replace (N.of_nat (length inputs) - N.of_nat dn) with (N.of_nat (length (skipn dn inputs))) by (rewrite skipn_length; lia).
    destruct (IH (skipn dn inputs) blocks key c' incr flags fs fe (skipn (32 * dn) out) (acc ++ outs)) as (out' & E');
      [rewrite skipn_length; lia|rewrite skipn_length; lia|].
    exists out'. rewrite E', N.sub_0_l.
    destruct (batch_while fuel dn hN cadd_c false (skipn dn inputs) (N.to_nat blocks) key c' incr flags fs fe 0)
      as [[o [[r c''] cap'']]| |]; cbn [bind]; try reflexivity.
    rewrite app_assoc. reflexivity.
  Qed.
End CBatch.

Theorem src_c_sse2_blake3_hash_many_sse2_loop1_ok hN ext : c_batch_spec 4 hN (src_c_sse2_blake3_hash_many_sse2_loop1 hN ext).
Proof. apply c_batch_ok; [lia|intros f; destruct f; reflexivity]. Qed.
Theorem src_c_sse41_blake3_hash_many_sse41_loop1_ok hN ext : c_batch_spec 4 hN (src_c_sse41_blake3_hash_many_sse41_loop1 hN ext).
Proof. apply c_batch_ok; [lia|intros f; destruct f; reflexivity]. Qed.
Theorem src_c_avx2_blake3_hash_many_avx2_loop1_ok hN ext : c_batch_spec 8 hN (src_c_avx2_blake3_hash_many_avx2_loop1 hN ext).
Proof. apply c_batch_ok; [lia|intros f; destruct f; reflexivity]. Qed.
Theorem src_c_avx512_blake3_hash_many_avx512_loop1_ok h16 h8 h4 ext :
  c_batch_spec 16 h16 (src_c_avx512_blake3_hash_many_avx512_loop1 h16 h8 h4 ext).
Proof. apply c_batch_ok; [lia|intros f; destruct f; reflexivity]. Qed.
Theorem src_c_avx512_blake3_hash_many_avx512_loop2_ok h16 h8 h4 ext :
  c_batch_spec 8 h8 (src_c_avx512_blake3_hash_many_avx512_loop2 h16 h8 h4 ext).
Proof. apply c_batch_ok; [lia|intros f; destruct f; reflexivity]. Qed.
Theorem src_c_avx512_blake3_hash_many_avx512_loop3_ok h16 h8 h4 ext :
  c_batch_spec 4 h4 (src_c_avx512_blake3_hash_many_avx512_loop3 h16 h8 h4 ext).
Proof. apply c_batch_ok; [lia|intros f; destruct f; reflexivity]. Qed.

(* the same with the `out` pointer projected away: what is written is out_w *)
Theorem src_c_avx512_blake3_hash_many_avx512_loop1_written h16 h8 h4 ext : forall fuel inputs blocks key counter incr flags fs fe out acc,
  (length inputs < fuel)%nat -> N.of_nat (length inputs) < 2 ^ 64 ->
  (p <- src_c_avx512_blake3_hash_many_avx512_loop1 h16 h8 h4 ext fuel inputs (N.of_nat (length inputs)) blocks key counter incr flags fs fe out acc ;;
   let '(i, n, c, _, w) := p in Ok (i, n, c, w)) =
  ('(outs, st) <- batch_while fuel 16 h16 cadd_c false inputs (N.to_nat blocks) key counter incr flags fs fe 0 ;;
   let '(rest, c', _) := st in Ok (rest, N.of_nat (length rest), c', acc ++ outs)).
Proof.
  intros fuel inputs blocks key counter incr flags fs fe out acc Hf Hn.
  destruct (src_c_avx512_blake3_hash_many_avx512_loop1_ok h16 h8 h4 ext fuel inputs blocks key counter incr flags fs fe out acc Hf Hn)
    as (out' & ->).
  destruct (batch_while fuel 16 h16 cadd_c false inputs (N.to_nat blocks) key counter incr flags fs fe 0) as [[o [[r c'] cap']]| |];
    reflexivity.
Qed.
