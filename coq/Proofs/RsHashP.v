(* Proofs about Model/RsHash.v (C14).  The arithmetic of gen/GenConsts.v (shift and mask of a byte, the
   arms of hex_val, the nibble combination) is characterised once, for all arguments; the statements over
   byte lists follow by induction, so they cover all 2^256 hashes and all strings of every length. *)
From Coq Require Import NArith Arith List Bool Lia ZifyBool.
From V Require Import Base.Res Base.Word Base.MachInt gen.GenConsts Model.RsHash.
From V Require Base.Str.
Import ListNotations.
Open Scope N_scope.

(* specification-side vocabulary (independent of the generated tables) *)
Definition is_lower_hex (c : N) : bool :=
  ((48 <=? c) && (c <=? 57)) || ((97 <=? c) && (c <=? 102)).
Definition is_hex_digit (c : N) : bool :=
  is_lower_hex c || ((65 <=? c) && (c <=? 70)).
Definition digit_value (c : N) : N :=
  if (48 <=? c) && (c <=? 57) then c - 48
  else if (97 <=? c) && (c <=? 102) then c - 97 + 10
  else c - 65 + 10.
Definition to_lower (c : N) : N := if (65 <=? c) && (c <=? 90) then c + 32 else c.

Lemma combine_spec hi lo : hi < 16 -> lo < 16 -> rs_hex_combine hi lo = Ok (16 * hi + lo).
Proof.
  intros Hh Hl. unfold rs_hex_combine, mb, mi_mul, mi_add, fits. cbn [bind]. change (2 ^ 8) with 256.
  replace (16 * hi <? 256) with true by lia. cbn [bind].
  replace (16 * hi + lo <? 256) with true by lia. reflexivity.
Qed.

Lemma hex_val_eq c : hex_val c = Ok (if is_hex_digit c then Some (digit_value c) else None).
Proof.
  unfold hex_val, rs_hex_val_arms, is_hex_digit, is_lower_hex, digit_value, mb, mi_add, mi_sub, fits.
  cbn [hex_val_arms bind]. change (2 ^ 8) with 256.
  destruct ((65 <=? c) && (c <=? 70)) eqn:U.
  { replace (65 <=? c) with true by lia. cbn [bind]. replace (c - 65 + 10 <? 256) with true by lia.
    replace ((48 <=? c) && (c <=? 57)) with false by lia. replace ((97 <=? c) && (c <=? 102)) with false by lia.
    reflexivity. }
  destruct ((97 <=? c) && (c <=? 102)) eqn:L.
  { replace (97 <=? c) with true by lia. cbn [bind]. replace (c - 97 + 10 <? 256) with true by lia.
    replace ((48 <=? c) && (c <=? 57)) with false by lia. reflexivity. }
  destruct ((48 <=? c) && (c <=? 57)) eqn:D; [|reflexivity].
  replace (48 <=? c) with true by lia. reflexivity.
Qed.

Lemma digit_value_lt c : is_hex_digit c = true -> digit_value c < 16.
Proof.
  unfold is_hex_digit, is_lower_hex, digit_value. intros H.
  destruct ((48 <=? c) && (c <=? 57)) eqn:A; [lia|]. destruct ((97 <=? c) && (c <=? 102)) eqn:B; lia.
Qed.

(* `b >> 4` and `b & 0xf` *)
Lemma hex_index b : rs_hex_hi_index b = Ok (b / 16) /\ rs_hex_lo_index b = Ok (b mod 16).
Proof.
  unfold rs_hex_hi_index, rs_hex_lo_index, mb, mi_shr, mi_and. cbn [bind]. split.
  - change (4 <? 8) with true. rewrite N.shiftr_div_pow2. reflexivity.
  - change 15 with (N.ones 4). rewrite N.land_ones. reflexivity.
Qed.

Lemma nibbles_lt b : b < 256 -> b / 16 < 16 /\ b mod 16 < 16.
Proof. intros H. split; [apply N.div_lt_upper_bound|apply N.mod_lt]; lia. Qed.

(* the table b"0123456789abcdef", entry by entry *)
Lemma tbl_digit d : d < 16 -> index_tbl rs_hex_table d = Ok (Str.s_hex_digit d).
Proof.
  intros H. rewrite <- (N2Nat.id d) in *. generalize dependent (N.to_nat d). intros n H.
  do 16 (destruct n as [|n]; [reflexivity|]). lia.
Qed.

Lemma hex_digit_spec d : d < 16 ->
  is_lower_hex (Str.s_hex_digit d) = true /\ digit_value (Str.s_hex_digit d) = d.
Proof.
  intros H. unfold Str.s_hex_digit, is_lower_hex, digit_value. destruct (d <? 10) eqn:E.
  - replace ((48 <=? 48 + d) && (48 + d <=? 57)) with true by lia. lia.
  - replace ((48 <=? 87 + d) && (87 + d <=? 57)) with false by lia.
    replace ((97 <=? 87 + d) && (87 + d <=? 102)) with true by lia. lia.
Qed.

(* Hash::to_hex is hex::encode *)
Lemma to_hex_go_hex bs : forall acc,
  all_bytes bs = true -> acc + 2 * N.of_nat (length bs) <= 2 * rs_OUT_LEN ->
  to_hex_go bs acc = Ok (Str.s_hex_encode bs).
Proof.
  induction bs as [|b bs IH]; intros acc Hb Hlen; [reflexivity|].
  cbn [all_bytes forallb] in Hb. apply andb_true_iff in Hb as [Hb1 Hb2]. apply N.ltb_lt in Hb1.
  cbn [length] in Hlen. cbn [to_hex_go Str.s_hex_encode].
  destruct (hex_index b) as [-> ->]. cbn [bind].
  rewrite !tbl_digit by apply (nibbles_lt b Hb1). cbn [bind].
  replace (acc + 2 <=? 2 * rs_OUT_LEN) with true by lia. cbn [check bind].
  rewrite IH by (assumption || lia). reflexivity.
Qed.

Lemma hex_encode_length bs : length (Str.s_hex_encode bs) = (2 * length bs)%nat.
Proof. induction bs as [|b bs IH]; [reflexivity|]. cbn [Str.s_hex_encode length]. rewrite IH. lia. Qed.

Lemma hex_encode_lower bs : all_bytes bs = true -> forallb is_lower_hex (Str.s_hex_encode bs) = true.
Proof.
  induction bs as [|b bs IH]; intros Hb; [reflexivity|].
  cbn [all_bytes forallb] in Hb. apply andb_true_iff in Hb as [Hb1 Hb2]. apply N.ltb_lt in Hb1.
  cbn [Str.s_hex_encode forallb]. rewrite IH by exact Hb2.
  destruct (nibbles_lt b Hb1) as [Hh Hl].
  rewrite (proj1 (hex_digit_spec _ Hh)), (proj1 (hex_digit_spec _ Hl)). reflexivity.
Qed.

Lemma to_hex_go_acc_irrelevant bs acc acc' s :
  to_hex_go bs acc = Ok s -> acc' <= acc -> to_hex_go bs acc' = Ok s.
Proof.
  revert acc acc' s. induction bs as [|b bs IH]; intros acc acc' s H Hle; [exact H|].
  cbn [to_hex_go] in *. destruct (hex_index b) as [E1 E2]. rewrite E1, E2 in *. cbn [bind] in *.
  destruct (index_tbl rs_hex_table (b / 16)) as [c1| |]; try discriminate. cbn [bind] in *.
  destruct (index_tbl rs_hex_table (b mod 16)) as [c2| |]; try discriminate. cbn [bind] in *.
  destruct (acc + 2 <=? 2 * rs_OUT_LEN) eqn:E; cbn [check bind] in H; try discriminate.
  replace (acc' + 2 <=? 2 * rs_OUT_LEN) with true by lia. cbn [check bind].
  destruct (to_hex_go bs (acc + 2)) as [r| |] eqn:Er; try discriminate.
  rewrite (IH (acc + 2) (acc' + 2) r Er) by lia. exact H.
Qed.

Theorem to_hex_lowercase_64 h :
  length h = 32%nat -> all_bytes h = true ->
  exists s, to_hex h = Ok s /\ length s = 64%nat /\ forallb is_lower_hex s = true.
Proof.
  intros Hl Hb. exists (Str.s_hex_encode h). unfold to_hex.
  rewrite to_hex_go_hex, hex_encode_length, hex_encode_lower, Hl by (assumption || (rewrite Hl; discriminate)).
  auto.
Qed.

Definition decode_pairs : list N -> list N :=
  fix go l := match l with
              | c1 :: c2 :: tl => (16 * digit_value c1 + digit_value c2) :: go tl
              | _ => []
              end.

Lemma from_hex_go_spec n : forall s, length s = (2 * n)%nat ->
  (forallb is_hex_digit s = true /\ from_hex_go n s = Ok (HexOk (decode_pairs s))) \/
  (forallb is_hex_digit s = false /\
   exists c, In c s /\ is_hex_digit c = false /\ from_hex_go n s = Ok (HexInvalidByte c)).
Proof.
  induction n as [|n IH]; intros s Hl.
  - destruct s; [|discriminate]. left. split; reflexivity.
  - destruct s as [|c1 [|c2 tl]]; try (cbn in Hl; lia).
    cbn [from_hex_go forallb]. rewrite (hex_val_eq c1), (hex_val_eq c2).
    destruct (is_hex_digit c1) eqn:Hd1; cbn [bind andb].
    2:{ right. split; [reflexivity|]. exists c1. repeat split; auto. left; reflexivity. }
    destruct (is_hex_digit c2) eqn:Hd2; cbn [bind andb].
    2:{ right. split; [reflexivity|]. exists c2. repeat split; auto. right; left; reflexivity. }
    rewrite combine_spec by (apply digit_value_lt; assumption). cbn [bind].
    assert (Hl' : length tl = (2 * n)%nat) by (cbn [length] in Hl; lia).
    destruct (IH tl Hl') as [[Hf Hgo]|[Hf [c [Hin [Hc Hgo]]]]]; rewrite Hgo, Hf; cbn [bind].
    + left. split; reflexivity.
    + right. split; [reflexivity|]. exists c. repeat split; auto. right; right; exact Hin.
Qed.

Lemma from_hex_spec s :
  (length s <> 64%nat /\ from_hex s = Ok (HexInvalidLen (N.of_nat (length s)))) \/
  (length s = 64%nat /\
   ((forallb is_hex_digit s = true /\ from_hex s = Ok (HexOk (decode_pairs s))) \/
    (forallb is_hex_digit s = false /\
     exists c, In c s /\ is_hex_digit c = false /\ from_hex s = Ok (HexInvalidByte c)))).
Proof.
  unfold from_hex. change rs_hex_len with 64. change (N.to_nat rs_OUT_LEN) with 32%nat.
  destruct (N.eqb_spec (N.of_nat (length s)) 64) as [E|E]; cbn [negb]; [right|left; split; [lia|reflexivity]].
  assert (Hl : length s = (2 * 32)%nat) by lia. split; [exact Hl|]. apply from_hex_go_spec, Hl.
Qed.

Theorem from_hex_total s :
  all_bytes s = true -> exists r, from_hex s = Ok r.
Proof. intros _. destruct (from_hex_spec s) as [[_ H]|[_ [[_ H]|[_ (c & _ & _ & H)]]]]; eauto. Qed.

Theorem from_hex_accepts_iff s :
  all_bytes s = true ->
  ((exists h, from_hex s = Ok (HexOk h)) <->
   (length s = 64%nat /\ forallb is_hex_digit s = true)).
Proof.
  intros _. destruct (from_hex_spec s) as [[L H]|[L [[F H]|[F (c & _ & _ & H)]]]]; rewrite H; split.
  all: try (intros [h X]; discriminate X). all: try (intros [A B]; congruence). all: eauto.
Qed.

Theorem from_hex_value s h :
  all_bytes s = true -> from_hex s = Ok (HexOk h) -> h = decode_pairs s.
Proof. intros _. destruct (from_hex_spec s) as [[_ H]|[_ [[_ H]|[_ (c & _ & _ & H)]]]]; rewrite H; congruence. Qed.

Theorem from_hex_rejects_len s :
  length s <> 64%nat -> from_hex s = Ok (HexInvalidLen (N.of_nat (length s))).
Proof. intros Hl. destruct (from_hex_spec s) as [[_ H]|[L _]]; [exact H|contradiction]. Qed.

Lemma decode_encode bs : all_bytes bs = true -> decode_pairs (Str.s_hex_encode bs) = bs.
Proof.
  induction bs as [|b bs IH]; intros Hb; [reflexivity|].
  cbn [all_bytes forallb] in Hb. apply andb_true_iff in Hb as [Hb1 Hb2]. apply N.ltb_lt in Hb1.
  cbn [Str.s_hex_encode decode_pairs]. fold decode_pairs. rewrite IH by exact Hb2.
  destruct (nibbles_lt b Hb1) as [Hh Hl].
  rewrite (proj2 (hex_digit_spec _ Hh)), (proj2 (hex_digit_spec _ Hl)).
  f_equal. symmetry. apply N.div_mod'.
Qed.

Theorem from_hex_to_hex h s :
  length h = 32%nat -> all_bytes h = true -> to_hex h = Ok s -> from_hex s = Ok (HexOk h).
Proof.
  intros Hl Hb Hs. unfold to_hex in Hs. rewrite to_hex_go_hex in Hs by (assumption || (rewrite Hl; discriminate)).
  inversion Hs; subst s. pose proof (hex_encode_lower h Hb) as Lo.
  assert (Hd : forallb is_hex_digit (Str.s_hex_encode h) = true).
  { rewrite forallb_forall in *. intros c I. unfold is_hex_digit. rewrite (Lo c I). reflexivity. }
  destruct (from_hex_spec (Str.s_hex_encode h)) as [[L _]|[_ [[_ H]|[F _]]]].
  - rewrite hex_encode_length, Hl in L. contradiction.
  - rewrite H, decode_encode by exact Hb. reflexivity.
  - congruence.
Qed.

Lemma to_lower_digit c : is_hex_digit c = true ->
  is_hex_digit (to_lower c) = true /\ digit_value (to_lower c) = digit_value c.
Proof.
  unfold is_hex_digit, is_lower_hex, digit_value, to_lower. intros H.
  destruct ((65 <=? c) && (c <=? 90)) eqn:U.
  - replace ((48 <=? c + 32) && (c + 32 <=? 57)) with false by lia.
    replace ((97 <=? c + 32) && (c + 32 <=? 102)) with true by lia.
    replace ((48 <=? c) && (c <=? 57)) with false by lia.
    replace ((97 <=? c) && (c <=? 102)) with false by lia. split; [reflexivity|lia].
  - split; [exact H|reflexivity].
Qed.

Lemma decode_pairs_lower : forall s, forallb is_hex_digit s = true ->
  decode_pairs (map to_lower s) = decode_pairs s /\ forallb is_hex_digit (map to_lower s) = true.
Proof.
  fix IH 1. intros [|c1 [|c2 tl]] Hf; [split; reflexivity| |]; cbn [forallb map] in *.
  - rewrite andb_true_r in *. apply to_lower_digit in Hf as [-> _]. split; reflexivity.
  - apply andb_true_iff in Hf as [H1 Hf]. apply andb_true_iff in Hf as [H2 Hf].
    apply to_lower_digit in H1 as [-> E1], H2 as [-> E2]. destruct (IH tl Hf) as [E ->].
    cbn [decode_pairs]. fold decode_pairs. rewrite E1, E2, E. split; reflexivity.
Qed.

Theorem from_hex_case_insensitive s h :
  all_bytes s = true -> from_hex s = Ok (HexOk h) -> from_hex (map to_lower s) = Ok (HexOk h).
Proof.
  intros _ H. destruct (from_hex_spec s) as [[_ X]|[L [[F X]|[_ (c & _ & _ & X)]]]]; rewrite X in H; try discriminate.
  destruct (decode_pairs_lower s F) as [D F'].
  destruct (from_hex_spec (map to_lower s)) as [[L' _]|[_ [[_ Y]|[F'' _]]]].
  - rewrite map_length in L'. contradiction.
  - rewrite Y, D. exact H.
  - congruence.
Qed.

Theorem from_slice_ok_iff_32 bs :
  (exists h, from_slice bs = Some h) <-> length bs = 32%nat.
Proof.
  unfold from_slice. change rs_OUT_LEN with 32.
  destruct (N.eqb_spec (N.of_nat (length bs)) 32); split; try lia; eauto. intros [h H]. discriminate H.
Qed.

Theorem from_slice_lossless bs h : from_slice bs = Some h -> as_slice h = bs.
Proof.
  unfold from_slice, as_slice. destruct (_ =? _); intros H; inversion H; reflexivity.
Qed.

Lemma ct_acc_zero a : forall b acc,
  length a = length b -> (ct_acc a b acc = 0 <-> acc = 0 /\ a = b).
Proof.
  induction a as [|x a IH]; intros [|y b] acc Hl; try discriminate.
  - cbn. tauto.
  - cbn [ct_acc]. rewrite IH by (cbn in Hl; lia). rewrite N.lor_eq_0_iff, N.lxor_eq_0_iff.
    split.
    + intros [[H1 H2] H3]. subst. auto.
    + intros [H1 H2]. inversion H2. auto.
Qed.

Theorem eq_iff_bytes_equal a b : constant_time_eq a b = true <-> a = b.
Proof.
  unfold constant_time_eq. destruct (Nat.eqb (length a) (length b)) eqn:E; cbn [negb].
  - apply Nat.eqb_eq in E. rewrite N.eqb_eq, ct_acc_zero by exact E. tauto.
  - apply Nat.eqb_neq in E. split; [discriminate|]. intros ->. contradiction.
Qed.
