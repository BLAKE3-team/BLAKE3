(* Small model-level theorems: Debug non-interference and zeroize (C17), trait ops
   delegate to the inherent ops (C16), guts API = spec chunk / parent values (C16). *)
From V Require Import Proofs.ListP Proofs.ResP.
From V Require Import Base.Res Base.Word Base.MachInt gen.GenConsts gen.GenFormulas
  Spec.Compress Spec.Tree Spec.Blake3 Model.Portable Model.Platform Model.RsChunk Model.RsWide
  Model.RsHasher Model.RsXof Model.RsIo Model.RsDebug Model.RsGuts Model.Machine
  Proofs.PortableP Proofs.ChunkP Proofs.TreeP Proofs.FormulasP Proofs.WideP Proofs.C01P Proofs.XofP.
Open Scope N_scope.

(* C17: Debug output is a function of the public fields only *)
Lemma debug_hasher_public h1 h2 pname :
  h_flags h1 = h_flags h2 -> debug_hasher h1 pname = debug_hasher h2 pname.
Proof. intros H. unfold debug_hasher. rewrite H. reflexivity. Qed.

Lemma debug_reader_public r1 r2 :
  reader_position r1 = reader_position r2 -> debug_reader r1 = debug_reader r2.
Proof. intros H. unfold debug_reader. rewrite H. reflexivity. Qed.

Lemma debug_chunk_state_public c1 c2 pname :
  cs_count c1 = cs_count c2 -> cs_ctr c1 = cs_ctr c2 -> cs_flags c1 = cs_flags c2 ->
  debug_chunk_state c1 pname = debug_chunk_state c2 pname.
Proof. intros H1 H2 H3. unfold debug_chunk_state. rewrite H1, H2, H3. reflexivity. Qed.

Lemma debug_hasher_ignores_secrets key1 key2 cv1 cv2 buf1 buf2 bl1 bl2 blk1 blk2 ctr1 ctr2 init1 init2 st1 st2 fl pname :
  debug_hasher (mkHasher key1 (mkCS cv1 ctr1 buf1 bl1 blk1 fl) init1 st1) pname =
  debug_hasher (mkHasher key2 (mkCS cv2 ctr2 buf2 bl2 blk2 fl) init2 st2) pname.
Proof. reflexivity. Qed.

Lemma zero_hasher_is_zero h : hasher_is_zero (zero_hasher h) = true.
Proof. reflexivity. Qed.
Lemma zero_reader_is_zero r : reader_is_zero (zero_reader r) = true.
Proof. reflexivity. Qed.

Lemma get_app_last {A} (l : list A) x : get (l ++ [x]) (length l) = Ok x.
Proof. unfold get. rewrite nth_error_app2 by lia. rewrite Nat.sub_diag. reflexivity. Qed.

Lemma set_nth_app_last {A} (l : list A) x y : set_nth (l ++ [x]) (length l) y = l ++ [y].
Proof. induction l as [|a l IH]; cbn [app length set_nth]; [reflexivity|]. rewrite IH. reflexivity. Qed.

(* C16: trait methods are the inherent methods *)
Section Traits.
  Variables (p : platform) (pn : list N) (m : mmode) (key : list N) (flags : N).
  Notation stp := (step p pn m key flags).

  Lemma trait_update st i b : stp st (OpTUpdate i b) = stp st (OpUpdate i b).
  Proof. reflexivity. Qed.
  Lemma trait_reset st i : stp st (OpTReset i) = stp st (OpReset i).
  Proof. reflexivity. Qed.
  Lemma trait_finalize st i : stp st (OpTFinalize i) = stp st (OpFinalize i).
  Proof. reflexivity. Qed.

  Lemma trait_finalize_reset st i :
    stp st (OpTFinalizeReset i) =
    ('(st1, o1) <- stp st (OpFinalize i) ;; '(st2, o2) <- stp st1 (OpReset i) ;; Ok (st2, o1 ++ o2)).
  Proof.
    cbn [step]. destruct (get (st_hashers st) i) as [h| |] eqn:E; cbn [bind]; try reflexivity.
    destruct (hasher_finalize p h) as [d| |]; cbn [bind]; try reflexivity.
    rewrite E. reflexivity.
  Qed.

  (* ExtendableOutput::finalize_xof + XofReader::read = inherent finalize_xof, then fill *)
  Lemma trait_xof st i n :
    stp st (OpTXof i n) =
    ('(st1, o1) <- stp st (OpReaderNew i) ;;
     '(st2, o2) <- stp st1 (OpFill (length (st_readers st)) n) ;; Ok (st2, o1 ++ o2)).
  Proof.
    cbn [step]. destruct (get (st_hashers st) i) as [h| |] eqn:E; cbn [bind]; try reflexivity.
    destruct (hasher_finalize_output p h) as [o| |]; cbn [bind]; try reflexivity.
    unfold add_reader at 2. cbn [st_readers]. rewrite get_app_last. cbn [bind].
    destruct (reader_fill p (reader_new o) n) as [[r bs]| |]; cbn [bind]; try reflexivity.
    unfold set_reader, add_reader. cbn [st_hashers st_readers st_vals]. rewrite set_nth_app_last. reflexivity.
  Qed.
End Traits.

Section Guts.
  Variable p : platform.
  Hypothesis POK : PlatformOK p.

  Notation TightG := (Tight spec_c8 IV 0).

  Lemma guts_feed_spec ctr : forall pieces cs bs acc,
    TightG ctr cs bs -> len (bs ++ concat pieces) <= 1024 ->
    exists cs' lens, guts_feed p cs pieces acc = Ok (cs', rev acc ++ lens) /\ TightG ctr cs' (bs ++ concat pieces) /\
                     length lens = length pieces.
  Proof.
    induction pieces as [|x tl IH]; intros cs bs acc HT Hl.
    - exists cs, []. cbn [guts_feed concat]. rewrite !app_nil_r. auto.
    - cbn [guts_feed concat] in *. rewrite app_assoc in Hl.
      destruct (cs_update_spec spec_c8 p (cip_is_c8 spec_c8 p POK spec_c8_cip) spec_c8_len IV 0 ctr eq_refl cs bs x HT) as (cs1 & Hu & HT1).
      { rewrite !len_app in *. lia. }
      unfold guts_update, guts_len. rewrite Hu. cbn [bind]. rewrite (Tight_count _ _ _ _ _ _ HT1). cbn [bind].
      destruct (IH cs1 (bs ++ x) (len (bs ++ x) :: acc) HT1 Hl) as (cs' & lens & Hf & HT' & Hlen).
      exists cs', (len (bs ++ x) :: lens). rewrite Hf. cbn [rev]. rewrite <- !app_assoc. cbn [app].
      rewrite <- app_assoc in HT'. split; [reflexivity|]. split; [exact HT'|cbn [length]; lia].
  Qed.

  (* non-root: the spec's chunk chaining value; root (chunk 0): the spec's 32-byte root hash *)
  Theorem guts_chunk_spec ctr pieces :
    len (concat pieces) <= 1024 ->
    exists cs lens, guts_feed p (guts_new ctr) pieces [] = Ok (cs, lens) /\
      guts_finalize p cs false = Ok (chaining_value spec_c8 (chunk_output spec_c8 IV 0 ctr (concat pieces))) /\
      (ctr = 0 -> guts_finalize p cs true = Ok (stream spec_c64 (chunk_output spec_c8 IV 0 0 (concat pieces)) 0 32)).
  Proof.
    intros Hl.
    destruct (guts_feed_spec ctr pieces (guts_new ctr) [] []) as (cs & lens & Hf & HT & _).
    { unfold guts_new. rewrite rs_IV_is_spec. apply Tight_cs_new. }
    { exact Hl. }
    cbn [app rev] in *. exists cs, lens. split; [exact Hf|].
    pose proof (wf_chunk_output spec_c8 spec_c8_len IV 0 eq_refl ctr (concat pieces) Hl) as Hwf.
    unfold guts_finalize. rewrite (cs_output_chunk _ _ _ _ _ _ HT). split.
    - f_equal. apply (wf_chaining_value spec_c8 p POK spec_c8_cip), Hwf.
    - intros ->. apply (out_root_hash_spec p POK); [exact Hwf|apply chunk_go_ctr].
  Qed.

  Theorem guts_parent_spec l r :
    length l = 32%nat -> length r = 32%nat ->
    guts_parent_cv p l r false = Ok (chaining_value spec_c8 (parent_output IV 0 l r)) /\
    guts_parent_cv p l r true = Ok (stream spec_c64 (parent_output IV 0 l r) 0 32).
  Proof.
    intros Hl Hr. unfold guts_parent_cv. rewrite rs_IV_is_spec.
    pose proof (wf_parent_output IV 0 eq_refl l r Hl Hr) as Hwf. split.
    - f_equal. apply (wf_chaining_value spec_c8 p POK spec_c8_cip), Hwf.
    - apply (out_root_hash_spec p POK); [exact Hwf|reflexivity].
  Qed.
End Guts.
