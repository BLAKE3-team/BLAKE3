(* Symbolic BLAKE3 trees.  Chaining values are hashes, so "this CV is the CV of
   that subtree" cannot be decided by looking at the bytes; the proofs therefore
   track, next to every list of CVs the models compute, the list of symbolic
   trees those CVs are the values of.  Pairing adjacent trees (pairT) mirrors one
   layer of parent compression; Cond ts t says that repeatedly pairing ts ends in
   the single tree t. *)
From V Require Import Proofs.ListP.
From V Require Import Base.Res Base.Word Spec.Compress Spec.Tree.
Open Scope N_scope.

Inductive tree :=
| Leaf (ctr : N) (bytes : list N)
| Node (l r : tree).

Fixpoint pairT (ts : list tree) : list tree :=
  match ts with
  | a :: b :: tl => Node a b :: pairT tl
  | _ => ts
  end.

Fixpoint iterP (m : nat) (ts : list tree) : list tree :=
  match m with O => ts | S m' => pairT (iterP m' ts) end.

Definition Cond (ts : list tree) (t : tree) : Prop := exists m, iterP m ts = [t].

Lemma pairT_length : forall ts, length (pairT ts) = Nat.div (length ts + 1) 2.
Proof.
  fix IH 1. intros [|a [|b tl]]; [reflexivity|reflexivity|].
  cbn [pairT length]. rewrite IH.
  replace (S (S (length tl)) + 1)%nat with (length tl + 1 + 1 * 2)%nat by lia.
  rewrite Nat.div_add by lia. lia.
Qed.

Lemma pairT_app : forall L R, Nat.even (length L) = true -> pairT (L ++ R) = pairT L ++ pairT R.
Proof.
  fix IH 1. intros [|a [|b tl]] R H; [reflexivity|discriminate|].
  cbn [app pairT]. f_equal. apply IH. exact H.
Qed.

Lemma iter_pairT_single m t : iterP m [t] = [t].
Proof. induction m as [|m IH]; [reflexivity|]. cbn [iterP]. rewrite IH. reflexivity. Qed.

Lemma iter_S_inner m x : iterP (S m) x = iterP m (pairT x).
Proof. induction m as [|m IH]; [reflexivity|]. cbn [iterP] in *. rewrite IH. reflexivity. Qed.

Lemma Cond_single t : Cond [t] t.
Proof. exists 0%nat. reflexivity. Qed.

Lemma Cond_single_inv x t : Cond [x] t -> x = t.
Proof. intros [m H]. rewrite iter_pairT_single in H. injection H as H. exact H. Qed.

Lemma Cond_pairT ts t : Cond ts t -> Cond (pairT ts) t.
Proof.
  intros [[|k] Hk].
  - cbn [iterP] in Hk. rewrite Hk. apply Cond_single.
  - exists k. rewrite <- iter_S_inner. exact Hk.
Qed.

Lemma Cond_unpair ts t : Cond (pairT ts) t -> Cond ts t.
Proof. intros [k Hk]. exists (S k). rewrite iter_S_inner. exact Hk. Qed.

(* One layer of pairing halves both parts and keeps them apart, since the left one has even length. *)
Lemma Cond_join a L R tl tr :
  length L = (2 ^ a)%nat -> (1 <= length R <= 2 ^ a)%nat -> Cond L tl -> Cond R tr ->
  Cond (L ++ R) (Node tl tr).
Proof.
  revert L R. induction a as [|a IH]; intros L R HL HR CL CR.
  - destruct L as [|x [|? ?]]; try discriminate. destruct R as [|y [|? ?]]; cbn [length] in HR; try lia.
    rewrite (Cond_single_inv x tl CL), (Cond_single_inv y tr CR). exists 1%nat. reflexivity.
  - rewrite Nat.pow_succ_r' in HL, HR. apply Cond_unpair. rewrite pairT_app.
    2:{ rewrite HL, Nat.even_mul. reflexivity. }
    apply IH; try (apply Cond_pairT; assumption); rewrite pairT_length; lia.
Qed.

Lemma Cond_join_N a L R tl tr :
  N.of_nat (length L) = 2 ^ a -> 1 <= N.of_nat (length R) <= 2 ^ a -> Cond L tl -> Cond R tr ->
  Cond (L ++ R) (Node tl tr).
Proof.
  intros HL HR. assert (Hp : N.of_nat (2 ^ N.to_nat a) = 2 ^ a) by (rewrite Nat2N.inj_pow, N2Nat.id; reflexivity).
  apply (Cond_join (N.to_nat a)); lia.
Qed.

Section TreeEval.
  Variable c8 : list N -> list N -> N -> N -> N -> list N.
  Variables (K : list N) (F : N).

  Fixpoint tree_cv (t : tree) : list N :=
    chaining_value c8
      (match t with
       | Leaf c b => chunk_output c8 K F c b
       | Node l r => parent_output K F (tree_cv l) (tree_cv r)
       end).

  Definition tree_out (t : tree) : output :=
    match t with
    | Leaf c b => chunk_output c8 K F c b
    | Node l r => parent_output K F (tree_cv l) (tree_cv r)
    end.

  Lemma tree_cv_out t : tree_cv t = chaining_value c8 (tree_out t).
  Proof. destruct t; reflexivity. Qed.

  (* the shape of subtree_output (Spec/Tree.v): the same recursion with the compressions left out, so none of the
     section's variables occurs in it *)
  Fixpoint spec_tree (h : nat) (ctr : N) (bytes : list N) : tree :=
    match h with
    | O => Leaf ctr bytes
    | S h' =>
        if len bytes <=? 1024 then Leaf ctr bytes
        else let l := left_len (len bytes) in
             Node (spec_tree h' ctr (take l bytes)) (spec_tree h' (ctr + l / 1024) (drop l bytes))
    end.

  Lemma subtree_output_tree h : forall ctr bytes,
    subtree_output c8 h K F ctr bytes = tree_out (spec_tree h ctr bytes).
  Proof.
    induction h as [|h IH]; intros ctr bytes; [reflexivity|].
    cbn [subtree_output spec_tree]. destruct (len bytes <=? 1024); [reflexivity|].
    cbn [tree_out]. rewrite !tree_cv_out, !IH. reflexivity.
  Qed.
End TreeEval.

Lemma subtree_output_unfold c8 h K F ctr bytes :
  subtree_output c8 (S h) K F ctr bytes =
  if len bytes <=? 1024 then chunk_output c8 K F ctr bytes
  else let l := left_len (len bytes) in
       parent_output K F
         (chaining_value c8 (subtree_output c8 h K F ctr (take l bytes)))
         (chaining_value c8 (subtree_output c8 h K F (ctr + l / 1024) (drop l bytes))).
Proof. reflexivity. Qed.

Lemma spec_tree_unfold h ctr bytes :
  spec_tree (S h) ctr bytes =
  if len bytes <=? 1024 then Leaf ctr bytes
  else let l := left_len (len bytes) in
       Node (spec_tree h ctr (take l bytes)) (spec_tree h (ctr + l / 1024) (drop l bytes)).
Proof. reflexivity. Qed.

Lemma tree_height_S : tree_height = S 63.
Proof. reflexivity. Qed.

(* the chunks of n bytes, the last one possibly short.  chunks 0 = 0, while the empty input is hashed as one empty
   chunk: where it stands for the chunks of an input (WideP.leaves_cond, wide_spec), 0 < n is a hypothesis *)
Definition chunks (n : N) : N := (n + 1023) / 1024.

Lemma left_len_spec n : 1024 < n ->
  exists a, left_len n = 1024 * 2 ^ a /\ 1024 * 2 ^ a < n <= 1024 * 2 ^ (a + 1).
Proof.
  intros H. unfold left_len. set (q := (n - 1) / 1024).
  assert (Hq : 0 < q) by (unfold q; lia).
  exists (N.log2 q). split; [reflexivity|].
  pose proof (N.log2_spec q Hq) as [H1 H2].
  rewrite N.add_1_r. unfold q in *. lia.
Qed.

Lemma left_len_split n : 1024 < n ->
  exists a, left_len n = 1024 * 2 ^ a /\ 1024 * 2 ^ a < n <= 2 * (1024 * 2 ^ a).
Proof.
  intros H. destruct (left_len_spec n H) as (a & Hl & Hlo & Hhi). exists a.
  rewrite N.add_1_r, N.pow_succ_r' in Hhi. lia.
Qed.

Lemma left_len_eq n a : 1024 * 2 ^ a < n -> n <= 2 * (1024 * 2 ^ a) -> left_len n = 1024 * 2 ^ a.
Proof.
  intros H1 H2. pose proof (pow2_pos a) as Hp.
  destruct (left_len_split n ltac:(lia)) as (b & Hl & Hb). rewrite Hl.
  assert (Hab : 2 ^ a <= 2 ^ b /\ 2 ^ b <= 2 ^ a) by (split; apply pow2_lt_le; lia). lia.
Qed.

Lemma chunks_pow2 k : chunks (1024 * 2 ^ k) = 2 ^ k.
Proof.
  unfold chunks. replace (1024 * 2 ^ k + 1023) with (1023 + 2 ^ k * 1024) by lia.
  rewrite N.div_add by lia. reflexivity.
Qed.

Lemma chunks_split a n : 1024 * 2 ^ a < n <= 2 * (1024 * 2 ^ a) ->
  chunks n = 2 ^ a + chunks (n - 1024 * 2 ^ a) /\ 1 <= chunks (n - 1024 * 2 ^ a) <= 2 ^ a.
Proof.
  intros H. unfold chunks.
  replace (n + 1023) with (n - 1024 * 2 ^ a + 1023 + 2 ^ a * 1024) by lia.
  rewrite N.div_add by lia. lia.
Qed.

Lemma spec_tree_split h ctr bs : 1024 < len bs -> len bs <= 1024 * 2 ^ N.of_nat (S h) ->
  exists a, left_len (len bs) = 1024 * 2 ^ a /\ 2 ^ a <= 2 ^ N.of_nat h /\
    1024 * 2 ^ a < len bs <= 2 * (1024 * 2 ^ a) /\
    spec_tree (S h) ctr bs =
    Node (spec_tree h ctr (take (1024 * 2 ^ a) bs)) (spec_tree h (ctr + 2 ^ a) (drop (1024 * 2 ^ a) bs)).
Proof.
  intros Hlo Hhi. destruct (left_len_split _ Hlo) as (a & Hl & Ha). exists a.
  rewrite Nat2N.inj_succ, N.pow_succ_r' in Hhi.
  split; [exact Hl|]. split; [apply pow2_lt_le; lia|]. split; [exact Ha|].
  rewrite spec_tree_unfold. replace (len bs <=? 1024) with false by lia.
  cbn zeta. rewrite Hl, mul_div_l by lia. reflexivity.
Qed.

Lemma spec_tree_leaf h ctr bs : len bs <= 1024 -> spec_tree h ctr bs = Leaf ctr bs.
Proof.
  intros H. destruct h as [|h]; [reflexivity|]. rewrite spec_tree_unfold.
  replace (len bs <=? 1024) with true by lia. reflexivity.
Qed.

Lemma spec_tree_fuel : forall h1 h2 ctr bytes,
  len bytes <= 1024 * 2 ^ N.of_nat h1 -> len bytes <= 1024 * 2 ^ N.of_nat h2 ->
  spec_tree h1 ctr bytes = spec_tree h2 ctr bytes.
Proof.
  induction h1 as [|h1 IH]; intros h2 ctr bytes H1 H2.
  - change (2 ^ N.of_nat 0) with 1 in H1. rewrite !spec_tree_leaf by lia. reflexivity.
  - destruct (N.le_gt_cases (len bytes) 1024) as [E|E]; [rewrite !spec_tree_leaf by lia; reflexivity|].
    destruct h2 as [|h2]; [change (2 ^ N.of_nat 0) with 1 in H2; lia|].
    destruct (spec_tree_split h1 ctr bytes E H1) as (a & Hl & Hp1 & Ha & ->).
    destruct (spec_tree_split h2 ctr bytes E H2) as (a2 & Hl2 & Hp2 & _ & ->).
    assert (E2 : 2 ^ a2 = 2 ^ a) by lia. rewrite E2 in *.
    f_equal; apply IH; rewrite ?len_take, ?len_drop; lia.
Qed.

Lemma spec_tree_node h ctr bs : 1024 < len bs -> len bs <= 1024 * 2 ^ N.of_nat h ->
  spec_tree h ctr bs = Node (spec_tree h ctr (take (left_len (len bs)) bs))
                            (spec_tree h (ctr + left_len (len bs) / 1024) (drop (left_len (len bs)) bs)).
Proof.
  intros Hlo Hhi. destruct h as [|h]; [change (2 ^ N.of_nat 0) with 1 in Hhi; lia|].
  destruct (spec_tree_split h ctr bs Hlo Hhi) as (a & -> & Hp & Ha & ->). rewrite mul_div_l by lia.
  f_equal; apply spec_tree_fuel; rewrite ?len_take, ?len_drop, ?Nat2N.inj_succ, ?N.pow_succ_r'; lia.
Qed.
