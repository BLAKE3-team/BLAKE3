(* C05: the platform records of Model/Kernels.v satisfy PlatformOK. *)
From Coq Require Import NArith ZArith List Bool Arith Lia.
From V Require Import Base.Res Base.Word Base.MachInt gen.GenConsts gen.GenFormulas
  Spec.Compress Model.Portable Model.Platform Model.Kernels Proofs.PortableP Proofs.ListP Proofs.WordP Proofs.RoundHomP
  Proofs.TransposeP Proofs.KernelsP Proofs.KernelsCascadeP Proofs.KernelsRowsP Proofs.KernelsXofP.
Import ListNotations.
Open Scope N_scope.

Lemma inputs_ok_uniform inputs : inputs_ok inputs = true -> uniform inputs.
Proof.
  intros H i Hi. unfold inputs_ok in H. rewrite forallb_forall in H.
  specialize (H i Hi). apply andb_true_iff in H. destruct H as [H1 H2].
  apply Nat.eqb_eq in H1. apply Nat.eqb_eq in H2.
  unfold blocks_of. rewrite <- H1.
  apply Nat.mod_divides in H2; [|discriminate]. destruct H2 as [c Hc]. rewrite Hc.
  rewrite Nat.mul_comm, Nat.div_mul by discriminate. reflexivity.
Qed.

Lemma guard_hm_ok extra k : hm_rs_ok extra k ->
  forall inputs key ctr incr fl fs fe cap, ctr + N.of_nat (length inputs) < 2 ^ 64 ->
    guard_hm extra k inputs key ctr incr fl fs fe cap = hash_many inputs key ctr incr fl fs fe cap.
Proof.
  intros Hk inputs key ctr incr fl fs fe cap Hc. unfold guard_hm.
  destruct (cv_ok key) eqn:A; [|reflexivity]. destruct (inputs_ok inputs) eqn:B; [|reflexivity].
  destruct (extra inputs cap) eqn:C; [|reflexivity]. cbn [andb].
  apply Hk; try assumption.
  - apply Nat.eqb_eq. exact A.
  - apply inputs_ok_uniform. exact B.
Qed.

Lemma xof_many_loop_ext cx cx' cv block bl fl :
  (forall c, cx cv block bl c fl = cx' cv block bl c fl) ->
  forall n c, xof_many_loop cx cv block bl c fl n = xof_many_loop cx' cv block bl c fl n.
Proof.
  intros H. induction n as [|n IH]; intros c; [reflexivity|].
  cbn [xof_many_loop]. rewrite H. destruct (mi_add 64 c 1); cbn [bind]; try reflexivity.
  rewrite IH. reflexivity.
Qed.

Lemma guard_xm_ok x : (forall cv block bl ctr fl n, length cv = 8%nat -> ctr + n < 2 ^ 64 ->
     x cv block bl ctr fl n = portable_xof_many cv block bl ctr fl n) ->
  forall cv block bl ctr fl n, ctr + n < 2 ^ 64 -> guard_xm x cv block bl ctr fl n = portable_xof_many cv block bl ctr fl n.
Proof.
  intros Hx cv block bl ctr fl n Hc. unfold guard_xm, cv_ok.
  destruct (Nat.eqb_spec (length cv) 8) as [E|E]; [apply Hx; assumption|reflexivity].
Qed.

Lemma xof_generic_rows_ok cv block bl ctr fl n : length cv = 8%nat -> ctr + n < 2 ^ 64 ->
  xof_many_generic compress_xof_rows cv block bl ctr fl n = portable_xof_many cv block bl ctr fl n.
Proof. intros E _. apply xof_many_loop_ext. intros c. apply compress_xof_rows_ok, E. Qed.

(* the records of Model/Kernels.v section 9: row kernels for one block, a guarded many-input kernel and a guarded
   output kernel, each equal to the portable function inside the argument types.  Outside them (a cv that is not 8
   words, inputs of unequal lengths) a guard takes its portable branch: that is why PlatformOK, which quantifies over
   all lists, holds of records whose kernels are only specified on the argument types *)
Lemma rows_platform_ok d extra k x : In d [4; 8; 16] -> hm_rs_ok extra k ->
  (forall cv block bl ctr fl n, length cv = 8%nat -> ctr + n < 2 ^ 64 ->
     x cv block bl ctr fl n = portable_xof_many cv block bl ctr fl n) ->
  PlatformOK (mkPlatform d 16 cip_rows cx_rows (guard_hm extra k) (guard_xm x)).
Proof.
  intros Hd Hk Hx.
  constructor; cbn [p_degree p_max_degree p_compress_in_place p_compress_xof p_hash_many p_xof_many];
    [| |lia|reflexivity|exact cip_rows_total|exact cx_rows_total|intros; apply guard_hm_ok; assumption|apply guard_xm_ok, Hx].
  - cbn [In] in Hd. destruct Hd as [<-|[<-|[<-|[]]]]; reflexivity.
  - cbn [In] in Hd. destruct Hd as [<-|[<-|[<-|[]]]]; lia.
Qed.

Definition hm_dom (inputs : list (list N)) (key : list N) (ctr : N) : Prop :=
  length key = 8%nat /\ uniform inputs /\ ctr + N.of_nat (length inputs) < 2 ^ 64.

Theorem hash_many_sse41_ok inputs key ctr incr fl fs fe cap : hm_dom inputs key ctr ->
  hash_many_rs4 (load_counters_rs 4) compress_in_place_rows inputs key ctr incr fl fs fe cap =
  hash_many inputs key ctr incr fl fs fe cap.
Proof. intros (A & B & C). apply hash_many_rs4_ok; try assumption; [apply load_counters_rs_ok|exact cip_ok_rows|reflexivity]. Qed.

(* rust_sse2.rs has the same hash_many as rust_sse41.rs *)
Theorem hash_many_sse2_ok inputs key ctr incr fl fs fe cap : hm_dom inputs key ctr ->
  hash_many_rs4 (load_counters_rs 4) compress_in_place_rows inputs key ctr incr fl fs fe cap =
  hash_many inputs key ctr incr fl fs fe cap.
Proof. exact (hash_many_sse41_ok inputs key ctr incr fl fs fe cap). Qed.

Theorem hash_many_avx2_ok inputs key ctr incr fl fs fe cap : hm_dom inputs key ctr ->
  hash_many_rs8 (load_counters_rs 8) (load_counters_rs 4) compress_in_place_rows inputs key ctr incr fl fs fe cap =
  hash_many inputs key ctr incr fl fs fe cap.
Proof.
  intros (A & B & C). apply hash_many_rs8_ok; try assumption;
    [apply load_counters_rs_ok|apply load_counters_rs_ok|exact cip_ok_rows|reflexivity].
Qed.

Theorem hash_many_avx512_ok inputs key ctr incr fl fs fe cap : hm_dom inputs key ctr ->
  N.of_nat (length inputs) <= cap ->
  ffi_hash_many (hash_many_c16 compress_in_place_rows) inputs key ctr incr fl fs fe cap =
  hash_many inputs key ctr incr fl fs fe cap.
Proof. intros (A & B & C) D. apply (ffi_hash_many_ok _ (hash_many_c16_ok _ cip_ok_rows)); try assumption. apply N.leb_le, D. Qed.

Theorem hash_many_sse41_c_ok inputs key ctr incr fl fs fe cap : hm_dom inputs key ctr ->
  N.of_nat (length inputs) <= cap ->
  ffi_hash_many (hash_many_c4 (load_counters_cmp 4) compress_in_place_rows) inputs key ctr incr fl fs fe cap =
  hash_many inputs key ctr incr fl fs fe cap.
Proof.
  intros (A & B & C) D. apply ffi_hash_many_ok; try assumption; [|apply N.leb_le, D].
  apply hash_many_c4_ok; [apply load_counters_cmp_ok; cbn; lia|exact cip_ok_rows].
Qed.

Theorem hash_many_avx2_c_ok inputs key ctr incr fl fs fe cap : hm_dom inputs key ctr ->
  N.of_nat (length inputs) <= cap ->
  ffi_hash_many (hash_many_c8 (load_counters_cmp 8) (load_counters_cmp 4) compress_in_place_rows)
                inputs key ctr incr fl fs fe cap =
  hash_many inputs key ctr incr fl fs fe cap.
Proof.
  intros (A & B & C) D. apply ffi_hash_many_ok; try assumption; [|apply N.leb_le, D].
  apply hash_many_c8_ok; [apply load_counters_cmp_ok; cbn; lia|apply load_counters_cmp_ok; cbn; lia|exact cip_ok_rows].
Qed.

Theorem sse41_platform_ok : PlatformOK sse41_platform.
Proof.
  apply rows_platform_ok; [cbn; auto| |exact xof_generic_rows_ok].
  apply hash_many_rs4_ok; [apply load_counters_rs_ok|exact cip_ok_rows].
Qed.

Theorem sse2_platform_ok : PlatformOK sse2_platform.
Proof. exact sse41_platform_ok. Qed.

Theorem avx2_platform_ok : PlatformOK avx2_platform.
Proof.
  apply rows_platform_ok; [cbn; auto| |exact xof_generic_rows_ok].
  apply hash_many_rs8_ok; [apply load_counters_rs_ok|apply load_counters_rs_ok|exact cip_ok_rows].
Qed.

Theorem sse41_ffi_platform_ok : PlatformOK sse41_ffi_platform.
Proof.
  apply rows_platform_ok; [cbn; auto| |exact xof_generic_rows_ok].
  apply ffi_hash_many_ok, hash_many_c4_ok; [apply load_counters_cmp_ok; cbn; lia|exact cip_ok_rows].
Qed.

Theorem avx2_ffi_platform_ok : PlatformOK avx2_ffi_platform.
Proof.
  apply rows_platform_ok; [cbn; auto| |exact xof_generic_rows_ok].
  apply ffi_hash_many_ok, hash_many_c8_ok; [apply load_counters_cmp_ok; cbn; lia|apply load_counters_cmp_ok; cbn; lia|exact cip_ok_rows].
Qed.

Theorem avx512_platform_ok : PlatformOK avx512_platform.
Proof.
  apply rows_platform_ok; [cbn; auto| |intros; apply xof_many_avx512_rs_ok; [exact cx_ok_rows|assumption..]].
  apply ffi_hash_many_ok, hash_many_c16_ok, cip_ok_rows.
Qed.
