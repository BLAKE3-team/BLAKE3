(* The row-vectorised single-block compression as TRANSLATED from the sources (gen/GenRows.v, terms over
   Model/Intrinsics.v): g1, g2, diagonalize, undiagonalize, compress_pre, compress_in_place, compress_xof of
   src/rust_sse41.rs, src/rust_sse2.rs, c/blake3_sse2.c, c/blake3_sse41.c, c/blake3_avx512.c equal the hand-written
   models of Model/Kernels.v (g1r, g2r, diagonalize, undiagonalize, compress_pre_rows,
   compress_in_place_rows, compress_xof_rows), which Proofs/KernelsRowsP.v proves equal to the portable compression.
   Everything is symbolic: cv, block, counter, block_len, flags and all registers are variables.
   Domain (`row_dom`): cv is 8 words below 2^32, block is 64 bytes below 256, block_len and flags are below 2^32
   (they are u8 / uint8_t in the sources).  g1 / g2 / diagonalize / undiagonalize of the Rust files and of
   blake3_avx512.c equal the models on all lists; those of blake3_sse2.c / blake3_sse41.c (byte / 16-bit shuffles,
   shift pairs joined by XOR) on registers of 32-bit lanes. *)
From Coq Require Import NArith ZArith List Bool Arith Lia.
From V Require Import Base.Res Base.Word Base.MachInt gen.GenConsts gen.GenFormulas Model.Portable Model.Kernels
  Model.Intrinsics gen.GenCounters gen.GenRounds gen.GenRows Proofs.ListP Proofs.KernelsP Proofs.KernelsRowsP Proofs.CountersP Proofs.RoundsP Proofs.BlendP Proofs.WordP.
Import ListNotations.
Open Scope N_scope.

Lemma halves_id x : W x -> N.lor (N.land x 65535) (N.shiftl (N.land (N.shiftr x 16) 65535) 16) = x.
Proof. intros Hx. bitblast [16; 32]. Qed.

Lemma W_byte_n x i : W (byte_n x i).
Proof. pose proof (byte_n_lt x i). unfold W. lia. Qed.

Ltac explicit l n H := lanes_of l n H; forall_inv.

Definition reg4x4 (r : rows) : Prop := let '(a, b, c, d) := r in reg 4 a /\ reg 4 b /\ reg 4 c /\ reg 4 d.
Definition reg4x3 (r : vec * vec * vec) : Prop := let '(a, b, c) := r in reg 4 a /\ reg 4 b /\ reg 4 c.

Lemma g1r_reg a b c d m : reg 4 a -> reg 4 b -> reg 4 c -> reg 4 d -> reg 4 m -> reg4x4 (g1r a b c d m).
Proof.
  intros Ha Hb Hc Hd Hm. unfold g1r, reg4x4. cbv zeta.
  refine (conj _ (conj _ (conj _ _))); repeat first [ assumption | apply reg_vadd | apply reg_vxor | apply reg_vrot ].
Qed.
Lemma g2r_reg a b c d m : reg 4 a -> reg 4 b -> reg 4 c -> reg 4 d -> reg 4 m -> reg4x4 (g2r a b c d m).
Proof.
  intros Ha Hb Hc Hd Hm. unfold g2r, reg4x4. cbv zeta.
  refine (conj _ (conj _ (conj _ _))); repeat first [ assumption | apply reg_vadd | apply reg_vxor | apply reg_vrot ].
Qed.

Ltac reg4_explicit :=
  repeat match goal with
  | H : reg 4 ?x |- _ => let L := fresh "L" in let F := fresh "F" in destruct H as [L F]; explicit x 4%nat L
  end.
Ltac reg4_done := split; [reflexivity | repeat constructor; assumption].

Lemma ln_W a k : Forall W a -> W (ln 0 a k).
Proof.
  intros H. unfold ln. apply nth_Forall; [exact H|reflexivity].
Qed.
Lemma shuffle2_reg a b z y x w : reg 4 a -> reg 4 b -> reg 4 (shuffle2 0 a b z y x w).
Proof. intros [_ Ha] [_ Hb]. split; [reflexivity|]. unfold shuffle2. repeat constructor; apply ln_W; assumption. Qed.
Lemma shuffle_epi32_reg a z y x w : reg 4 a -> reg 4 (shuffle_epi32 0 a z y x w).
Proof. intros [_ Ha]. split; [reflexivity|]. unfold shuffle_epi32. repeat constructor; apply ln_W; assumption. Qed.
(* BlendP.lanes32 is reg 4 (2 ^ 32 computes to the numeral of W) *)
Lemma blend_reg a b imm : reg 4 a -> reg 4 b -> reg 4 (blend_epi16 0 a b imm).
Proof. exact (blend_lanes32 a b imm). Qed.
Lemma unpacklo64_reg a b : reg 4 a -> reg 4 b -> reg 4 (unpacklo64 0 a b).
Proof. intros Ha Hb. reg4_explicit. reg4_done. Qed.
Lemma unpackhi32_reg a b : reg 4 a -> reg 4 b -> reg 4 (unpackhi32 0 a b).
Proof. intros Ha Hb. reg4_explicit. reg4_done. Qed.
Lemma unpacklo32_reg a b : reg 4 a -> reg 4 b -> reg 4 (unpacklo32 0 a b).
Proof. intros Ha Hb. reg4_explicit. reg4_done. Qed.

Lemma diagonalize_reg a b c : reg 4 a -> reg 4 b -> reg 4 c -> reg4x3 (diagonalize a b c).
Proof. intros Ha Hb Hc. unfold diagonalize, reg4x3. refine (conj _ (conj _ _)); apply shuffle_epi32_reg; assumption. Qed.
Lemma undiagonalize_reg a b c : reg 4 a -> reg 4 b -> reg 4 c -> reg4x3 (undiagonalize a b c).
Proof. intros Ha Hb Hc. unfold undiagonalize, reg4x3. refine (conj _ (conj _ _)); apply shuffle_epi32_reg; assumption. Qed.

Ltac reg_closure :=
  solve [repeat first [ assumption
                      | apply shuffle2_reg | apply shuffle_epi32_reg
                      | apply blend_reg
                      | apply unpacklo64_reg | apply unpackhi32_reg | apply unpacklo32_reg
                      | apply reg_vadd | apply reg_vxor | apply reg_vrot ]].

(* _mm_shuffle_epi32, shuffle2! / _mm_shuffle_ps2 (casts around _mm_shuffle_ps), the unpacks: with a literal
   immediate they compute to the model shuffle (`reflexivity` in the lockstep below).  For instance: *)
Lemma shuffle_epi32_c_ok a : mm_shuffle_epi32 a (MM_SHUFFLE 2 1 0 3)%Z = shuffle_epi32 0 a 2 1 0 3.
Proof. reflexivity. Qed.
Lemma shuffle_epi32_rs_ok a :
  mm_shuffle_epi32 a (Z.lor (Z.lor (Z.lor (Z.shiftl 2 6) (Z.shiftl 1 4)) (Z.shiftl 0 2)) 3)%Z = shuffle_epi32 0 a 2 1 0 3.
Proof. reflexivity. Qed.
Lemma shuffle_ps_c_ok a b :
  mm_castps_si128 (mm_shuffle_ps (mm_castsi128_ps a) (mm_castsi128_ps b) (MM_SHUFFLE 3 1 1 2)%Z) = shuffle2 0 a b 3 1 1 2.
Proof. reflexivity. Qed.

(* _mm_blend_epi16 works on 16-bit elements; 0xCC and 0xC0 select both halves of a 32-bit lane alike *)
Ltac blend_bits c :=
  let go j := (let b := eval vm_compute in (N.testbit c (N.of_nat j)) in change (N.testbit c (N.of_nat j)) with b) in
  go 0%nat; go 1%nat; go 2%nat; go 3%nat; go 4%nat; go 5%nat; go 6%nat; go 7%nat.
Lemma blend_cc_ok a b : reg 4 a -> reg 4 b -> mm_blend_epi16 a b 0xcc%Z = blend_epi16 0 a b 0xCC.
Proof.
  intros Ha Hb. reg4_explicit. unfold mm_blend_epi16. change (imm8 204) with 204.
  cbv zeta. cbn [to16 flat_map app seq map].
  blend_bits 204. cbv iota. cbn [nth of16]. rewrite !halves_id by assumption. reflexivity.
Qed.
Lemma blend_c0_ok a b : reg 4 a -> reg 4 b -> mm_blend_epi16 a b 0xc0%Z = blend_epi16 0 a b 0xC0.
Proof.
  intros Ha Hb. reg4_explicit. unfold mm_blend_epi16. change (imm8 192) with 192.
  cbv zeta. cbn [to16 flat_map app seq map].
  blend_bits 192. cbv iota. cbn [nth of16]. rewrite !halves_id by assumption. reflexivity.
Qed.

(* the SSE2 emulation: mask = cmpeq16(set1_16(imm) & bits, bits), (mask & b) | (andnot mask a) *)
Lemma sse2_blend_lanes (m0 m1 m2 m3 : N) a b : reg 4 a -> reg 4 b ->
  mm_or_si128 (mm_and_si128 [m0; m1; m2; m3] b) (mm_andnot_si128 [m0; m1; m2; m3] a) =
  map (fun k => N.lor (N.land (nth k [m0; m1; m2; m3] 0) (ln 0 b k))
                      (N.land (N.lxor (nth k [m0; m1; m2; m3] 0) mask32) (ln 0 a k))) [0; 1; 2; 3]%nat.
Proof. intros Ha Hb. reg4_explicit. reflexivity. Qed.
Lemma sse2_blend_select (m0 m1 m2 m3 : N) a b imm : reg 4 a -> reg 4 b ->
  (forall k, (k < 4)%nat -> nth k [m0; m1; m2; m3] 0 = if N.testbit imm (N.of_nat (2 * k)) then mask32 else 0) ->
  mm_or_si128 (mm_and_si128 [m0; m1; m2; m3] b) (mm_andnot_si128 [m0; m1; m2; m3] a) = blend_epi16 0 a b imm.
Proof.
  intros Ha Hb Hm. rewrite sse2_blend_lanes by assumption. destruct Ha as [_ Wa], Hb as [_ Wb]. unfold blend_epi16.
  apply map_ext_in. intros k Hk.
  apply blend_lane; [apply ln_W, Wa|apply ln_W, Wb|].
  apply Hm. cbn [In] in Hk. destruct Hk as [<-|[<-|[<-|[<-|[]]]]]; lia.
Qed.
Ltac four_cases k := do 4 (destruct k as [|k]; [vm_compute; reflexivity|]); lia.

(* Round 1 of compress_pre, in source order (continuation k: the rest of the function) *)
Definition flat_round1 {B} (row0 row1 row2 row3 m0 m1 m2 m3 : vec)
    (k : vec -> vec -> vec -> vec -> vec -> vec -> vec -> vec -> B) : B :=
  let t0 := shuffle2 0 m0 m1 2 0 2 0 in
  let '(row0, row1, row2, row3) := g1r row0 row1 row2 row3 t0 in
  let t1 := shuffle2 0 m0 m1 3 1 3 1 in
  let '(row0, row1, row2, row3) := g2r row0 row1 row2 row3 t1 in
  let '(row0, row2, row3) := diagonalize row0 row2 row3 in
  let t2 := shuffle2 0 m2 m3 2 0 2 0 in
  let t2 := shuffle_epi32 0 t2 2 1 0 3 in
  let '(row0, row1, row2, row3) := g1r row0 row1 row2 row3 t2 in
  let t3 := shuffle2 0 m2 m3 3 1 3 1 in
  let t3 := shuffle_epi32 0 t3 2 1 0 3 in
  let '(row0, row1, row2, row3) := g2r row0 row1 row2 row3 t3 in
  let '(row0, row2, row3) := undiagonalize row0 row2 row3 in
  let m0 := t0 in
  let m1 := t1 in
  let m2 := t2 in
  let m3 := t3 in
  k row0 row1 row2 row3 m0 m1 m2 m3.
(* Rounds 2 .. 7, up to undiagonalize *)
Definition flat_round_body {B} (row0 row1 row2 row3 m0 m1 m2 m3 : vec)
    (k : vec -> vec -> vec -> vec -> vec -> vec -> vec -> vec -> B) : B :=
  let t0 := shuffle2 0 m0 m1 3 1 1 2 in
  let t0 := shuffle_epi32 0 t0 0 3 2 1 in
  let '(row0, row1, row2, row3) := g1r row0 row1 row2 row3 t0 in
  let t1 := shuffle2 0 m2 m3 3 3 2 2 in
  let tt := shuffle_epi32 0 m0 0 0 3 3 in
  let t1 := blend_epi16 0 tt t1 0xCC in
  let '(row0, row1, row2, row3) := g2r row0 row1 row2 row3 t1 in
  let '(row0, row2, row3) := diagonalize row0 row2 row3 in
  let t2 := unpacklo64 0 m3 m1 in
  let tt := blend_epi16 0 t2 m2 0xC0 in
  let t2 := shuffle_epi32 0 tt 1 3 2 0 in
  let '(row0, row1, row2, row3) := g1r row0 row1 row2 row3 t2 in
  let t3 := unpackhi32 0 m1 m3 in
  let tt := unpacklo32 0 m2 t3 in
  let t3 := shuffle_epi32 0 tt 0 1 3 2 in
  let '(row0, row1, row2, row3) := g2r row0 row1 row2 row3 t3 in
  let '(row0, row2, row3) := undiagonalize row0 row2 row3 in
  k row0 row1 row2 row3 t0 t1 t2 t3.
(* Rounds 2 .. 6 end with m0 = t0; m1 = t1; m2 = t2; m3 = t3 *)
Definition flat_roundn {B} (row0 row1 row2 row3 m0 m1 m2 m3 : vec)
    (k : vec -> vec -> vec -> vec -> vec -> vec -> vec -> vec -> B) : B :=
  flat_round_body row0 row1 row2 row3 m0 m1 m2 m3 (fun row0 row1 row2 row3 t0 t1 t2 t3 =>
    let m0 := t0 in
    let m1 := t1 in
    let m2 := t2 in
    let m3 := t3 in
    k row0 row1 row2 row3 m0 m1 m2 m3).
(* the seven rounds; `fin`: what the function does with the four rows *)
Definition flat_pre {B} (fin : vec -> vec -> vec -> vec -> B) (row0 row1 row2 row3 m0 m1 m2 m3 : vec) : B :=
  flat_round1 row0 row1 row2 row3 m0 m1 m2 m3 (fun row0 row1 row2 row3 m0 m1 m2 m3 =>
  flat_roundn row0 row1 row2 row3 m0 m1 m2 m3 (fun row0 row1 row2 row3 m0 m1 m2 m3 =>
  flat_roundn row0 row1 row2 row3 m0 m1 m2 m3 (fun row0 row1 row2 row3 m0 m1 m2 m3 =>
  flat_roundn row0 row1 row2 row3 m0 m1 m2 m3 (fun row0 row1 row2 row3 m0 m1 m2 m3 =>
  flat_roundn row0 row1 row2 row3 m0 m1 m2 m3 (fun row0 row1 row2 row3 m0 m1 m2 m3 =>
  flat_roundn row0 row1 row2 row3 m0 m1 m2 m3 (fun row0 row1 row2 row3 m0 m1 m2 m3 =>
  flat_round_body row0 row1 row2 row3 m0 m1 m2 m3 (fun row0 row1 row2 row3 _ _ _ _ =>
  fin row0 row1 row2 row3))))))).
Definition flat_compress_pre {B} (fin : vec -> vec -> vec -> vec -> B) (cv block : list N) (bl ctr fl : N) : B :=
  let row0 := firstn 4 cv in
  let row1 := firstn 4 (skipn 4 cv) in
  let row2 := [nth 0 rs_IV 0; nth 1 rs_IV 0; nth 2 rs_IV 0; nth 3 rs_IV 0] in
  let row3 := [ctr_lo ctr; ctr_hi ctr; bl; fl] in
  let m0 := loadu 4 block 0 in
  let m1 := loadu 4 block 16 in
  let m2 := loadu 4 block 32 in
  let m3 := loadu 4 block 48 in
  flat_pre fin row0 row1 row2 row3 m0 m1 m2 m3.

(* the g calls, in evaluation order, are the only things that do not compute *)
Ltac destruct_g :=
  repeat match goal with
  | |- context [match ?e with pair _ _ => _ end] =>
      lazymatch e with
      | g1r _ _ _ _ _ => idtac
      | g2r _ _ _ _ _ => idtac
      end; destruct e as [[[? ?] ?] ?]
  end.
Lemma flat_round1_ok {B} r0 r1 r2 r3 m0 m1 m2 m3 (k : vec -> vec -> vec -> vec -> vec -> vec -> vec -> vec -> B) :
  flat_round1 r0 r1 r2 r3 m0 m1 m2 m3 k =
  let '(t0, t1, t2, t3) := msg_round1 (m0, m1, m2, m3) in
  let '(a, b, c, d) := rows_round (r0, r1, r2, r3) (t0, t1, t2, t3) in
  k a b c d t0 t1 t2 t3.
Proof.
  cbv beta iota zeta delta [flat_round1 msg_round1 rows_round diagonalize undiagonalize].
  destruct_g. reflexivity.
Qed.
Lemma flat_round_body_ok {B} r0 r1 r2 r3 m0 m1 m2 m3 (k : vec -> vec -> vec -> vec -> vec -> vec -> vec -> vec -> B) :
  flat_round_body r0 r1 r2 r3 m0 m1 m2 m3 k =
  let '(t0, t1, t2, t3) := msg_next (m0, m1, m2, m3) in
  let '(a, b, c, d) := rows_round (r0, r1, r2, r3) (t0, t1, t2, t3) in
  k a b c d t0 t1 t2 t3.
Proof.
  cbv beta iota zeta delta [flat_round_body msg_next rows_round diagonalize undiagonalize].
  destruct_g. reflexivity.
Qed.

Ltac destruct_round :=
  unfold vec;                       (* one spelling of the type arguments of the tuples on both sides *)
  match goal with
  | |- context [match ?e with pair _ _ => _ end] =>
      lazymatch e with
      | msg_round1 _ => idtac
      | msg_next _ => idtac
      end; destruct e as [[[? ?] ?] ?]
  end;
  unfold vec;
  match goal with
  | |- context [match ?e with pair _ _ => _ end] =>
      lazymatch e with
      | rows_round (pair _ _) _ => idtac        (* the innermost: on explicit rows *)
      end; destruct e as [[[? ?] ?] ?]
  end.
Theorem compress_pre_rows_flat {B} (fin : vec -> vec -> vec -> vec -> B) cv block bl ctr fl :
  (let '(a, b, c, d) := compress_pre_rows cv block bl ctr fl in fin a b c d) = flat_compress_pre fin cv block bl ctr fl.
Proof.
  unfold compress_pre_rows, flat_compress_pre, flat_pre. cbv zeta.
  rewrite flat_round1_ok. destruct_round.
  do 5 (unfold flat_roundn at 1; rewrite flat_round_body_ok; destruct_round).
  rewrite flat_round_body_ok. destruct_round. reflexivity.
Qed.

Definition row_dom (cv block : list N) (bl fl : N) : Prop :=
  length cv = 8%nat /\ Forall W cv /\ length block = 64%nat /\ Forall (fun b => b < 256) block /\ W bl /\ W fl.

Lemma loadu_cv_lo cv : length cv = 8%nat -> Forall W cv -> mm_loadu_si128 (mem_u32 cv) (4 * 0)%nat = firstn 4 cv.
Proof.
  intros L F. explicit cv 8%nat L. unfold mm_loadu_si128, loadu, mem_u32, bytes_of_words.
  cbn [flat_map bytes_of_word app Nat.mul Nat.add skipn firstn words_of_bytes].
  rewrite !word_of_bytes_of_word by assumption. reflexivity.
Qed.
Lemma loadu_cv_hi cv : length cv = 8%nat -> Forall W cv -> mm_loadu_si128 (mem_u32 cv) (4 * 4)%nat = firstn 4 (skipn 4 cv).
Proof.
  intros L F. explicit cv 8%nat L. unfold mm_loadu_si128, loadu, mem_u32, bytes_of_words.
  cbn [flat_map bytes_of_word app Nat.mul Nat.add skipn firstn words_of_bytes].
  rewrite !word_of_bytes_of_word by assumption. reflexivity.
Qed.
Lemma W_ctr_lo c : W (ctr_lo c).
Proof. rewrite <- w32_ctr_lo. apply W_w32. Qed.
Lemma W_ctr_hi c : W (ctr_hi c).
Proof. rewrite <- w32_ctr_hi. apply W_w32. Qed.
Lemma row_dom_regs cv block bl ctr fl : row_dom cv block bl fl ->
  reg 4 (firstn 4 cv) /\ reg 4 (firstn 4 (skipn 4 cv)) /\
  reg 4 [nth 0 rs_IV 0; nth 1 rs_IV 0; nth 2 rs_IV 0; nth 3 rs_IV 0] /\ reg 4 [ctr_lo ctr; ctr_hi ctr; bl; fl] /\
  reg 4 (loadu 4 block 0) /\ reg 4 (loadu 4 block 16) /\ reg 4 (loadu 4 block 32) /\ reg 4 (loadu 4 block 48).
Proof.
  intros (Lcv & Wcv & Lb & Bb & Hbl & Hfl).
  assert (M : forall off, (off + 16 <= 64)%nat -> reg 4 (loadu 4 block off)).
  { intros off Ho. unfold loadu. split.
    - assert (Lf : length (firstn (4 * 4) (skipn off block)) = 16%nat) by (rewrite firstn_length, skipn_length; lia).
      revert Lf. generalize (firstn (4 * 4) (skipn off block)). intros l Lf. lanes_of l 16%nat Lf. reflexivity.
    - apply words_of_bytes_lt, Forall_firstn, Forall_skipn, Bb. }
  explicit cv 8%nat Lcv.
  cbn [firstn skipn].
  refine (conj _ (conj _ (conj _ (conj _ (conj _ (conj _ (conj _ _)))))));
    first [ apply M; lia
          | split; [reflexivity|]; repeat (apply Forall_cons; [first [ assumption | apply W_IV | apply W_ctr_lo | apply W_ctr_hi ]|]);
            apply Forall_nil ].
Qed.

(* one statement of the translation against the same statement of the model sequence: the translated
   value equals the model value (cc_tac / c0_tac: the two blends; everything else computes), and every
   value bound is a register of four 32-bit lanes *)
Ltac stmt_eq cc_tac c0_tac :=
  lazymatch goal with
  | |- _ = blend_epi16 0 _ _ 204 => cc_tac
  | |- _ = blend_epi16 0 _ _ 192 => c0_tac
  | |- _ => reflexivity
  end.
Ltac destruct_reg e :=
  let HR := fresh "HR" in
  lazymatch e with
  | g1r ?a ?b ?c ?d ?m =>
      pose proof (g1r_reg a b c d m ltac:(assumption) ltac:(assumption) ltac:(assumption) ltac:(assumption) ltac:(assumption)) as HR;
      revert HR; destruct e as [[[? ?] ?] ?]; intros (? & ? & ? & ?)
  | g2r ?a ?b ?c ?d ?m =>
      pose proof (g2r_reg a b c d m ltac:(assumption) ltac:(assumption) ltac:(assumption) ltac:(assumption) ltac:(assumption)) as HR;
      revert HR; destruct e as [[[? ?] ?] ?]; intros (? & ? & ? & ?)
  | diagonalize ?a ?b ?c =>
      pose proof (diagonalize_reg a b c ltac:(assumption) ltac:(assumption) ltac:(assumption)) as HR;
      revert HR; destruct e as [[? ?] ?]; intros (? & ? & ?)
  | undiagonalize ?a ?b ?c =>
      pose proof (undiagonalize_reg a b c ltac:(assumption) ltac:(assumption) ltac:(assumption)) as HR;
      revert HR; destruct e as [[? ?] ?]; intros (? & ? & ?)
  end.
(* g_tac: the call of g1 / g2 / diagonalize / undiagonalize at hand equals the model's *)
Ltac lockstep g_tac cc_tac c0_tac :=
  repeat lazymatch goal with
  | |- (let x := ?a in @?f x) = (let y := ?a' in @?f' y) =>
      apply (let_congr (reg 4) a a' f f');
      [ stmt_eq cc_tac c0_tac | reg_closure
      | let x := fresh "x" in let H := fresh "Hx" in intros x H; cbv beta ]
  | |- (match ?e with pair _ _ => _ end) = (match ?e' with pair _ _ => _ end) =>
      replace e with e' by (symmetry; g_tac);      (* (not `change`: Qed would compare the whole goals) *)
      destruct_reg e'
  end.

(* The rounds of compress_pre as the five files have them, over the file's own g1, g2, diagonalize,
   undiagonalize and blend: the shuffles are the same intrinsic calls in every file (the immediates of the Rust
   files are the expansion of _MM_SHUFFLE!, equal to MM_SHUFFLE .. by computation).  A translated compress_pre
   is convertible with `src_pre` of its helpers once the outer definitions are unfolded (with the helpers
   folded the comparison is first-order; if one side were still a constant the kernel would unfold the
   helpers of the other and compare expression trees, which is exponential in the number of rounds). *)
Section SrcRounds.
  Variables (g1 g2 : vec -> vec -> vec -> vec -> vec -> rows) (dg ud : vec -> vec -> vec -> vec * vec * vec)
            (bl : vec -> vec -> Z -> vec).

  Definition src_round1 {B} (row0 row1 row2 row3 m0 m1 m2 m3 : vec)
      (k : vec -> vec -> vec -> vec -> vec -> vec -> vec -> vec -> B) : B :=
    let t0 := mm_castps_si128 (mm_shuffle_ps (mm_castsi128_ps m0) (mm_castsi128_ps m1) (MM_SHUFFLE 2 0 2 0)%Z) in
    let '(row0, row1, row2, row3) := g1 row0 row1 row2 row3 t0 in
    let t1 := mm_castps_si128 (mm_shuffle_ps (mm_castsi128_ps m0) (mm_castsi128_ps m1) (MM_SHUFFLE 3 1 3 1)%Z) in
    let '(row0, row1, row2, row3) := g2 row0 row1 row2 row3 t1 in
    let '(row0, row2, row3) := dg row0 row2 row3 in
    let t2 := mm_castps_si128 (mm_shuffle_ps (mm_castsi128_ps m2) (mm_castsi128_ps m3) (MM_SHUFFLE 2 0 2 0)%Z) in
    let t2 := mm_shuffle_epi32 t2 (MM_SHUFFLE 2 1 0 3)%Z in
    let '(row0, row1, row2, row3) := g1 row0 row1 row2 row3 t2 in
    let t3 := mm_castps_si128 (mm_shuffle_ps (mm_castsi128_ps m2) (mm_castsi128_ps m3) (MM_SHUFFLE 3 1 3 1)%Z) in
    let t3 := mm_shuffle_epi32 t3 (MM_SHUFFLE 2 1 0 3)%Z in
    let '(row0, row1, row2, row3) := g2 row0 row1 row2 row3 t3 in
    let '(row0, row2, row3) := ud row0 row2 row3 in
    k row0 row1 row2 row3 t0 t1 t2 t3.
  Definition src_round {B} (row0 row1 row2 row3 m0 m1 m2 m3 : vec)
      (k : vec -> vec -> vec -> vec -> vec -> vec -> vec -> vec -> B) : B :=
    let t0 := mm_castps_si128 (mm_shuffle_ps (mm_castsi128_ps m0) (mm_castsi128_ps m1) (MM_SHUFFLE 3 1 1 2)%Z) in
    let t0 := mm_shuffle_epi32 t0 (MM_SHUFFLE 0 3 2 1)%Z in
    let '(row0, row1, row2, row3) := g1 row0 row1 row2 row3 t0 in
    let t1 := mm_castps_si128 (mm_shuffle_ps (mm_castsi128_ps m2) (mm_castsi128_ps m3) (MM_SHUFFLE 3 3 2 2)%Z) in
    let tt := mm_shuffle_epi32 m0 (MM_SHUFFLE 0 0 3 3)%Z in
    let t1 := bl tt t1 0xcc%Z in
    let '(row0, row1, row2, row3) := g2 row0 row1 row2 row3 t1 in
    let '(row0, row2, row3) := dg row0 row2 row3 in
    let t2 := mm_unpacklo_epi64 m3 m1 in
    let tt := bl t2 m2 0xc0%Z in
    let t2 := mm_shuffle_epi32 tt (MM_SHUFFLE 1 3 2 0)%Z in
    let '(row0, row1, row2, row3) := g1 row0 row1 row2 row3 t2 in
    let t3 := mm_unpackhi_epi32 m1 m3 in
    let tt := mm_unpacklo_epi32 m2 t3 in
    let t3 := mm_shuffle_epi32 tt (MM_SHUFFLE 0 1 3 2)%Z in
    let '(row0, row1, row2, row3) := g2 row0 row1 row2 row3 t3 in
    let '(row0, row2, row3) := ud row0 row2 row3 in
    k row0 row1 row2 row3 t0 t1 t2 t3.
  Definition src_pre {B} (fin : vec -> vec -> vec -> vec -> B) (row0 row1 row2 row3 m0 m1 m2 m3 : vec) : B :=
    src_round1 row0 row1 row2 row3 m0 m1 m2 m3 (fun row0 row1 row2 row3 m0 m1 m2 m3 =>
    src_round row0 row1 row2 row3 m0 m1 m2 m3 (fun row0 row1 row2 row3 m0 m1 m2 m3 =>
    src_round row0 row1 row2 row3 m0 m1 m2 m3 (fun row0 row1 row2 row3 m0 m1 m2 m3 =>
    src_round row0 row1 row2 row3 m0 m1 m2 m3 (fun row0 row1 row2 row3 m0 m1 m2 m3 =>
    src_round row0 row1 row2 row3 m0 m1 m2 m3 (fun row0 row1 row2 row3 m0 m1 m2 m3 =>
    src_round row0 row1 row2 row3 m0 m1 m2 m3 (fun row0 row1 row2 row3 m0 m1 m2 m3 =>
    src_round row0 row1 row2 row3 m0 m1 m2 m3 (fun row0 row1 row2 row3 _ _ _ _ =>
    fin row0 row1 row2 row3))))))).

  Hypothesis Hg1 : forall a b c d m, reg 4 a -> reg 4 b -> reg 4 c -> reg 4 d -> reg 4 m -> g1 a b c d m = g1r a b c d m.
  Hypothesis Hg2 : forall a b c d m, reg 4 a -> reg 4 b -> reg 4 c -> reg 4 d -> reg 4 m -> g2 a b c d m = g2r a b c d m.
  Hypothesis Hdg : forall a b c, dg a b c = diagonalize a b c.
  Hypothesis Hud : forall a b c, ud a b c = undiagonalize a b c.
  Hypothesis Hcc : forall a b, reg 4 a -> reg 4 b -> bl a b 0xcc%Z = blend_epi16 0 a b 0xCC.
  Hypothesis Hc0 : forall a b, reg 4 a -> reg 4 b -> bl a b 0xc0%Z = blend_epi16 0 a b 0xC0.

  Ltac g_call := first [apply Hg1; assumption | apply Hg2; assumption | apply Hdg | apply Hud].

  Lemma src_round1_flat {B} r0 r1 r2 r3 m0 m1 m2 m3 (k k' : vec -> vec -> vec -> vec -> vec -> vec -> vec -> vec -> B) :
    reg 4 r0 -> reg 4 r1 -> reg 4 r2 -> reg 4 r3 -> reg 4 m0 -> reg 4 m1 -> reg 4 m2 -> reg 4 m3 ->
    (forall a b c d t0 t1 t2 t3, reg 4 a -> reg 4 b -> reg 4 c -> reg 4 d -> reg 4 t0 -> reg 4 t1 -> reg 4 t2 -> reg 4 t3 ->
       k a b c d t0 t1 t2 t3 = k' a b c d t0 t1 t2 t3) ->
    src_round1 r0 r1 r2 r3 m0 m1 m2 m3 k = flat_round1 r0 r1 r2 r3 m0 m1 m2 m3 k'.
  Proof.
    intros R0 R1 R2 R3 M0 M1 M2 M3 Hk. cbv beta delta [src_round1 flat_round1].
    lockstep g_call ltac:(fail) ltac:(fail).
    cbv zeta. apply Hk; assumption.
  Qed.
  Lemma src_round_flat {B} r0 r1 r2 r3 m0 m1 m2 m3 (k k' : vec -> vec -> vec -> vec -> vec -> vec -> vec -> vec -> B) :
    reg 4 r0 -> reg 4 r1 -> reg 4 r2 -> reg 4 r3 -> reg 4 m0 -> reg 4 m1 -> reg 4 m2 -> reg 4 m3 ->
    (forall a b c d t0 t1 t2 t3, reg 4 a -> reg 4 b -> reg 4 c -> reg 4 d -> reg 4 t0 -> reg 4 t1 -> reg 4 t2 -> reg 4 t3 ->
       k a b c d t0 t1 t2 t3 = k' a b c d t0 t1 t2 t3) ->
    src_round r0 r1 r2 r3 m0 m1 m2 m3 k = flat_round_body r0 r1 r2 r3 m0 m1 m2 m3 k'.
  Proof.
    intros R0 R1 R2 R3 M0 M1 M2 M3 Hk. cbv beta delta [src_round flat_round_body].
    lockstep g_call ltac:(apply Hcc; assumption) ltac:(apply Hc0; assumption).
    apply Hk; assumption.
  Qed.

  Lemma src_pre_flat {B} (fin : vec -> vec -> vec -> vec -> B) r0 r1 r2 r3 m0 m1 m2 m3 :
    reg 4 r0 -> reg 4 r1 -> reg 4 r2 -> reg 4 r3 -> reg 4 m0 -> reg 4 m1 -> reg 4 m2 -> reg 4 m3 ->
    src_pre fin r0 r1 r2 r3 m0 m1 m2 m3 = flat_pre fin r0 r1 r2 r3 m0 m1 m2 m3.
  Proof.
    intros R0 R1 R2 R3 M0 M1 M2 M3. unfold src_pre, flat_pre, flat_roundn.
    apply src_round1_flat; try assumption.
    do 6 (intros; apply src_round_flat; try assumption). intros. reflexivity.
  Qed.

  (* with the four rows and the four message registers of compress_pre; K: what the function does with the rows *)
  Lemma src_compress_pre_rows {B} (K : rows -> B) cv block bl' ctr fl v0 v1 v2 v3 w0 w1 w2 w3 :
    row_dom cv block bl' fl ->
    v0 = firstn 4 cv -> v1 = firstn 4 (skipn 4 cv) -> v2 = [nth 0 rs_IV 0; nth 1 rs_IV 0; nth 2 rs_IV 0; nth 3 rs_IV 0] ->
    v3 = [ctr_lo ctr; ctr_hi ctr; bl'; fl] ->
    w0 = loadu 4 block 0 -> w1 = loadu 4 block 16 -> w2 = loadu 4 block 32 -> w3 = loadu 4 block 48 ->
    src_pre (fun a b c d => K (a, b, c, d)) v0 v1 v2 v3 w0 w1 w2 w3 = K (compress_pre_rows cv block bl' ctr fl).
  Proof.
    intros D -> -> -> -> -> -> -> ->. destruct (row_dom_regs _ _ _ ctr _ D) as (? & ? & ? & ? & ? & ? & ? & ?).
    transitivity (flat_compress_pre (fun a b c d => K (a, b, c, d)) cv block bl' ctr fl).
    - cbv beta zeta delta [flat_compress_pre]. apply src_pre_flat; assumption.
    - rewrite <- compress_pre_rows_flat. destruct (compress_pre_rows cv block bl' ctr fl) as [[[a b] c] d]. reflexivity.
  Qed.
End SrcRounds.

(* the translated compress_pre at hand is src_pre of its helpers, applied to its first eight values *)
Ltac to_src_pre g1 g2 dg ud bl fin :=
  lazymatch goal with
  | |- (let r0 := ?v0 in let r1 := ?v1 in let r2 := ?v2 in let r3 := ?v3 in
        let m0 := ?w0 in let m1 := ?w1 in let m2 := ?w2 in let m3 := ?w3 in _) = _ =>
      transitivity (src_pre g1 g2 dg ud bl fin v0 v1 v2 v3 w0 w1 w2 w3);
      [cbv beta delta [src_pre src_round1 src_round]; reflexivity|]
  end.

(* storeu(A, cv + 0); storeu(B, cv + 4): cv, read back from its memory image, is A ++ B *)
Lemma store_cv cv A B : length cv = 8%nat -> reg 4 A -> reg 4 B ->
  u32_of_mem (mm_storeu_si128 (mm_storeu_si128 (mem_u32 cv) (4 * 0)%nat A) (4 * 4)%nat B) = A ++ B.
Proof.
  intros L HA HB. lanes_of cv 8%nat L. reg4_explicit.
  unfold u32_of_mem, mm_storeu_si128, mem_u32, to8, bytes_of_words.
  cbn [flat_map bytes_of_word app Nat.mul Nat.add skipn firstn words_of_bytes].
  rewrite !word_of_bytes_of_word by assumption. reflexivity.
Qed.
Lemma store_out out A B C D : length out = 64%nat -> reg 4 A -> reg 4 B -> reg 4 C -> reg 4 D ->
  mm_storeu_si128 (mm_storeu_si128 (mm_storeu_si128 (mm_storeu_si128 out 0 A) 16 B) 32 C) 48 D =
  bytes_of_words (A ++ B ++ C ++ D).
Proof.
  intros L HA HB HC HD. lanes_of out 64%nat L. reg4_explicit.
  unfold mm_storeu_si128, to8, bytes_of_words.
  cbn [flat_map bytes_of_word app Nat.add skipn firstn]. reflexivity.
Qed.
Lemma transmute4 A B C D : transmute_m128i_u8 [A; B; C; D] = bytes_of_words (A ++ B ++ C ++ D).
Proof.
  unfold transmute_m128i_u8, to8, bytes_of_words. cbn [flat_map]. rewrite !flat_map_app, app_nil_r. reflexivity.
Qed.

(* set4(counter_low(counter), counter_high(counter), block_len as u32, flags as u32) *)
Lemma set4_rs_ok ctr bl fl : W bl -> W fl ->
  mm_setr_epi32 (cast_s 32 (Z.of_N (ctr_lo ctr))) (cast_s 32 (Z.of_N (ctr_hi ctr))) (cast_s 32 (Z.of_N bl)) (cast_s 32 (Z.of_N fl)) =
  [ctr_lo ctr; ctr_hi ctr; bl; fl].
Proof.
  intros Hb Hf. unfold mm_setr_epi32. rewrite !bits32_counter, w32_ctr_lo, w32_ctr_hi, (w32_id bl), (w32_id fl) by assumption. reflexivity.
Qed.

(* set4(counter_low(counter), counter_high(counter), (uint32_t)block_len, (uint32_t)flags) with the helpers of
   blake3_impl.h: (uint32_t)counter and (uint32_t)(counter >> 32) *)
Lemma bits32_cast_u32 z : bits32 (cast_u 32 z) = bits32 z.
Proof. unfold bits32, cast_u. change (2 ^ 32)%Z with 4294967296%Z. rewrite Z.mod_mod by discriminate. reflexivity. Qed.
Lemma ctr_lo_w32 c : ctr_lo c = w32 c.
Proof. rewrite ctr_lo_mod, w32_mod. reflexivity. Qed.
Lemma ctr_hi_w32 c : ctr_hi c = w32 (N.shiftr c 32).
Proof. rewrite ctr_hi_mod, w32_mod, N.shiftr_div_pow2. reflexivity. Qed.
Lemma set4_c_ok ctr bl fl : W bl -> W fl ->
  mm_setr_epi32 (cast_s 32 (c_impl_counter_low (Z.of_N ctr))) (cast_s 32 (c_impl_counter_high (Z.of_N ctr)))
                (cast_s 32 (Z.of_N bl)) (cast_s 32 (Z.of_N fl)) =
  [ctr_lo ctr; ctr_hi ctr; bl; fl].
Proof.
  intros Hb Hf. unfold mm_setr_epi32, c_impl_counter_low, c_impl_counter_high.
  rewrite !bits32_cast_s32, !bits32_cast_u32, <- (bits32_cast_s32 (Z.shiftr (Z.of_N ctr) 32)), bits32_counter_hi.
  rewrite !bits32_of_N, (w32_id bl), (w32_id fl) by assumption.
  replace (w32 ctr) with (ctr_lo ctr) by apply ctr_lo_w32.
  replace (w32 (N.shiftr ctr 32)) with (ctr_hi ctr) by apply ctr_hi_w32. reflexivity.
Qed.

Lemma rows_round_reg rs t : reg4x4 rs -> reg4x4 t -> reg4x4 (rows_round rs t).
Proof.
  destruct rs as [[[a b] c] d], t as [[[t0 t1] t2] t3]. intros (Ha & Hb & Hc & Hd) (H0 & H1 & H2 & H3).
  unfold rows_round.
  repeat match goal with |- context [match ?e with pair _ _ => _ end] => destruct_reg e end.
  unfold reg4x4. auto.
Qed.
Lemma msg_round1_reg m : reg4x4 m -> reg4x4 (msg_round1 m).
Proof.
  destruct m as [[[m0 m1] m2] m3]. intros (H0 & H1 & H2 & H3). unfold msg_round1, reg4x4. cbv zeta.
  refine (conj _ (conj _ (conj _ _))); reg_closure.
Qed.
Lemma msg_next_reg m : reg4x4 m -> reg4x4 (msg_next m).
Proof.
  destruct m as [[[m0 m1] m2] m3]. intros (H0 & H1 & H2 & H3). unfold msg_next, reg4x4. cbv zeta.
  refine (conj _ (conj _ (conj _ _))); reg_closure.
Qed.
Theorem compress_pre_rows_reg cv block bl ctr fl : row_dom cv block bl fl -> reg4x4 (compress_pre_rows cv block bl ctr fl).
Proof.
  intros D. destruct (row_dom_regs _ _ _ ctr _ D) as (? & ? & ? & ? & ? & ? & ? & ?). unfold compress_pre_rows. cbv zeta.
  repeat first [ apply rows_round_reg | apply msg_next_reg | apply msg_round1_reg ]; unfold reg4x4; auto.
Qed.

(* what the five files do with the rows `pre` of compress_pre (their xor / loadu / storeu are the same
   intrinsics); K: `Ok` in the Rust files, nothing in C *)
Lemma in_place_rows {B} (K : list N -> B) cv (pre : rows) : length cv = 8%nat -> reg4x4 pre ->
  (let '(r0, r1, r2, r3) := pre in
   K (u32_of_mem (mm_storeu_si128 (mm_storeu_si128 (mem_u32 cv) (4 * 0)%nat (vxor r0 r2)) (4 * 4)%nat (vxor r1 r3)))) =
  K (let '(r0, r1, r2, r3) := pre in vxor r0 r2 ++ vxor r1 r3).
Proof.
  destruct pre as [[[r0 r1] r2] r3]. intros L (R0 & R1 & R2 & R3).
  rewrite store_cv; [reflexivity|exact L|apply reg_vxor; assumption|apply reg_vxor; assumption].
Qed.
(* Rust: the four registers are transmuted to 64 bytes *)
Lemma xof_rows_transmute {B} (K : list N -> B) cv (pre : rows) : length cv = 8%nat -> Forall W cv ->
  (let '(r0, r1, r2, r3) := pre in
   K (transmute_m128i_u8 [vxor r0 r2; vxor r1 r3; vxor r2 (mm_loadu_si128 (mem_u32 cv) (4 * 0)%nat);
                          vxor r3 (mm_loadu_si128 (mem_u32 cv) (4 * 4)%nat)])) =
  K (let '(r0, r1, r2, r3) := pre in
     bytes_of_words (vxor r0 r2 ++ vxor r1 r3 ++ vxor r2 (firstn 4 cv) ++ vxor r3 (firstn 4 (skipn 4 cv)))).
Proof.
  destruct pre as [[[r0 r1] r2] r3]. intros L F. rewrite loadu_cv_lo, loadu_cv_hi, transmute4 by assumption. reflexivity.
Qed.
(* C: they are stored into the caller's 64 bytes *)
Lemma xof_rows_stores cv (pre : rows) out : length cv = 8%nat -> Forall W cv -> reg4x4 pre -> length out = 64%nat ->
  (let '(r0, r1, r2, r3) := pre in
   mm_storeu_si128 (mm_storeu_si128 (mm_storeu_si128 (mm_storeu_si128 out 0 (vxor r0 r2)) 16 (vxor r1 r3)) 32
     (vxor r2 (mm_loadu_si128 (mem_u32 cv) (4 * 0)%nat))) 48 (vxor r3 (mm_loadu_si128 (mem_u32 cv) (4 * 4)%nat))) =
  (let '(r0, r1, r2, r3) := pre in
   bytes_of_words (vxor r0 r2 ++ vxor r1 r3 ++ vxor r2 (firstn 4 cv) ++ vxor r3 (firstn 4 (skipn 4 cv)))).
Proof.
  destruct pre as [[[r0 r1] r2] r3]. intros L F (R0 & R1 & R2 & R3) Lo.
  assert (C0 : reg 4 (firstn 4 cv) /\ reg 4 (firstn 4 (skipn 4 cv))).
  { lanes_of cv 8%nat L. forall_inv. split; (split; [reflexivity|repeat constructor; assumption]). }
  rewrite loadu_cv_lo, loadu_cv_hi by assumption.
  apply store_out; [exact Lo|apply reg_vxor; tauto..].
Qed.

Theorem rs_sse41_g1_ok a b c d m : rs_sse41_g1 a b c d m = g1r a b c d m.
Proof.
  unfold rs_sse41_g1, g1r, rs_sse41_add, rs_sse41_xor, mm_add_epi32, mm_xor_si128. cbv zeta.
  rewrite rs_sse41_rot16_ok, rs_sse41_rot12_ok. reflexivity.
Qed.
Theorem rs_sse41_g2_ok a b c d m : rs_sse41_g2 a b c d m = g2r a b c d m.
Proof.
  unfold rs_sse41_g2, g2r, rs_sse41_add, rs_sse41_xor, mm_add_epi32, mm_xor_si128. cbv zeta.
  rewrite rs_sse41_rot8_ok, rs_sse41_rot7_ok. reflexivity.
Qed.
Theorem rs_sse41_diagonalize_ok a b c : rs_sse41_diagonalize a b c = diagonalize a b c.
Proof. reflexivity. Qed.
Theorem rs_sse41_undiagonalize_ok a b c : rs_sse41_undiagonalize a b c = undiagonalize a b c.
Proof. reflexivity. Qed.
Theorem rs_sse41_compress_pre_ok cv block bl ctr fl : row_dom cv block bl fl ->
  rs_sse41_compress_pre cv block bl ctr fl = Ok (compress_pre_rows cv block bl ctr fl).
Proof.
  intros D. pose proof D as (Lcv & Wcv & Lb & Bb & Hbl & Hfl). cbv beta delta [rs_sse41_compress_pre].
  change (mu rs_counter_low (Ok ctr)) with (Ok (ctr_lo ctr)). change (mu rs_counter_high (Ok ctr)) with (Ok (ctr_hi ctr)).
  cbv beta iota delta [bind].
  to_src_pre rs_sse41_g1 rs_sse41_g2 rs_sse41_diagonalize rs_sse41_undiagonalize mm_blend_epi16 (fun a b c d : vec => Ok (a, b, c, d)).
  apply (src_compress_pre_rows _ _ _ _ _ (fun a b c d m _ _ _ _ _ => rs_sse41_g1_ok a b c d m) (fun a b c d m _ _ _ _ _ => rs_sse41_g2_ok a b c d m)
           rs_sse41_diagonalize_ok rs_sse41_undiagonalize_ok blend_cc_ok blend_c0_ok Ok) with (1 := D);
    first [apply loadu_cv_lo; assumption | apply loadu_cv_hi; assumption | apply set4_rs_ok; assumption | reflexivity].
Qed.
Theorem rs_sse41_compress_in_place_ok cv block bl ctr fl : row_dom cv block bl fl ->
  rs_sse41_compress_in_place cv block bl ctr fl = Ok (compress_in_place_rows cv block bl ctr fl).
Proof.
  intros D. unfold rs_sse41_compress_in_place. rewrite (rs_sse41_compress_pre_ok _ _ _ _ _ D). cbn [bind].
  generalize (compress_pre_rows_reg _ _ _ ctr _ D). unfold compress_in_place_rows.
  generalize (compress_pre_rows cv block bl ctr fl). intros pre R. exact (in_place_rows Ok cv pre (proj1 D) R).
Qed.
Theorem rs_sse41_compress_xof_ok cv block bl ctr fl : row_dom cv block bl fl ->
  rs_sse41_compress_xof cv block bl ctr fl = Ok (compress_xof_rows cv block bl ctr fl).
Proof.
  intros D. unfold rs_sse41_compress_xof. rewrite (rs_sse41_compress_pre_ok _ _ _ _ _ D). cbn [bind]. unfold compress_xof_rows.
  generalize (compress_pre_rows cv block bl ctr fl). intros pre. exact (xof_rows_transmute Ok cv pre (proj1 D) (proj1 (proj2 D))).
Qed.

Theorem rs_sse2_g1_ok a b c d m : rs_sse2_g1 a b c d m = g1r a b c d m.
Proof.
  unfold rs_sse2_g1, g1r, rs_sse2_add, rs_sse2_xor, mm_add_epi32, mm_xor_si128. cbv zeta.
  rewrite rs_sse2_rot16_ok, rs_sse2_rot12_ok. reflexivity.
Qed.
Theorem rs_sse2_g2_ok a b c d m : rs_sse2_g2 a b c d m = g2r a b c d m.
Proof.
  unfold rs_sse2_g2, g2r, rs_sse2_add, rs_sse2_xor, mm_add_epi32, mm_xor_si128. cbv zeta.
  rewrite rs_sse2_rot8_ok, rs_sse2_rot7_ok. reflexivity.
Qed.
Theorem rs_sse2_diagonalize_ok a b c : rs_sse2_diagonalize a b c = diagonalize a b c.
Proof. reflexivity. Qed.
Theorem rs_sse2_undiagonalize_ok a b c : rs_sse2_undiagonalize a b c = undiagonalize a b c.
Proof. reflexivity. Qed.
Theorem rs_sse2_blend_cc_ok a b : reg 4 a -> reg 4 b -> rs_sse2_blend_epi16 a b 0xcc%Z = blend_epi16 0 a b 0xCC.
Proof.
  intros Ha Hb. unfold rs_sse2_blend_epi16. cbv zeta.
  set (mask := mm_cmpeq_epi16 _ _). assert (E : mask = [0; mask32; 0; mask32]) by (vm_compute; reflexivity). rewrite E.
  apply sse2_blend_select; [assumption|assumption|]. intros k Hk. four_cases k.
Qed.
Theorem rs_sse2_blend_c0_ok a b : reg 4 a -> reg 4 b -> rs_sse2_blend_epi16 a b 0xc0%Z = blend_epi16 0 a b 0xC0.
Proof.
  intros Ha Hb. unfold rs_sse2_blend_epi16. cbv zeta.
  set (mask := mm_cmpeq_epi16 _ _). assert (E : mask = [0; 0; 0; mask32]) by (vm_compute; reflexivity). rewrite E.
  apply sse2_blend_select; [assumption|assumption|]. intros k Hk. four_cases k.
Qed.
Theorem rs_sse2_compress_pre_ok cv block bl ctr fl : row_dom cv block bl fl ->
  rs_sse2_compress_pre cv block bl ctr fl = Ok (compress_pre_rows cv block bl ctr fl).
Proof.
  intros D. pose proof D as (Lcv & Wcv & Lb & Bb & Hbl & Hfl). cbv beta delta [rs_sse2_compress_pre].
  change (mu rs_counter_low (Ok ctr)) with (Ok (ctr_lo ctr)). change (mu rs_counter_high (Ok ctr)) with (Ok (ctr_hi ctr)).
  cbv beta iota delta [bind].
  to_src_pre rs_sse2_g1 rs_sse2_g2 rs_sse2_diagonalize rs_sse2_undiagonalize rs_sse2_blend_epi16 (fun a b c d : vec => Ok (a, b, c, d)).
  apply (src_compress_pre_rows _ _ _ _ _ (fun a b c d m _ _ _ _ _ => rs_sse2_g1_ok a b c d m) (fun a b c d m _ _ _ _ _ => rs_sse2_g2_ok a b c d m)
           rs_sse2_diagonalize_ok rs_sse2_undiagonalize_ok rs_sse2_blend_cc_ok rs_sse2_blend_c0_ok Ok) with (1 := D);
    first [apply loadu_cv_lo; assumption | apply loadu_cv_hi; assumption | apply set4_rs_ok; assumption | reflexivity].
Qed.
Theorem rs_sse2_compress_in_place_ok cv block bl ctr fl : row_dom cv block bl fl ->
  rs_sse2_compress_in_place cv block bl ctr fl = Ok (compress_in_place_rows cv block bl ctr fl).
Proof.
  intros D. unfold rs_sse2_compress_in_place. rewrite (rs_sse2_compress_pre_ok _ _ _ _ _ D). cbn [bind].
  generalize (compress_pre_rows_reg _ _ _ ctr _ D). unfold compress_in_place_rows.
  generalize (compress_pre_rows cv block bl ctr fl). intros pre R. exact (in_place_rows Ok cv pre (proj1 D) R).
Qed.
Theorem rs_sse2_compress_xof_ok cv block bl ctr fl : row_dom cv block bl fl ->
  rs_sse2_compress_xof cv block bl ctr fl = Ok (compress_xof_rows cv block bl ctr fl).
Proof.
  intros D. unfold rs_sse2_compress_xof. rewrite (rs_sse2_compress_pre_ok _ _ _ _ _ D). cbn [bind]. unfold compress_xof_rows.
  generalize (compress_pre_rows cv block bl ctr fl). intros pre. exact (xof_rows_transmute Ok cv pre (proj1 D) (proj1 (proj2 D))).
Qed.

Theorem c_avx512_g1_ok a b c d m : c_avx512_g1 a b c d m = g1r a b c d m.
Proof.
  unfold c_avx512_g1, g1r, c_avx512_add_128, c_avx512_xor_128, mm_add_epi32, mm_xor_si128. cbv zeta.
  rewrite c_avx512_rot16_128_ok, c_avx512_rot12_128_ok. reflexivity.
Qed.
Theorem c_avx512_g2_ok a b c d m : c_avx512_g2 a b c d m = g2r a b c d m.
Proof.
  unfold c_avx512_g2, g2r, c_avx512_add_128, c_avx512_xor_128, mm_add_epi32, mm_xor_si128. cbv zeta.
  rewrite c_avx512_rot8_128_ok, c_avx512_rot7_128_ok. reflexivity.
Qed.
Theorem c_avx512_diagonalize_ok a b c : c_avx512_diagonalize a b c = diagonalize a b c.
Proof. reflexivity. Qed.
Theorem c_avx512_undiagonalize_ok a b c : c_avx512_undiagonalize a b c = undiagonalize a b c.
Proof. reflexivity. Qed.
Theorem c_avx512_compress_pre_ok cv block bl ctr fl : row_dom cv block bl fl ->
  c_avx512_compress_pre cv block bl ctr fl = compress_pre_rows cv block bl ctr fl.
Proof.
  intros D. pose proof D as (Lcv & Wcv & Lb & Bb & Hbl & Hfl). cbv beta delta [c_avx512_compress_pre].
  to_src_pre c_avx512_g1 c_avx512_g2 c_avx512_diagonalize c_avx512_undiagonalize mm_blend_epi16 (fun a b c d : vec => (a, b, c, d)).
  apply (src_compress_pre_rows _ _ _ _ _ (fun a b c d m _ _ _ _ _ => c_avx512_g1_ok a b c d m) (fun a b c d m _ _ _ _ _ => c_avx512_g2_ok a b c d m)
           c_avx512_diagonalize_ok c_avx512_undiagonalize_ok blend_cc_ok blend_c0_ok (fun r => r)) with (1 := D);
    first [apply loadu_cv_lo; assumption | apply loadu_cv_hi; assumption | unfold c_avx512_set4; apply set4_c_ok; assumption | reflexivity].
Qed.
Theorem c_avx512_blake3_compress_in_place_avx512_ok cv block bl ctr fl : row_dom cv block bl fl ->
  c_avx512_blake3_compress_in_place_avx512 cv block bl ctr fl = compress_in_place_rows cv block bl ctr fl.
Proof.
  intros D. unfold c_avx512_blake3_compress_in_place_avx512. rewrite (c_avx512_compress_pre_ok _ _ _ _ _ D). 
  generalize (compress_pre_rows_reg _ _ _ ctr _ D). unfold compress_in_place_rows.
  generalize (compress_pre_rows cv block bl ctr fl). intros pre R. exact (in_place_rows (fun x => x) cv pre (proj1 D) R).
Qed.
Theorem c_avx512_blake3_compress_xof_avx512_ok cv block bl ctr fl out : row_dom cv block bl fl -> length out = 64%nat ->
  c_avx512_blake3_compress_xof_avx512 cv block bl ctr fl out = compress_xof_rows cv block bl ctr fl.
Proof.
  intros D Lo. unfold c_avx512_blake3_compress_xof_avx512. rewrite (c_avx512_compress_pre_ok _ _ _ _ _ D). 
  generalize (compress_pre_rows_reg _ _ _ ctr _ D). unfold compress_xof_rows.
  generalize (compress_pre_rows cv block bl ctr fl). intros pre R. exact (xof_rows_stores cv pre out (proj1 D) (proj1 (proj2 D)) R Lo).
Qed.

Theorem c_sse41_g1_ok a b c d m : reg 4 a -> reg 4 b -> reg 4 c -> reg 4 d -> reg 4 m -> c_sse41_g1 a b c d m = g1r a b c d m.
Proof.
  intros Ha Hb Hc Hd Hm. unfold c_sse41_g1, g1r, c_sse41_addv, c_sse41_xorv, mm_add_epi32, mm_xor_si128. cbv zeta.
  rewrite c_sse41_rot16_ok by (apply reg_regz; reg_closure). rewrite c_sse41_rot12_ok by (apply reg_regz; reg_closure). reflexivity.
Qed.
Theorem c_sse41_g2_ok a b c d m : reg 4 a -> reg 4 b -> reg 4 c -> reg 4 d -> reg 4 m -> c_sse41_g2 a b c d m = g2r a b c d m.
Proof.
  intros Ha Hb Hc Hd Hm. unfold c_sse41_g2, g2r, c_sse41_addv, c_sse41_xorv, mm_add_epi32, mm_xor_si128. cbv zeta.
  rewrite c_sse41_rot8_ok by (apply reg_regz; reg_closure). rewrite c_sse41_rot7_ok by (apply reg_regz; reg_closure). reflexivity.
Qed.
Theorem c_sse41_diagonalize_ok a b c : c_sse41_diagonalize a b c = diagonalize a b c.
Proof. reflexivity. Qed.
Theorem c_sse41_undiagonalize_ok a b c : c_sse41_undiagonalize a b c = undiagonalize a b c.
Proof. reflexivity. Qed.
Theorem c_sse41_compress_pre_ok cv block bl ctr fl : row_dom cv block bl fl ->
  c_sse41_compress_pre cv block bl ctr fl = compress_pre_rows cv block bl ctr fl.
Proof.
  intros D. pose proof D as (Lcv & Wcv & Lb & Bb & Hbl & Hfl). cbv beta delta [c_sse41_compress_pre].
  to_src_pre c_sse41_g1 c_sse41_g2 c_sse41_diagonalize c_sse41_undiagonalize mm_blend_epi16 (fun a b c d : vec => (a, b, c, d)).
  apply (src_compress_pre_rows _ _ _ _ _ c_sse41_g1_ok c_sse41_g2_ok
           c_sse41_diagonalize_ok c_sse41_undiagonalize_ok blend_cc_ok blend_c0_ok (fun r => r)) with (1 := D);
    first [apply loadu_cv_lo; assumption | apply loadu_cv_hi; assumption | unfold c_sse41_set4; apply set4_c_ok; assumption | reflexivity].
Qed.
Theorem c_sse41_blake3_compress_in_place_sse41_ok cv block bl ctr fl : row_dom cv block bl fl ->
  c_sse41_blake3_compress_in_place_sse41 cv block bl ctr fl = compress_in_place_rows cv block bl ctr fl.
Proof.
  intros D. unfold c_sse41_blake3_compress_in_place_sse41. rewrite (c_sse41_compress_pre_ok _ _ _ _ _ D). 
  generalize (compress_pre_rows_reg _ _ _ ctr _ D). unfold compress_in_place_rows.
  generalize (compress_pre_rows cv block bl ctr fl). intros pre R. exact (in_place_rows (fun x => x) cv pre (proj1 D) R).
Qed.
Theorem c_sse41_blake3_compress_xof_sse41_ok cv block bl ctr fl out : row_dom cv block bl fl -> length out = 64%nat ->
  c_sse41_blake3_compress_xof_sse41 cv block bl ctr fl out = compress_xof_rows cv block bl ctr fl.
Proof.
  intros D Lo. unfold c_sse41_blake3_compress_xof_sse41. rewrite (c_sse41_compress_pre_ok _ _ _ _ _ D). 
  generalize (compress_pre_rows_reg _ _ _ ctr _ D). unfold compress_xof_rows.
  generalize (compress_pre_rows cv block bl ctr fl). intros pre R. exact (xof_rows_stores cv pre out (proj1 D) (proj1 (proj2 D)) R Lo).
Qed.

Theorem c_sse2_g1_ok a b c d m : reg 4 a -> reg 4 b -> reg 4 c -> reg 4 d -> reg 4 m -> c_sse2_g1 a b c d m = g1r a b c d m.
Proof.
  intros Ha Hb Hc Hd Hm. unfold c_sse2_g1, g1r, c_sse2_addv, c_sse2_xorv, mm_add_epi32, mm_xor_si128. cbv zeta.
  rewrite c_sse2_rot16_ok by (apply reg_regz; reg_closure). rewrite c_sse2_rot12_ok by (apply reg_regz; reg_closure). reflexivity.
Qed.
Theorem c_sse2_g2_ok a b c d m : reg 4 a -> reg 4 b -> reg 4 c -> reg 4 d -> reg 4 m -> c_sse2_g2 a b c d m = g2r a b c d m.
Proof.
  intros Ha Hb Hc Hd Hm. unfold c_sse2_g2, g2r, c_sse2_addv, c_sse2_xorv, mm_add_epi32, mm_xor_si128. cbv zeta.
  rewrite c_sse2_rot8_ok by (apply reg_regz; reg_closure). rewrite c_sse2_rot7_ok by (apply reg_regz; reg_closure). reflexivity.
Qed.
Theorem c_sse2_diagonalize_ok a b c : c_sse2_diagonalize a b c = diagonalize a b c.
Proof. reflexivity. Qed.
Theorem c_sse2_undiagonalize_ok a b c : c_sse2_undiagonalize a b c = undiagonalize a b c.
Proof. reflexivity. Qed.
Theorem c_sse2_blend_cc_ok a b : reg 4 a -> reg 4 b -> c_sse2_blend_epi16 a b (cast_s 16 0xcc%Z) = blend_epi16 0 a b 0xCC.
Proof.
  intros Ha Hb. unfold c_sse2_blend_epi16. cbv zeta.
  set (mask := mm_cmpeq_epi16 _ _). assert (E : mask = [0; mask32; 0; mask32]) by (vm_compute; reflexivity). rewrite E.
  apply sse2_blend_select; [assumption|assumption|]. intros k Hk. four_cases k.
Qed.
Theorem c_sse2_blend_c0_ok a b : reg 4 a -> reg 4 b -> c_sse2_blend_epi16 a b (cast_s 16 0xc0%Z) = blend_epi16 0 a b 0xC0.
Proof.
  intros Ha Hb. unfold c_sse2_blend_epi16. cbv zeta.
  set (mask := mm_cmpeq_epi16 _ _). assert (E : mask = [0; 0; 0; mask32]) by (vm_compute; reflexivity). rewrite E.
  apply sse2_blend_select; [assumption|assumption|]. intros k Hk. four_cases k.
Qed.
Theorem c_sse2_compress_pre_ok cv block bl ctr fl : row_dom cv block bl fl ->
  c_sse2_compress_pre cv block bl ctr fl = compress_pre_rows cv block bl ctr fl.
Proof.
  intros D. pose proof D as (Lcv & Wcv & Lb & Bb & Hbl & Hfl). cbv beta delta [c_sse2_compress_pre].
  to_src_pre c_sse2_g1 c_sse2_g2 c_sse2_diagonalize c_sse2_undiagonalize c_sse2_blend_epi16 (fun a b c d : vec => (a, b, c, d)).
  apply (src_compress_pre_rows _ _ _ _ _ c_sse2_g1_ok c_sse2_g2_ok
           c_sse2_diagonalize_ok c_sse2_undiagonalize_ok c_sse2_blend_cc_ok c_sse2_blend_c0_ok (fun r => r)) with (1 := D);
    first [apply loadu_cv_lo; assumption | apply loadu_cv_hi; assumption | unfold c_sse2_set4; apply set4_c_ok; assumption | reflexivity].
Qed.
Theorem c_sse2_blake3_compress_in_place_sse2_ok cv block bl ctr fl : row_dom cv block bl fl ->
  c_sse2_blake3_compress_in_place_sse2 cv block bl ctr fl = compress_in_place_rows cv block bl ctr fl.
Proof.
  intros D. unfold c_sse2_blake3_compress_in_place_sse2. rewrite (c_sse2_compress_pre_ok _ _ _ _ _ D). 
  generalize (compress_pre_rows_reg _ _ _ ctr _ D). unfold compress_in_place_rows.
  generalize (compress_pre_rows cv block bl ctr fl). intros pre R. exact (in_place_rows (fun x => x) cv pre (proj1 D) R).
Qed.
Theorem c_sse2_blake3_compress_xof_sse2_ok cv block bl ctr fl out : row_dom cv block bl fl -> length out = 64%nat ->
  c_sse2_blake3_compress_xof_sse2 cv block bl ctr fl out = compress_xof_rows cv block bl ctr fl.
Proof.
  intros D Lo. unfold c_sse2_blake3_compress_xof_sse2. rewrite (c_sse2_compress_pre_ok _ _ _ _ _ D). 
  generalize (compress_pre_rows_reg _ _ _ ctr _ D). unfold compress_xof_rows.
  generalize (compress_pre_rows cv block bl ctr fl). intros pre R. exact (xof_rows_stores cv pre out (proj1 D) (proj1 (proj2 D)) R Lo).
Qed.

Corollary rs_sse41_compress_in_place_portable cv block bl ctr fl : row_dom cv block bl fl ->
  rs_sse41_compress_in_place cv block bl ctr fl = Ok (compress_in_place cv block bl ctr fl).
Proof. intros D. rewrite (rs_sse41_compress_in_place_ok _ _ _ _ _ D), compress_in_place_rows_ok by apply D. reflexivity. Qed.
Corollary rs_sse41_compress_xof_portable cv block bl ctr fl : row_dom cv block bl fl ->
  rs_sse41_compress_xof cv block bl ctr fl = Ok (compress_xof cv block bl ctr fl).
Proof. intros D. rewrite (rs_sse41_compress_xof_ok _ _ _ _ _ D), compress_xof_rows_ok by apply D. reflexivity. Qed.
Corollary rs_sse2_compress_in_place_portable cv block bl ctr fl : row_dom cv block bl fl ->
  rs_sse2_compress_in_place cv block bl ctr fl = Ok (compress_in_place cv block bl ctr fl).
Proof. intros D. rewrite (rs_sse2_compress_in_place_ok _ _ _ _ _ D), compress_in_place_rows_ok by apply D. reflexivity. Qed.
Corollary rs_sse2_compress_xof_portable cv block bl ctr fl : row_dom cv block bl fl ->
  rs_sse2_compress_xof cv block bl ctr fl = Ok (compress_xof cv block bl ctr fl).
Proof. intros D. rewrite (rs_sse2_compress_xof_ok _ _ _ _ _ D), compress_xof_rows_ok by apply D. reflexivity. Qed.
Corollary c_sse2_compress_in_place_portable cv block bl ctr fl : row_dom cv block bl fl ->
  c_sse2_blake3_compress_in_place_sse2 cv block bl ctr fl = compress_in_place cv block bl ctr fl.
Proof. intros D. rewrite (c_sse2_blake3_compress_in_place_sse2_ok _ _ _ _ _ D). apply compress_in_place_rows_ok, D. Qed.
Corollary c_sse2_compress_xof_portable cv block bl ctr fl out : row_dom cv block bl fl -> length out = 64%nat ->
  c_sse2_blake3_compress_xof_sse2 cv block bl ctr fl out = compress_xof cv block bl ctr fl.
Proof. intros D Lo. rewrite (c_sse2_blake3_compress_xof_sse2_ok _ _ _ _ _ _ D Lo). apply compress_xof_rows_ok, D. Qed.
Corollary c_sse41_compress_in_place_portable cv block bl ctr fl : row_dom cv block bl fl ->
  c_sse41_blake3_compress_in_place_sse41 cv block bl ctr fl = compress_in_place cv block bl ctr fl.
Proof. intros D. rewrite (c_sse41_blake3_compress_in_place_sse41_ok _ _ _ _ _ D). apply compress_in_place_rows_ok, D. Qed.
Corollary c_sse41_compress_xof_portable cv block bl ctr fl out : row_dom cv block bl fl -> length out = 64%nat ->
  c_sse41_blake3_compress_xof_sse41 cv block bl ctr fl out = compress_xof cv block bl ctr fl.
Proof. intros D Lo. rewrite (c_sse41_blake3_compress_xof_sse41_ok _ _ _ _ _ _ D Lo). apply compress_xof_rows_ok, D. Qed.
Corollary c_avx512_compress_in_place_portable cv block bl ctr fl : row_dom cv block bl fl ->
  c_avx512_blake3_compress_in_place_avx512 cv block bl ctr fl = compress_in_place cv block bl ctr fl.
Proof. intros D. rewrite (c_avx512_blake3_compress_in_place_avx512_ok _ _ _ _ _ D). apply compress_in_place_rows_ok, D. Qed.
Corollary c_avx512_compress_xof_portable cv block bl ctr fl out : row_dom cv block bl fl -> length out = 64%nat ->
  c_avx512_blake3_compress_xof_avx512 cv block bl ctr fl out = compress_xof cv block bl ctr fl.
Proof. intros D Lo. rewrite (c_avx512_blake3_compress_xof_avx512_ok _ _ _ _ _ _ D Lo). apply compress_xof_rows_ok, D. Qed.
