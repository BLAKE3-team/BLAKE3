(* C06: blake3_hasher (Model/CHasher.v) simulates the Rust Hasher (Model/RsHasher.v) at input offset 0.  CRel: same
   key and chunk state, and the first cv_stack_len slots of the in-place array, read from the top, are the Rust
   stack (Live).  Whenever a Rust function succeeds, its C counterpart succeeds on a related state with a related
   result; the Rust model asserts more, so this is the direction that holds.  Three steps do not follow from the
   text of the two models alone and are why the lemmas bound the counter or the total number of bytes by 2^64:
   c_popcnt casts to 32 bits where rs_post_merge_len casts to 64; c_subtree_chunks has no cast where the Rust
   formula has one; and compress_subtree_to_parent_node in C asserts num_cvs <= MAX_SIMD_DEGREE_OR_2 and condenses
   only under `#if`, so the two are compared through their specifications (c_to_parent_node_sim). *)
From V Require Import Proofs.ListP Proofs.ResP.
From V Require Import Base.Res Base.Word Base.MachInt gen.GenConsts gen.GenFormulas
  Spec.Compress Spec.Tree Spec.Blake3 Model.Portable Model.Platform Model.RsChunk Model.RsWide Model.RsHasher Model.CHasher
  Proofs.PortableP Proofs.ChunkP Proofs.TreeP Proofs.FormulasP Proofs.WideP Proofs.C01P
  Proofs.StackArithP Proofs.CFormulasP Proofs.CHasherP Proofs.CHasherP2.
Open Scope N_scope.

Lemma firstn_upd_nth_snoc {A} (x : A) : forall st i, (i < length st)%nat ->
  firstn (S i) (upd_nth i x st) = firstn i st ++ [x].
Proof.
  induction st as [|y st IH]; intros i H; [cbn in H; lia|].
  destruct i as [|i]; [reflexivity|]. cbn [upd_nth]. rewrite !firstn_cons. cbn [app].
  rewrite IH by (cbn [length] in H; lia). reflexivity.
Qed.

Lemma firstn_app_prefix {A} (l1 l2 st : list A) n : firstn n st = l1 ++ l2 -> firstn (length l1) st = l1.
Proof.
  intros H. rewrite <- (firstn_skipn n st), H, <- app_assoc. apply firstn_app_exact. reflexivity.
Qed.

Lemma c_shrink_loop_is_rs : forall fuel l c, c_shrink_loop fuel l c = shrink_loop fuel l c.
Proof.
  induction fuel as [|fuel IH]; intros l c; cbn [c_shrink_loop shrink_loop]; rewrite c_shrink_cond_is_rs; [reflexivity|].
  destruct (rs_shrink_cond l c) as [[|]| |]; cbn [bind]; auto.
Qed.

(* arr, of which the first n slots are in use, holds the stack st (top first).  55 = c_cv_stack_slots: cv_stack of
   blake3_hasher (c/blake3.h) has BLAKE3_MAX_DEPTH + 1 entries of 32 bytes. *)
Definition Live (arr : list (list N)) (n : N) (st : list (list N)) : Prop :=
  length arr = 55%nat /\ n = N.of_nat (length st) /\ firstn (length st) arr = rev st.

Lemma Live_le arr n st : Live arr n st -> (length st <= 55)%nat.
Proof. intros (H1 & _ & H3). apply (f_equal (@length _)) in H3. rewrite firstn_length, rev_length in H3. lia. Qed.

Lemma Live_nth arr n pre x post : Live arr n (pre ++ x :: post) -> slot arr (N.of_nat (length post)) = x.
Proof.
  intros (_ & _ & H3). unfold slot. rewrite Nat2N.id.
  rewrite <- (nth_firstn_lt [] _ (length (pre ++ x :: post))) by (rewrite app_length; cbn [length]; lia).
  rewrite H3, rev_app_distr. cbn [rev]. rewrite <- app_assoc. cbn [app].
  rewrite app_nth2, rev_length, Nat.sub_diag by (rewrite rev_length; lia). reflexivity.
Qed.

(* slot `length rest` is overwritten; the entries above it leave the live part *)
Lemma Live_write arr n dropped rest cv : Live arr n (dropped ++ rest) -> (length rest < 55)%nat ->
  Live (upd_nth (length rest) cv arr) (N.of_nat (S (length rest))) (cv :: rest).
Proof.
  intros (H1 & _ & H3) Hl. rewrite rev_app_distr in H3. apply firstn_app_prefix in H3. rewrite rev_length in H3.
  split; [rewrite upd_nth_length; exact H1|]. split; [reflexivity|].
  cbn [length rev]. rewrite firstn_upd_nth_snoc, H3 by lia. reflexivity.
Qed.

Definition CRel (h : c_hasher) (rh : hasher) : Prop :=
  h_key rh = ch_key h /\ h_cs rh = ch_chunk h /\ h_init rh = 0 /\ Live (ch_stack h) (ch_stack_len h) (h_stack rh).

Lemma CRel_with_cs h rh cs : CRel h rh -> CRel (ch_with_chunk h cs) (with_cs rh cs).
Proof. intros (R1 & R2 & R3 & R4). unfold CRel, with_cs, ch_with_chunk. cbn. auto. Qed.

Section Sim.
  Variable p : platform.

  Lemma c_merge_loop_done fuel h post : ch_stack_len h <= post -> c_merge_loop fuel p h post = Ok h.
  Proof. intros H. apply N.leb_le in H. destruct fuel; cbn [c_merge_loop]; rewrite H; reflexivity. Qed.

  Definition same_but_stack (h h' : c_hasher) : Prop := ch_key h' = ch_key h /\ ch_chunk h' = ch_chunk h.

  Lemma c_merge_loop_sim rh : forall fuel fuel' h st post st',
    (fuel <= fuel')%nat -> h_key rh = ch_key h -> h_flags rh = ch_flags h ->
    Live (ch_stack h) (ch_stack_len h) st -> merge_loop fuel p rh st post = Ok st' ->
    exists h', c_merge_loop fuel' p h post = Ok h' /\ same_but_stack h h' /\ Live (ch_stack h') (ch_stack_len h') st'.
  Proof.
    induction fuel as [|fuel IH]; intros fuel' h st post st' Hf Hk Hfl HL H; cbn [merge_loop] in H;
      pose proof HL as (_ & Hn & _);
      (destruct (N.of_nat (length st) <=? post) eqn:E;
       [injection H as <-; exists h; rewrite c_merge_loop_done by lia; unfold same_but_stack; auto|]); [discriminate|].
    destruct st as [|r [|l rest]]; try discriminate. destruct fuel' as [|fuel']; [lia|].
    pose proof (Live_le _ _ _ HL) as Hle. cbn [length] in Hle, Hn, E.
    cbn [c_merge_loop]. rewrite Hn. replace (_ <=? post) with false by lia.
    rewrite check_leb by lia. cbn zeta. change c_cv_stack_slots with 55. rewrite check_leb by lia.
    replace (N.of_nat (S (S (length rest))) - 2) with (N.of_nat (length rest)) by lia.
    rewrite (Live_nth _ _ [r] l rest HL).
    replace (N.of_nat (length rest) + 1) with (N.of_nat (length (l :: rest))) by (cbn [length]; lia).
    rewrite (Live_nth _ _ [] r (l :: rest) HL), sub_small by lia. cbn [bind]. rewrite Nat2N.id.
    replace (N.of_nat (S (S (length rest))) - 1) with (N.of_nat (S (length rest))) by lia.
    destruct (IH fuel' (mkCH (ch_key h) (ch_chunk h) (N.of_nat (S (length rest)))
                          (upd_nth (length rest) (parent_cv p rh l r) (ch_stack h))) _ post st' ltac:(lia) Hk Hfl
                (Live_write _ _ [r; l] rest _ HL ltac:(lia)) H) as (h' & Hrun & Hs & HL').
    exists h'. split; [|split; assumption]. rewrite <- Hrun. unfold parent_cv. rewrite Hk, Hfl. reflexivity.
  Qed.

  Lemma c_merge_cv_stack_sim h rh ctr rh' : CRel h rh -> ctr < 2 ^ 64 -> merge_cv_stack p rh ctr = Ok rh' ->
    exists h', c_merge_cv_stack p h ctr = Ok h' /\ CRel h' rh' /\ same_but_stack h h'.
  Proof.
    intros (R1 & R2 & R3 & R4) Hc H. unfold merge_cv_stack in H. rewrite R3 in H.
    assert (Hp : rs_post_merge_len ctr 0 = Ok (popcount ctr)) by exact (rs_post_merge_len_spec 0 ctr Hc).
    rewrite Hp in H. cbn [bind] in H. inv_bind H st' Hm. injection H as <-.
    unfold c_merge_cv_stack. rewrite c_popcnt_spec by exact Hc. cbn [bind].
    destruct (c_merge_loop_sim rh 64 c_merge_fuel h _ _ st' ltac:(unfold c_merge_fuel; lia) R1
                ltac:(unfold h_flags, ch_flags; rewrite R2; reflexivity) R4 Hm) as (h' & Hrun & (S1 & S2) & HL).
    exists h'. split; [exact Hrun|]. unfold CRel, same_but_stack. cbn [h_key h_cs h_init h_stack]. rewrite S1, S2. auto 10.
  Qed.

  Lemma c_push_cv_sim h rh cv ctr rh' : CRel h rh -> ctr < 2 ^ 64 -> push_cv p rh cv ctr = Ok rh' ->
    exists h', c_push_cv p h cv ctr = Ok h' /\ CRel h' rh' /\ same_but_stack h h'.
  Proof.
    intros HR Hc H. unfold push_cv in H. inv_bind H rh1 Hm. inv_check H E. injection H as <-.
    destruct (c_merge_cv_stack_sim h rh ctr rh1 HR Hc Hm) as (h1 & Hrun & (R1 & R2 & R3 & R4) & HS).
    unfold c_push_cv. rewrite Hrun. cbn [bind]. pose proof R4 as (_ & Hn & _).
    change rs_cv_stack_cap with 55 in E. change c_cv_stack_slots with 55. rewrite Hn, check_ltb by lia.
    rewrite add_small by (change (2 ^ 8) with 256; lia). cbn [bind]. rewrite Nat2N.id.
    eexists. split; [reflexivity|]. split; [|exact HS].
    unfold CRel. cbn [h_key h_cs h_init h_stack ch_key ch_chunk ch_stack ch_stack_len].
    split; [exact R1|]. split; [exact R2|]. split; [exact R3|].
    replace (N.of_nat (length (h_stack rh1)) + 1) with (N.of_nat (S (length (h_stack rh1)))) by lia.
    apply (Live_write _ _ [] _ cv R4). lia.
  Qed.

  Hypothesis POK : PlatformOK p.

  (* compared through their specifications: both return the children of the specification tree *)
  Lemma c_to_parent_node_sim input K ctr F v :
    length K = 8%nat -> len input < 2 ^ 64 -> ctr + chunks (len input) < 2 ^ 64 ->
    compress_subtree_to_parent_node p input K ctr F = Ok v -> c_compress_subtree_to_parent_node p input K ctr F = Ok v.
  Proof.
    intros HK H64 Hc H. pose proof H as H0. unfold compress_subtree_to_parent_node in H0. inv_check H0 E.
    change rs_CHUNK_LEN with 1024 in E. unfold nlen in E. fold (len input) in E.
    destruct (to_parent_node_spec spec_c8 p POK spec_c8_cip spec_c8_len K F HK input ctr) as (ta & tb & Hr & Ht & _); try lia.
    destruct (c_to_parent_node_spec p POK K F HK input ctr) as (ta' & tb' & Hr' & Ht' & _); try lia.
    rewrite Ht in Ht'. injection Ht' as <- <-. rewrite Hr', <- Hr. exact H.
  Qed.

  Lemma c_update_loop_sim : forall fuel h rh input rh' rest,
    CRel h rh -> length (ch_key h) = 8%nat -> 1024 * cs_ctr (ch_chunk h) + nlen input < 2 ^ 64 ->
    update_loop fuel p rh input = Ok (rh', rest) ->
    exists h', c_update_loop fuel p h input = Ok (h', rest) /\ CRel h' rh' /\ ch_key h' = ch_key h /\
               1024 * cs_ctr (ch_chunk h') + nlen rest < 2 ^ 64.
  Proof.
    induction fuel as [|fuel IH]; intros h rh input rh' rest HR HK Hb H; cbn [update_loop] in H; cbn [c_update_loop];
      change c_CHUNK_LEN with rs_CHUNK_LEN; destruct (nlen input <=? rs_CHUNK_LEN) eqn:E;
      try (injection H as <- <-; exists h; auto); [discriminate|].
    change rs_CHUNK_LEN with 1024 in *. cbn zeta in *. pose proof HR as (R1 & R2 & R3 & R4). rewrite R1, R2 in H.
    set (cs := ch_chunk h) in *. rewrite two64 in Hb.
    inv_bind H c Ec. inv_check H E0. inv_bind H sl0 Es0. inv_bind H csf Ecsf. inv_bind H sl Esl. inv_bind H sc Esc.
    inv_check H Ele. inv_bind H rh1 Eh1. inv_bind H ctr' Ectr.
    assert (Hsc : sc = sl / 1024).
    { unfold rs_subtree_chunks, mu, mb, mi_div in Esc. cbn [bind] in Esc. change (rs_CHUNK_LEN =? 0) with false in Esc.
      cbn [bind] in Esc. rewrite cast_small in Esc by (rewrite two64; change rs_CHUNK_LEN with 1024; lia).
      injection Esc as <-. reflexivity. }
    apply mi_add_Ok in Ectr. destruct Ectr as [-> Hctr]. rewrite two64 in Hctr.
    rewrite c_round_down_is_rs, Es0 by (rewrite ?two64; lia). cbn [bind].
    (* c_count_so_far and, below, c_right_cv_counter are convertible to the Rust formulas (the cast of CHUNK_LEN in
       rs_count_so_far computes away): the Rust result is taken over as it is, where c_count_so_far_spec would
       compute it again from a bound *)
    change (c_count_so_far (cs_ctr cs)) with (rs_count_so_far (cs_ctr cs)). rewrite Ecsf. cbn [bind].
    rewrite c_shrink_loop_is_rs, Esl. cbn [bind]. rewrite c_subtree_chunks_spec. cbn [bind]. rewrite check_leb by lia.
    match goal with |- context [bind ?X (fun h0 => bind (mi_add _ _ _) _)] => assert (Hpush : exists h1, X = Ok h1 /\ CRel h1 rh1 /\ same_but_stack h h1) end.
    { destruct (sl <=? 1024) eqn:Eb.
      - inv_check Eh1 Eeq. inv_bind Eh1 cs1 Ecs1. apply c_cs_update_sim in Ecs1.
        match goal with |- context [c_cs_update p ?x ?y] =>
          change (c_cs_update p x y) with (c_cs_update p (cs_new (ch_key h) (cs_ctr cs) (cs_flags cs)) y) end.
        rewrite Ecs1. cbn [bind]. rewrite (proj2 (c_cs_update_fields p _ _ _ Ecs1)). cbn [cs_ctr cs_new].
        apply (c_push_cv_sim h rh _ _ rh1 HR); [rewrite two64; lia|exact Eh1].
      - inv_bind Eh1 cvp Ecvp. inv_check Eh1 E64. inv_bind Eh1 rh2 Ep1. inv_bind Eh1 rc Erc.
        assert (Hlp : len (firstn (N.to_nat sl) input) = sl) by (rewrite firstn_N, len_take; unfold len, nlen in *; lia).
        assert (Hch : cs_ctr cs + chunks sl < 2 ^ 64). { rewrite two64. unfold chunks. lia. }
        rewrite (c_to_parent_node_sim _ _ _ _ _ HK ltac:(rewrite Hlp, two64; lia)
                   ltac:(rewrite Hlp; exact Hch) Ecvp). cbn [bind].
        destruct (c_push_cv_sim h rh _ (cs_ctr cs) rh2 HR ltac:(rewrite two64; lia) Ep1) as (h2 & Hp1 & HR2 & S1 & S2).
        rewrite Hp1. cbn [bind]. change (c_right_cv_counter (cs_ctr cs) (sl / 1024)) with (rs_right_cv_counter (cs_ctr cs) (sl / 1024)).
        rewrite <- Hsc, Erc. cbn [bind].
        assert (Hrc : rc < 2 ^ 64).
        { unfold rs_right_cv_counter, mb, mi_div in Erc. cbn [bind] in Erc. apply mi_add_Ok in Erc. apply Erc. }
        destruct (c_push_cv_sim h2 rh2 _ _ rh1 HR2 Hrc Eh1) as (h1 & Hp2 & HR1 & T1 & T2).
        exists h1. split; [exact Hp2|]. split; [exact HR1|]. split; congruence. }
    destruct Hpush as (h1 & Hp & HR1 & S1 & S2). rewrite Hp. cbn [bind]. rewrite <- Hsc, add_small by (rewrite two64; lia). cbn [bind].
    match type of H with update_loop _ _ (with_cs _ ?cs') ?inp = _ =>
      destruct (IH (ch_with_chunk h1 cs') (with_cs rh1 cs') inp rh' rest (CRel_with_cs h1 rh1 cs' HR1))
        as (h' & Hrun & HR' & Hk' & Hb'); cbn [ch_with_chunk ch_key ch_chunk cs_ctr]
    end; [congruence|unfold nlen in *; rewrite skipn_length, two64; lia|exact H|].
    exists h'. split; [exact Hrun|]. split; [exact HR'|]. split; [|exact Hb']. rewrite Hk'. exact S1.
  Qed.

  (* the subtree loop, the final partial chunk and the extra merge *)
  Definition c_update_tail (h : c_hasher) (input : list N) : res c_hasher :=
    '(h, input) <- c_update_loop (S (Nat.div (length input) 1024)) p h input ;;
    if 0 <? nlen input then
      cs <- c_cs_update p (ch_chunk h) input ;;
      c_merge_cv_stack p (ch_with_chunk h cs) (cs_ctr cs)
    else Ok h.

  Lemma c_update_tail_sim h rh input rh' :
    CRel h rh -> length (ch_key h) = 8%nat -> 1024 * cs_ctr (ch_chunk h) + nlen input < 2 ^ 64 ->
    hasher_update_tail p rh input = Ok rh' -> exists h', c_update_tail h input = Ok h' /\ CRel h' rh'.
  Proof.
    intros HR HK Hb H. unfold hasher_update_tail in H. inv_bind H r Er. destruct r as [rh1 rest]. inv_check H E.
    destruct (c_update_loop_sim _ h rh input rh1 rest HR HK Hb Er) as (h1 & Hrun & HR1 & _ & Hb1).
    unfold c_update_tail. rewrite Hrun. cbn [bind]. pose proof HR1 as (_ & R2 & _).
    destruct (nlen rest =? 0) eqn:Ez; cbn [negb] in H.
    - replace (0 <? nlen rest) with false by lia. injection H as <-. exists h1. auto.
    - replace (0 <? nlen rest) with true by lia. rewrite R2 in H. inv_bind H cs Ecs.
      rewrite (c_cs_update_sim p _ _ _ Ecs). cbn [bind].
      destruct (c_merge_cv_stack_sim (ch_with_chunk h1 cs) (with_cs rh1 cs) (cs_ctr cs) rh' (CRel_with_cs _ _ _ HR1)) as (h' & Hm & HR' & _);
        [rewrite (proj2 (c_cs_update_fields p _ _ _ (c_cs_update_sim p _ _ _ Ecs))); lia|exact H|].
      exists h'. auto.
  Qed.

  Lemma c_hasher_update_sim h rh input c rh' :
    CRel h rh -> length (ch_key h) = 8%nat -> input <> [] ->
    cs_count (ch_chunk h) = Ok c -> 1024 * cs_ctr (ch_chunk h) + c + nlen input < 2 ^ 64 ->
    hasher_update p rh input = Ok rh' -> exists h', c_hasher_update p h input = Ok h' /\ CRel h' rh'.
  Proof.
    intros HR HK Hne Hc Hb H. pose proof HR as (R1 & R2 & R3 & R4). unfold hasher_update in H. rewrite R3, R2 in H.
    change (rs_input_offset 0) with (@Ok N 0) in H. cbn [bind] in H. change (rs_max_subtree_len 0) with (@Ok (option N) None) in H.
    cbn [bind] in H. rewrite Hc in H. cbn [bind] in H. inv_bind H r Er. destruct r as [[rh1 in1] done].
    unfold c_hasher_update. replace (nlen input =? 0) with false by (destruct input; [contradiction|reflexivity]).
    change (c_cs_len (ch_chunk h)) with (cs_count (ch_chunk h)). rewrite Hc. cbn [bind].
    match goal with |- context [bind ?X _] =>
      assert (H1 : exists h1, X = Ok (h1, in1, done) /\ CRel h1 rh1 /\ length (ch_key h1) = 8%nat /\
                     (done = false -> 1024 * cs_ctr (ch_chunk h1) + nlen in1 < 2 ^ 64)) end.
    { destruct (0 <? c) eqn:E0; [|injection Er as <- <- <-; exists h; split; [reflexivity|]; split; [exact HR|]; split; [exact HK|]; intros _; lia].
      change c_CHUNK_LEN with rs_CHUNK_LEN. inv_bind Er want Ew. rewrite Ew. cbn [bind]. cbn zeta in *.
      apply mi_sub_Ok in Ew. destruct Ew as [-> Hw]. change rs_CHUNK_LEN with 1024 in *.
      inv_bind Er cs Ecs. apply c_cs_update_sim in Ecs. rewrite Ecs. cbn [bind].
      destruct (c_cs_update_fields p _ _ _ Ecs) as [_ Hctr].
      set (in1' := skipn (N.to_nat (N.min (1024 - c) (nlen input))) input) in *.
      destruct (nlen in1' =? 0) eqn:Ez; cbn [negb] in Er.
      - replace (0 <? nlen in1') with false by lia. injection Er as <- <- <-.
        exists (ch_with_chunk h cs). split; [reflexivity|]. split; [apply CRel_with_cs; exact HR|]. split; [exact HK|discriminate].
      - replace (0 <? nlen in1') with true by lia. inv_bind Er c' Ec'. inv_check Er E1. inv_bind Er rh2 Ep. inv_bind Er ctr' Ectr.
        injection Er as <- <- <-.
        destruct (c_push_cv_sim (ch_with_chunk h cs) (with_cs rh cs) _ (cs_ctr cs) rh2 (CRel_with_cs _ _ _ HR) ltac:(rewrite Hctr, two64 in *; lia) Ep)
          as (h2 & Hp & HR2 & S1 & S2).
        change (c_output_chaining_value p (c_cs_output cs)) with (out_chaining_value p (cs_output cs)). rewrite Hp. cbn [bind].
        rewrite Ectr. cbn [bind]. apply mi_add_Ok in Ectr. destruct Ectr as [-> _].
        eexists. split; [reflexivity|]. pose proof HR2 as (Q1 & _). cbn [ch_with_chunk ch_key] in S1. rewrite Q1, S1.
        split; [apply CRel_with_cs; exact HR2|]. split; [cbn [ch_with_chunk ch_key]; rewrite S1; exact HK|]. intros _. cbn [ch_with_chunk ch_chunk c_cs_reset cs_ctr].
        unfold in1', nlen in *. rewrite skipn_length in *. rewrite Hctr, two64 in *. lia. }
    destruct H1 as (h1 & -> & HR1 & HK1 & Hb1). cbn [bind]. destruct done.
    - injection H as <-. exists h1. auto.
    - apply (c_update_tail_sim h1 rh1 in1 rh' HR1 HK1 (Hb1 eq_refl) H).
  Qed.

  Lemma c_finalize_loop_sim h rh n : h_key rh = ch_key h -> h_flags rh = ch_flags h -> forall st pre o,
    Live (ch_stack h) n (pre ++ st) -> c_finalize_loop (length st) p h o = Ok (final_fold p rh o st).
  Proof.
    intros Hk Hf. induction st as [|cv st IH]; intros pre o HL; [reflexivity|].
    pose proof (Live_le _ _ _ HL) as Hle. rewrite app_length in Hle. cbn [length] in Hle.
    cbn [length c_finalize_loop final_fold]. change c_cv_stack_slots with 55. rewrite check_ltb by lia.
    rewrite (Live_nth _ _ pre cv st HL), Hk, Hf. apply (IH (pre ++ [cv])). rewrite <- app_assoc. exact HL.
  Qed.

  Lemma c_final_output_sim h rh o : CRel h rh -> final_output p rh = Ok o -> c_final_output p h = Ok o.
  Proof.
    intros (R1 & R2 & R3 & R4) H. pose proof R4 as (_ & Hn & _). pose proof (Live_le _ _ _ R4) as Hle.
    assert (Hf : h_flags rh = ch_flags h) by (unfold h_flags, ch_flags; rewrite R2; reflexivity).
    unfold final_output in H. unfold c_final_output. rewrite Hn. rewrite R2 in H.
    change (c_cs_len (ch_chunk h)) with (cs_count (ch_chunk h)). change (c_cs_output (ch_chunk h)) with (cs_output (ch_chunk h)).
    destruct (h_stack rh) as [|r st] eqn:Es; [inv_check H E; exact H|]. cbn [length] in *.
    replace (N.of_nat (S (length st)) =? 0) with false by lia. inv_bind H c Ec. rewrite Ec. cbn [bind].
    destruct (0 <? c).
    - inv_bind H t Et. inv_check H E. injection H as <-. cbn [bind]. rewrite Nat2N.id.
      apply (c_finalize_loop_sim h rh (ch_stack_len h) R1 Hf (r :: st) []). exact R4.
    - destruct st as [|l rest]; [discriminate|]. injection H as <-. cbn [length] in *.
      rewrite check_leb by lia. cbn zeta. change c_cv_stack_slots with 55. rewrite check_leb by lia. cbn [bind].
      replace (N.of_nat (S (S (length rest))) - 2) with (N.of_nat (length rest)) by lia. rewrite Nat2N.id.
      rewrite (Live_nth _ _ [r] l rest R4).
      replace (N.of_nat (length rest) + 1) with (N.of_nat (length (l :: rest))) by (cbn [length]; lia).
      rewrite (Live_nth _ _ [] r (l :: rest) R4), <- R1, <- Hf.
      apply (c_finalize_loop_sim h rh (ch_stack_len h) R1 Hf rest [r; l]). exact R4.
  Qed.
End Sim.
