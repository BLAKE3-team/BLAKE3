(* The two interpreters of the C case language agree: whenever the SPECIFICATION machine
   (Model/CSpecMachine.v: one byte list + trace per blake3_hasher; Spec/*.v only) accepts a
   history, the IMPLEMENTATION machine (Model/CHasher.v: c_run_case, built from the executable
   model of c/blake3.c) produces exactly the same observations and does not panic, on every
   PlatformOK platform (= every feature level the C dispatcher can select).  Proved by a
   simulation relation (Forall2 of: CInv K F h bytes, and h is the replay of the trace from the
   initialiser's struct) and one step lemma per op, reusing Proofs/CHasherP4.v.
   The same histories restricted to new / update / finalize(n) / reset give the same
   observations as the Rust machine (Model/Machine.v) on the corresponding ops. *)
From V Require Import Proofs.ListP Proofs.ResP.
From V Require Import Base.Res Base.Word Base.MachInt gen.GenConsts gen.GenFormulas
  Spec.Compress Spec.Tree Spec.Blake3 Model.Portable Model.Platform Model.RsChunk Model.RsWide Model.RsXof
  Model.CHasher Model.CSpecMachine Model.Machine Model.SpecMachine
  Proofs.WordP Proofs.PortableP Proofs.ChunkP Proofs.TreeP Proofs.FormulasP Proofs.WideP Proofs.C01P Proofs.XofP
  Proofs.StackArithP Proofs.HasherP Proofs.CFormulasP Proofs.CHasherP Proofs.CHasherP2 Proofs.CHasherP3 Proofs.CHasherP4
  Proofs.C02P Proofs.MachineRefinesP.
Open Scope N_scope.

Definition c_mode_ok (m : c_mode) : Prop :=
  match m with
  | CMHash => True
  | CMKeyed k => length k = 32%nat
  | CMDerive c | CMDeriveRaw c => len c < 2 ^ 64
  end.

Definition ckey (m : c_mode) : list N := mode_key (c_spec_mode m).
Definition cflags (m : c_mode) : N := mode_flags (c_spec_mode m).

Lemma c_get_nth (l : list c_hasher) i x : nth_error l i = Some x -> c_get l i = Ok x.
Proof. unfold c_get. intros ->. reflexivity. Qed.

(* CHasher.upd_nth is Machine.set_nth with the arguments in another order: the facts about it are those of set_nth
   (C02P.v) *)
Lemma upd_nth_set_nth {A} i (x : A) l : upd_nth i x l = set_nth l i x.
Proof.
  revert i. induction l as [|y l IH]; intros i; [destruct i; reflexivity|].
  destruct i as [|i]; cbn [upd_nth set_nth]; [reflexivity|]. rewrite IH. reflexivity.
Qed.

Lemma list_eqb_eq {A} (eqb : A -> A -> bool) : (forall x y, eqb x y = true -> x = y) ->
  forall a b, list_eqb eqb a b = true -> a = b.
Proof.
  intros H. induction a as [|x a IH]; intros [|y b] E; cbn [list_eqb] in E; try discriminate; [reflexivity|].
  apply andb_true_iff in E. destruct E as [E1 E2]. rewrite (H x y E1), (IH b E2). reflexivity.
Qed.

Lemma c_ev_eqb_eq a b : c_ev_eqb a b = true -> a = b.
Proof.
  destruct a as [x|], b as [y|]; cbn [c_ev_eqb]; intros E; try discriminate; [|reflexivity].
  rewrite (list_eqb_eq N.eqb (fun u v Huv => proj1 (N.eqb_eq u v) Huv) x y E). reflexivity.
Qed.

Lemma c_trace_eqb_eq a b : list_eqb c_ev_eqb a b = true -> a = b.
Proof. apply list_eqb_eq. exact c_ev_eqb_eq. Qed.

Lemma c_str_prefix_nz c : Forall (fun b => b <> 0) (c_str_prefix c).
Proof.
  induction c as [|b c IH]; cbn [c_str_prefix]; [constructor|].
  destruct (b =? 0) eqn:E; [constructor|]. constructor; [lia|exact IH].
Qed.

Lemma c_str_prefix_len c : len (c_str_prefix c) <= len c.
Proof.
  unfold len. induction c as [|b c IH]; cbn [c_str_prefix]; [lia|].
  destruct (b =? 0); cbn [length]; lia.
Qed.

Lemma c_str_prefix_split c : exists rest, c ++ [0] = c_str_prefix c ++ 0 :: rest.
Proof.
  induction c as [|b c [rest IH]]; cbn [c_str_prefix app]; [exists []; reflexivity|].
  destruct (b =? 0) eqn:E.
  - exists (c ++ [0]). replace b with 0 by lia. reflexivity.
  - exists rest. cbn [app]. rewrite IH. reflexivity.
Qed.

Fixpoint c_replay (p : platform) (h : c_hasher) (tr : list c_ev) : res c_hasher :=
  match tr with
  | [] => Ok h
  | CEvUpdate b :: tl => h' <- c_hasher_update p h b ;; c_replay p h' tl
  | CEvReset :: tl => c_replay p (c_hasher_reset h) tl
  end.

Lemma c_replay_app p : forall tr1 tr2 h0 h,
  c_replay p h0 tr1 = Ok h -> c_replay p h0 (tr1 ++ tr2) = c_replay p h tr2.
Proof.
  induction tr1 as [|e tr1 IH]; intros tr2 h0 h H.
  - cbn [c_replay app] in *. injection H as ->. reflexivity.
  - destruct e as [b|]; cbn [c_replay app] in *.
    + destruct (c_hasher_update p h0 b) as [h'| |]; cbn [bind] in *; try discriminate.
      apply IH. exact H.
    + apply IH. exact H.
Qed.

Section Modes.
  Variable p : platform.
  Hypothesis POK : PlatformOK p.
  Local Opaque subtree_output stream.

  Lemma ckey_length m : c_mode_ok m -> length (ckey m) = 8%nat.
  Proof.
    destruct m as [|k|c|c]; cbn [c_mode_ok ckey c_spec_mode mode_key]; intros H.
    - reflexivity.
    - apply words_of_bytes_length. rewrite H. reflexivity.
    - exact (derive_key_len (c_str_prefix c)).
    - exact (derive_key_len c).
  Qed.

  Lemma c_new_hasher_spec m : c_mode_ok m ->
    c_new_hasher p m = Ok (c_hasher_init_base c_mem_cd (ckey m) (cflags m)).
  Proof.
    destruct m as [|k|c|c]; cbn [c_mode_ok c_new_hasher]; intros H.
    - reflexivity.
    - exact (proj1 (c_init_keyed_spec c_mem_cd k H)).
    - destruct (c_str_prefix_split c) as [rest Hs]. rewrite Hs.
      rewrite (c_derive_key_agree p c_mem_cd (c_str_prefix c) rest (c_str_prefix_nz c)).
      pose proof (c_str_prefix_len c) as Hl.
      exact (c_init_derive_key_raw_spec p POK c_mem_cd (c_str_prefix c) ltac:(lia)).
    - exact (c_init_derive_key_raw_spec p POK c_mem_cd c H).
  Qed.
End Modes.

Section Steps.
  Variable p : platform.
  Hypothesis POK : PlatformOK p.
  Variable m : c_mode.
  Hypothesis Hm : c_mode_ok m.
  Local Opaque subtree_output stream.

  Notation K := (ckey m).
  Notation F := (cflags m).

  Notation HK := (ckey_length m Hm).

  (* the struct every initialiser call of the case produces *)
  Definition c_h0 : c_hasher := c_hasher_init_base c_mem_cd K F.

  Definition CRh (h : c_hasher) (x : c_sinst) : Prop :=
    CInv K F h (ci_bytes x) /\ c_replay p c_h0 (ci_trace x) = Ok h.

  Definition CSim (hs : list c_hasher) (ss : list c_sinst) : Prop := Forall2 CRh hs ss.

  Lemma CRh_new : CRh c_h0 (mkCI [] []).
  Proof. split; [apply (CInv_init K F HK c_mem_cd eq_refl)|reflexivity]. Qed.

  Lemma c_root_out_eq bs : c_root_out m bs = subtree_output spec_c8 tree_height K F 0 bs.
  Proof. reflexivity. Qed.

  Lemma csim_update h x b : CRh h x -> len (ci_bytes x) + len b < 2 ^ 64 ->
    exists h', c_hasher_update p h b = Ok h' /\
               CRh h' (mkCI (ci_bytes x ++ b) (c_trace_update (ci_trace x) b)).
  Proof.
    intros [HI HT] Hl.
    destruct (c_hasher_update_spec p POK K F HK h (ci_bytes x) b HI) as (h' & Hu & HI').
    { rewrite len_app. exact Hl. }
    exists h'. split; [exact Hu|]. split; [exact HI'|]. cbn [ci_trace].
    destruct b as [|b0 b]; cbn [c_trace_update].
    - change (c_hasher_update p h []) with (Ok h) in Hu. injection Hu as <-. exact HT.
    - rewrite (c_replay_app p _ [CEvUpdate (b0 :: b)] _ _ HT). cbn [c_replay]. rewrite Hu. reflexivity.
  Qed.

  Lemma csim_reset h x : CRh h x -> CRh (c_hasher_reset h) (mkCI [] (ci_trace x ++ [CEvReset])).
  Proof.
    intros [HI HT]. split; [apply (CInv_reset K F HK h _ HI)|].
    cbn [ci_trace]. rewrite (c_replay_app p _ [CEvReset] _ _ HT). reflexivity.
  Qed.

  Lemma csim_finalize_seek h x seek n : CRh h x -> seek + n <= 2 ^ 64 - 1 ->
    c_hasher_finalize_seek p h seek n = Ok (stream spec_c64 (c_root_out m (ci_bytes x)) seek (N.to_nat n)).
  Proof.
    intros [HI _] Hn. rewrite c_root_out_eq. apply (c_finalize_seek_spec p POK K F HK h _ seek n HI Hn).
  Qed.

  Lemma csim_same a b x y : CRh a x -> CRh b y -> list_eqb c_ev_eqb (ci_trace x) (ci_trace y) = true ->
    c_hasher_eqb a b = true.
  Proof.
    intros [_ Ha] [_ Hb] E. apply c_trace_eqb_eq in E. rewrite E in Ha. rewrite Ha in Hb. injection Hb as <-.
    apply c_hasher_eqb_refl.
  Qed.

  Definition c_step_ok (o : c_op) : Prop := forall hs ss ss' out,
    CSim hs ss -> c_sstep m ss o = Some (ss', out) ->
    exists hs', c_step p m hs o = Ok (hs', out) /\ CSim hs' ss'.

  (* as `start` and `get_h` of MachineRefinesP.v: both steps computed up to the lookup of an instance; then instance i
     of the specification state exists (or Hs is absurd), and so does the related hasher *)
  Ltac cstart := intros hs ss ss' out HH Hs; unfold CSim in *; cbn [c_sstep c_step] in *.

  Ltac cget i x h En Hn HR :=
    match goal with
    | HH : Forall2 CRh _ ?ss, Hs : _ = Some _ |- _ =>
        revert Hs; destruct (nth_error ss i) as [x|] eqn:En; [|discriminate]; intros Hs;
        destruct (Forall2_nth _ _ _ _ _ HH En) as (h & Hn & HR);
        rewrite (c_get_nth _ _ _ Hn), bind_Ok_l
    end.

  Lemma cstep_new : c_step_ok COpNew.
  Proof.
    cstart. injection Hs as <- <-. rewrite (c_new_hasher_spec p POK m Hm), bind_Ok_l.
    eexists. split; [reflexivity|]. apply Forall2_snoc; [exact HH|exact CRh_new].
  Qed.

  Lemma cstep_update i b : c_step_ok (COpUpdate i b).
  Proof.
    cstart. cget i x h En Hn HR.
    destruct (len (ci_bytes x) + len b <? 2 ^ 64) eqn:El; [|discriminate]. apply N.ltb_lt in El.
    injection Hs as <- <-.
    destruct (csim_update h x b HR El) as (h' & Hu & HR'). rewrite Hu, bind_Ok_l.
    eexists. split; [reflexivity|]. rewrite !upd_nth_set_nth. apply Forall2_set_nth; assumption.
  Qed.

  Lemma cstep_update0 i : c_step_ok (COpUpdate0 i).
  Proof.
    cstart. cget i x h En Hn HR. injection Hs as <- <-. rewrite c_update_zero, bind_Ok_l.
    rewrite upd_nth_set_nth, (set_nth_same _ _ _ Hn). eexists. split; [reflexivity|exact HH].
  Qed.

  Lemma cstep_finalize i n : c_step_ok (COpFinalize i n).
  Proof.
    cstart. cget i x h En Hn HR.
    destruct (n <=? c_max_position) eqn:El; [|discriminate]. apply N.leb_le in El. unfold c_max_position in El.
    injection Hs as <- <-. unfold c_hasher_finalize.
    rewrite (csim_finalize_seek h x 0 n HR ltac:(lia)), bind_Ok_l.
    eexists. split; [reflexivity|exact HH].
  Qed.

  Lemma cstep_finalize_seek i seek n : c_step_ok (COpFinalizeSeek i seek n).
  Proof.
    cstart. cget i x h En Hn HR.
    destruct (seek + n <=? c_max_position) eqn:El; [|discriminate]. apply N.leb_le in El. unfold c_max_position in El.
    injection Hs as <- <-.
    rewrite (csim_finalize_seek h x seek n HR El), bind_Ok_l.
    eexists. split; [reflexivity|exact HH].
  Qed.

  Lemma cstep_finalize0 i : c_step_ok (COpFinalize0 i).
  Proof.
    cstart. cget i x h En Hn HR. injection Hs as <- <-.
    rewrite c_finalize_zero, bind_Ok_l, c_finalize_seek_zero, bind_Ok_l.
    eexists. split; [reflexivity|exact HH].
  Qed.

  Lemma cstep_reset i : c_step_ok (COpReset i).
  Proof.
    cstart. cget i x h En Hn HR. injection Hs as <- <-.
    eexists. split; [reflexivity|]. rewrite !upd_nth_set_nth. apply Forall2_set_nth; [exact HH|]. apply csim_reset. exact HR.
  Qed.

  Lemma cstep_clone i : c_step_ok (COpClone i).
  Proof.
    cstart. cget i x h En Hn HR. injection Hs as <- <-.
    eexists. split; [reflexivity|]. apply Forall2_snoc; assumption.
  Qed.

  Lemma cstep_cmp i j : c_step_ok (COpCmp i j).
  Proof.
    cstart. cget i x a En Hn HR.
    revert Hs. destruct (nth_error ss j) as [y|] eqn:En2; [|discriminate]. intros Hs.
    destruct (Forall2_nth _ _ _ _ _ HH En2) as (b & Hn2 & HR2).
    rewrite (c_get_nth _ _ _ Hn2), bind_Ok_l.
    destruct (list_eqb c_ev_eqb (ci_trace x) (ci_trace y)) eqn:E; [|discriminate]. injection Hs as <- <-.
    rewrite (csim_same a b x y HR HR2 E).
    eexists. split; [reflexivity|exact HH].
  Qed.

  Theorem c_step_refines_spec o : c_step_ok o.
  Proof.
    destruct o.
    - apply cstep_new.
    - apply cstep_update.
    - apply cstep_update0.
    - apply cstep_finalize.
    - apply cstep_finalize_seek.
    - apply cstep_finalize0.
    - apply cstep_reset.
    - apply cstep_clone.
    - apply cstep_cmp.
  Qed.

  Theorem c_run_refines_spec : forall ops hs ss obs,
    CSim hs ss -> c_srun m ss ops = Some obs -> c_run_ops p m hs ops [] = (obs, Ok tt).
  Proof.
    intros ops hs ss obs.
    exact (run_sim (c_step p m) (c_sstep m) (c_run_ops p m) (c_srun m) CSim
             (fun _ _ => eq_refl) (fun _ _ _ _ => eq_refl) (fun _ => eq_refl) (fun _ _ _ => eq_refl)
             c_step_refines_spec ops hs ss obs []).
  Qed.

  Lemma CSim_init : CSim [c_h0] [mkCI [] []].
  Proof. constructor; [exact CRh_new|constructor]. Qed.
End Steps.

Theorem c_machine_refines_spec : forall p, PlatformOK p -> forall m ops obs,
  c_mode_ok m -> c_spec_run_case m ops = Some obs -> c_run_case p m ops = (obs, Ok tt).
Proof.
  intros p POK m ops obs Hm Hs. unfold c_run_case. rewrite (c_new_hasher_spec p POK m Hm).
  apply (c_run_refines_spec p POK m Hm ops _ _ obs (CSim_init p m Hm) Hs).
Qed.

(* consequences: the model of the C library never leaves an array, fires an assert or wraps an integer on a
   history the specification accepts, and its observations do not depend on the dispatcher's feature level *)
Corollary c_machine_no_panic : forall p, PlatformOK p -> forall m ops obs,
  c_mode_ok m -> c_spec_run_case m ops = Some obs -> snd (c_run_case p m ops) = Ok tt.
Proof. intros p POK m ops obs Hm Hs. rewrite (c_machine_refines_spec p POK m ops obs Hm Hs). reflexivity. Qed.

Corollary c_machine_platform_independent : forall p1 p2, PlatformOK p1 -> PlatformOK p2 -> forall m ops obs,
  c_mode_ok m -> c_spec_run_case m ops = Some obs -> c_run_case p1 m ops = c_run_case p2 m ops.
Proof.
  intros p1 p2 P1 P2 m ops obs Hm Hs.
  rewrite (c_machine_refines_spec p1 P1 m ops obs Hm Hs), (c_machine_refines_spec p2 P2 m ops obs Hm Hs). reflexivity.
Qed.

(* The C machine and the Rust machine.
   Histories of new / update / finalize(n) / reset exist in both case languages (finalize(n) is
   finalize_xof + fill(n) on the Rust side): both implementation machines produce the same output bytes,
   because both equal their specification machines and those agree on this fragment. *)
Definition c_to_rs_mode (m : c_mode) : mmode :=
  match m with
  | CMHash => MHash
  | CMKeyed k => MKeyed k
  | CMDerive c => MDerive (c_str_prefix c)
  | CMDeriveRaw c => MDerive c
  end.

Definition c_to_rs_op (o : c_op) : option op :=
  match o with
  | COpNew => Some OpNew
  | COpUpdate i b => Some (OpUpdate i b)
  | COpFinalize i n => Some (OpXof i n)
  | COpReset i => Some (OpReset i)
  | _ => None
  end.

Fixpoint c_to_rs_ops (l : list c_op) : option (list op) :=
  match l with
  | [] => Some []
  | o :: tl => match c_to_rs_op o, c_to_rs_ops tl with
               | Some o', Some tl' => Some (o' :: tl')
               | _, _ => None
               end
  end.

Lemma c_to_rs_mode_ok m : c_mode_ok m -> mode_ok (c_to_rs_mode m).
Proof.
  destruct m as [|k|c|c]; cbn [c_mode_ok c_to_rs_mode mode_ok]; intros H; try exact H.
  pose proof (c_str_prefix_len c). lia.
Qed.

Lemma c_to_rs_spec_mode m : spec_mode (c_to_rs_mode m) = c_spec_mode m.
Proof. destruct m; reflexivity. Qed.

Section Rust.
  Variable m : c_mode.
  Local Opaque subtree_output stream.

  Definition c_to_rs_inst (x : c_sinst) : sinst := mkSI (ci_bytes x) 0.
  Definition c_to_rs_state (ss : list c_sinst) : sstate := mkSS (map c_to_rs_inst ss) [] [].

  Lemma sub_out_c bs : sub_out (c_to_rs_mode m) 0 bs = c_root_out m bs.
  Proof. unfold sub_out, c_root_out. rewrite c_to_rs_spec_mode. reflexivity. Qed.

  Lemma c_sstep_rs co o ss ss' out :
    c_to_rs_op co = Some o -> c_sstep m ss co = Some (ss', out) ->
    exists outs, out = map CObXof outs /\
      sstep (c_to_rs_mode m) (c_to_rs_state ss) o = Some (c_to_rs_state ss', map ObXof outs).
  Proof.
    intros Ho Hs. destruct co as [|i b|i|i n|i s n|i|i|i|i j]; cbn [c_to_rs_op] in Ho; try discriminate;
      injection Ho as <-; cbn [c_sstep] in Hs; unfold sstep, snth, c_to_rs_state; cbn [ss_h ss_r ss_v].
    - injection Hs as <- <-. exists []. split; [reflexivity|]. rewrite map_app. reflexivity.
    - rewrite nth_error_map. destruct (nth_error ss i) as [x|]; [|discriminate]. cbn [option_map c_to_rs_inst si_off si_bytes room].
      destruct (len (ci_bytes x) + len b <? 2 ^ 64); [|discriminate]. injection Hs as <- <-.
      exists []. split; [reflexivity|]. rewrite upd_nth_set_nth, map_set_nth. reflexivity.
    - rewrite nth_error_map. destruct (nth_error ss i) as [x|]; [|discriminate]. cbn [option_map c_to_rs_inst si_off si_bytes].
      change (0 =? 0) with true. cbn [andb]. change max_position with c_max_position.
      destruct (n <=? c_max_position); [|discriminate]. injection Hs as <- <-.
      eexists [_]. split; [reflexivity|]. rewrite sub_out_c. reflexivity.
    - rewrite nth_error_map. destruct (nth_error ss i) as [x|]; [|discriminate]. cbn [option_map]. injection Hs as <- <-.
      exists []. split; [reflexivity|]. rewrite upd_nth_set_nth, map_set_nth. reflexivity.
  Qed.

  Lemma c_srun_rs : forall cops ops ss obs,
    c_to_rs_ops cops = Some ops -> c_srun m ss cops = Some obs ->
    exists outs, obs = map CObXof outs /\ srun (c_to_rs_mode m) (c_to_rs_state ss) ops = Some (map ObXof outs).
  Proof.
    induction cops as [|co cops IH]; intros ops ss obs Ho Hr.
    - cbn [c_to_rs_ops c_srun] in *. injection Ho as <-. injection Hr as <-. exists []. split; reflexivity.
    - cbn [c_to_rs_ops c_srun] in *.
      destruct (c_to_rs_op co) as [o|] eqn:Eo; [|discriminate].
      destruct (c_to_rs_ops cops) as [tl|] eqn:Et; [|discriminate]. injection Ho as <-.
      destruct (c_sstep m ss co) as [[ss' out]|] eqn:Es; [|discriminate].
      destruct (c_srun m ss' cops) as [rest|] eqn:Er; [|discriminate]. injection Hr as <-.
      destruct (c_sstep_rs co o ss ss' out Eo Es) as (o1 & -> & Hs1).
      destruct (IH tl ss' rest eq_refl Er) as (o2 & -> & Hs2).
      exists (o1 ++ o2). split; [rewrite map_app; reflexivity|].
      cbn [srun]. rewrite Hs1, Hs2, map_app. reflexivity.
  Qed.
End Rust.

Theorem c_machine_equals_rust : forall p1 p2, PlatformOK p1 -> PlatformOK p2 -> forall pname m cops ops obs,
  c_mode_ok m -> c_to_rs_ops cops = Some ops -> c_spec_run_case m cops = Some obs ->
  exists outs, c_run_case p1 m cops = (map CObXof outs, Ok tt) /\
               run_case p2 pname (c_to_rs_mode m) ops = (map ObXof outs, Ok tt).
Proof.
  intros p1 p2 P1 P2 pname m cops ops obs Hm Ho Hs.
  destruct (c_srun_rs m cops ops _ obs Ho Hs) as (outs & -> & Hr).
  exists outs. split; [exact (c_machine_refines_spec p1 P1 m cops _ Hm Hs)|].
  exact (machine_refines_spec p2 P2 pname (c_to_rs_mode m) ops _ (c_to_rs_mode_ok m Hm) Hr).
Qed.
