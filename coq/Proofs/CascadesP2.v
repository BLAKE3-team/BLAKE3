(* The hash_many cascades of src/rust_sse2.rs, rust_sse41.rs, rust_avx2.rs, c/blake3_portable.c, blake3_sse2.c,
   blake3_sse41.c, blake3_avx2.c, blake3_avx512.c as TRANSLATED statement by statement (gen/GenCascades.v):
   the trailing one-at-a-time loops of the C files and the WHOLE functions, against the cascade models of
   Model/Kernels.v (batch_while / single_loop / hash_many_rs4 / _rs8 / hash_many_c4 / _c8 / _c16).
   Continues Proofs/CascadesP.v.  Every equation is result by result (Ok / Panic code); OutOfFuel is excluded by the
   stated fuel bounds.
   A whole function is a chain of stages: a batch loop, then what is done with the inputs it leaves (rs_stage, c_stage). *)
From Coq Require Import NArith List Bool Lia Arith.
From V Require Import Base.Res Base.Word Base.MachInt Base.Arr gen.GenConsts gen.GenFormulas gen.GenPortable
  gen.GenLibSmall gen.GenCHasherSmall gen.GenCascades Model.Portable Model.Kernels
  Proofs.KernelsP Proofs.KernelsRowsP Proofs.GenPortableP Proofs.GenLibSmallP Proofs.GenCHasherSmallP Proofs.CascadesP.
Import ListNotations.
Open Scope N_scope.

Lemma batch_while_fuel deg hN cadd chk : (1 <= deg)%nat ->
  forall f1 f2 inputs blocks key counter incr flags fs fe cap, (length inputs < f1)%nat -> (length inputs < f2)%nat ->
  batch_while f1 deg hN cadd chk inputs blocks key counter incr flags fs fe cap =
  batch_while f2 deg hN cadd chk inputs blocks key counter incr flags fs fe cap.
Proof.
  intros Hd. induction f1 as [|f1 IH]; intros f2 inputs blocks key counter incr flags fs fe cap H1 H2; [lia|].
  destruct f2 as [|f2]; [lia|]. cbn [batch_while].
  destruct (Nat.leb_spec deg (length inputs)) as [Hl|Hl]; cbn [andb]; [|reflexivity].
  destruct (negb chk || (N.of_nat deg <=? cap)); [|reflexivity].
  destruct (hN (firstn deg inputs) blocks key counter incr flags fs fe) as [outs| |]; cbn [bind]; try reflexivity.
  destruct (if incr then cadd counter (N.of_nat deg) else Ok counter) as [c'| |]; cbn [bind]; try reflexivity.
  rewrite (IH f2) by (rewrite skipn_length; lia). reflexivity.
Qed.

Lemma batch_while_rest (P : list N -> Prop) deg hN cadd chk : forall fuel inputs blocks key counter incr flags fs fe cap outs rest c' cap',
  batch_while fuel deg hN cadd chk inputs blocks key counter incr flags fs fe cap = Ok (outs, (rest, c', cap')) ->
  (length rest <= length inputs)%nat /\ (Forall P inputs -> Forall P rest).
Proof.
  induction fuel as [|fuel IH]; intros inputs blocks key counter incr flags fs fe cap outs rest c' cap' H; [discriminate|].
  cbn [batch_while] in H.
  destruct ((deg <=? length inputs)%nat && (negb chk || (N.of_nat deg <=? cap))).
  - destruct (hN (firstn deg inputs) blocks key counter incr flags fs fe) as [o| |]; cbn [bind] in H; try discriminate.
    destruct (if incr then cadd counter (N.of_nat deg) else Ok counter) as [c1| |]; cbn [bind] in H; try discriminate.
    destruct (batch_while fuel deg hN cadd chk (skipn deg inputs) blocks key c1 incr flags fs fe (cap - N.of_nat deg))
      as [[o' [[r c2] cap2]]| |] eqn:B; cbn [bind] in H; try discriminate.
    injection H as _ Hr _ _. subst r. destruct (IH _ _ _ _ _ _ _ _ _ _ _ _ _ B) as [L F].
    rewrite skipn_length in L. split; [lia|]. intros Hall. apply F, ListP.Forall_skipn, Hall.
  - injection H as _ Hr _ _. subst rest. split; [apply Nat.le_refl|exact (fun Hall => Hall)].
Qed.

(* `blocks = N / BLOCK_LEN` of the Rust functions is the model's blocks_of; with no inputs the loop does nothing,
   whatever `blocks` is *)
Lemma batch_while_blocks_of fuel deg hN cadd chk n inputs key counter incr flags fs fe cap : (1 <= deg)%nat ->
  Forall (fun i : list N => length i = n) inputs ->
  batch_while fuel deg hN cadd chk inputs (N.to_nat (N.of_nat n / 64)) key counter incr flags fs fe cap =
  batch_while fuel deg hN cadd chk inputs (blocks_of inputs) key counter incr flags fs fe cap.
Proof.
  intros Hd Hall. destruct inputs as [|i tl].
  - destruct fuel as [|fuel]; [reflexivity|]. cbn [batch_while length].
    replace (deg <=? 0)%nat with false by (symmetry; apply Nat.leb_gt; lia). reflexivity.
  - apply Forall_cons_iff in Hall. destruct Hall as [<- _]. unfold blocks_of. cbn [hd].
    change 64 with (N.of_nat 64). rewrite <- Nat2N.inj_div, Nat2N.id. reflexivity.
Qed.

(* a translated batch loop followed by k is the model's batch loop followed by k', when k on what the loop leaves
   (fewer inputs, of the same kind) is k' *)
Lemma rs_stage {T} dn hN loop : (1 <= dn)%nat -> rs_batch_spec dn hN loop ->
  forall fuel n inputs key counter incr flags fs fe cap acc
         (k : list (list N) -> N -> N -> list (list N) -> res T) (k' : list (list N) -> list (list N) -> N -> N -> res T),
  (length inputs < fuel)%nat -> Forall (fun i => length i = n) inputs ->
  (forall rest c cap' outs, (length rest <= length inputs)%nat -> Forall (fun i => length i = n) rest ->
     k rest c (32 * cap') (acc ++ outs) = k' outs rest c cap') ->
  ('(i, c, ol, w) <- loop fuel (N.of_nat n) inputs key counter incr flags fs fe (32 * cap) acc ;; k i c ol w)
  = ('(outs, (rest, c', cap')) <-
       batch_while (S (length inputs)) dn hN cadd_rs true inputs (blocks_of inputs) key counter incr flags fs fe cap ;;
     k' outs rest c' cap').
Proof.
  intros Hd loop_ok fuel n inputs key counter incr flags fs fe cap acc k k' Hf Hall Hk. rewrite loop_ok by exact Hf.
  rewrite (batch_while_fuel dn hN cadd_rs true Hd fuel (S (length inputs))) by lia.
  rewrite (batch_while_blocks_of _ dn hN cadd_rs true n) by assumption.
  destruct (batch_while (S (length inputs)) dn hN cadd_rs true inputs (blocks_of inputs) key counter incr flags fs fe cap)
    as [[outs [[rest c'] cap']]| |] eqn:B; cbn [bind]; try reflexivity.
  destruct (batch_while_rest (fun i => length i = n) _ _ _ _ _ _ _ _ _ _ _ _ _ _ _ _ _ _ B) as [Lr Fr].
  apply Hk; [exact Lr|exact (Fr Hall)].
Qed.

Lemma c_stage {T} dn hN loop : (1 <= dn)%nat -> c_batch_spec dn hN loop ->
  forall fuel inputs bn key counter incr flags fs fe out acc
         (k : list (list N) -> N -> N -> list N -> list (list N) -> res T) (k' : list (list N) -> list (list N) -> N -> res T),
  (length inputs < fuel)%nat -> N.of_nat (length inputs) < 2 ^ 64 ->
  (forall rest c o outs, (length rest <= length inputs)%nat -> k rest (N.of_nat (length rest)) c o (acc ++ outs) = k' outs rest c) ->
  ('(i, n, c, o, w) <- loop fuel inputs (N.of_nat (length inputs)) (N.of_nat bn) key counter incr flags fs fe out acc ;; k i n c o w)
  = ('(outs, (rest, c', _)) <- batch_while (S (length inputs)) dn hN cadd_c false inputs bn key counter incr flags fs fe 0 ;;
     k' outs rest c').
Proof.
  intros Hd loop_ok fuel inputs bn key counter incr flags fs fe out acc k k' Hf Hn Hk.
  destruct (loop_ok fuel inputs (N.of_nat bn) key counter incr flags fs fe out acc Hf Hn) as (out' & ->).
  rewrite Nat2N.id, (batch_while_fuel dn hN cadd_c false Hd fuel (S (length inputs))) by lia.
  destruct (batch_while (S (length inputs)) dn hN cadd_c false inputs bn key counter incr flags fs fe 0)
    as [[outs [[rest c'] cap']]| |] eqn:B; cbn [bind]; try reflexivity.
  apply Hk. exact (proj1 (batch_while_rest (fun _ => True) _ _ _ _ _ _ _ _ _ _ _ _ _ _ _ _ _ _ B)).
Qed.

(* src/rust_sse2.rs / src/rust_sse41.rs hash_many = the cascade model hash_many_rs4, for every list of inputs
   `&[u8; N]` (N = n), every fuel above inputs.len() and N / 64, out.len() = 32 * cap, inputs.len() * 32 < 2^64
   (a usize product).  Every result (Ok value, Panic code) is the same. *)
Theorem src_rs_sse2_hash_many_ok lc4 cip fuel n inputs key counter incr flags fs fe cap :
  (length inputs < fuel)%nat -> (n / 64 < fuel)%nat -> Forall (fun i => length i = n) inputs ->
  N.of_nat (length inputs) * 32 < 2 ^ 64 ->
  src_rs_sse2_hash_many (hashN_gen 4 transpose_msg_vecs4 lc4 store4) (okc cip) fuel (N.of_nat n) inputs key counter incr flags fs fe (32 * cap)
  = hash_many_rs4 lc4 cip inputs key counter incr flags fs fe cap.
Proof.
  intros Hf1 Hf2 Hall Hlen. unfold src_rs_sse2_hash_many, hash_many_rs4. cbv zeta. rewrite rs_prologue by exact Hlen.
  destruct (N.of_nat (length inputs) <=? cap); cbn [check bind]; [|reflexivity].
  apply (rs_stage 4 _ _ ltac:(lia) (src_rs_sse2_hash_many_loop1_ok _ _)); try assumption.
  intros rest c cap' outs _ Hr. rewrite div_OUT_LEN. apply src_rs_sse2_hash_many_loop2_ok; assumption.
Qed.
Theorem src_rs_sse41_hash_many_ok lc4 cip fuel n inputs key counter incr flags fs fe cap :
  (length inputs < fuel)%nat -> (n / 64 < fuel)%nat -> Forall (fun i => length i = n) inputs ->
  N.of_nat (length inputs) * 32 < 2 ^ 64 ->
  src_rs_sse41_hash_many (hashN_gen 4 transpose_msg_vecs4 lc4 store4) (okc cip) fuel (N.of_nat n) inputs key counter incr flags fs fe (32 * cap)
  = hash_many_rs4 lc4 cip inputs key counter incr flags fs fe cap.
Proof.
  intros Hf1 Hf2 Hall Hlen. unfold src_rs_sse41_hash_many, hash_many_rs4. cbv zeta. rewrite rs_prologue by exact Hlen.
  destruct (N.of_nat (length inputs) <=? cap); cbn [check bind]; [|reflexivity].
  apply (rs_stage 4 _ _ ltac:(lia) (src_rs_sse41_hash_many_loop1_ok _ _)); try assumption.
  intros rest c cap' outs _ Hr. rewrite div_OUT_LEN. apply src_rs_sse41_hash_many_loop2_ok; assumption.
Qed.

(* src/rust_avx2.rs hash_many, with `crate::sse41::hash_many` the translated function above, = hash_many_rs8 *)
Theorem src_rs_avx2_hash_many_ok lc8 lc4 cip fuel n inputs key counter incr flags fs fe cap :
  (length inputs < fuel)%nat -> (n / 64 < fuel)%nat -> Forall (fun i => length i = n) inputs ->
  N.of_nat (length inputs) * 32 < 2 ^ 64 ->
  src_rs_avx2_hash_many (hashN_gen 8 transpose_msg_vecs8 lc8 store8)
    (src_rs_sse41_hash_many (hashN_gen 4 transpose_msg_vecs4 lc4 store4) (okc cip) fuel)
    fuel (N.of_nat n) inputs key counter incr flags fs fe (32 * cap)
  = hash_many_rs8 lc8 lc4 cip inputs key counter incr flags fs fe cap.
Proof.
  intros Hf1 Hf2 Hall Hlen. unfold src_rs_avx2_hash_many, hash_many_rs8. cbv zeta. rewrite rs_prologue by exact Hlen.
  destruct (N.of_nat (length inputs) <=? cap); cbn [check bind]; [|reflexivity].
  apply (rs_stage 8 _ _ ltac:(lia) (src_rs_avx2_hash_many_loop1_ok _ _)); try assumption.
  intros rest c cap' outs Lr Hr. rewrite src_rs_sse41_hash_many_ok by (try assumption; lia). reflexivity.
Qed.

(* the text of the generated loop over the translated hash_one_* `H1`, as an equation that `loop` satisfies (what the
   sections of CascadesP.v have as their hypothesis `loop_eq`; named, because c_single_simd takes it as a premise) *)
Definition c_single_unfolds (H1 : nat -> list N -> N -> list N -> N -> N -> N -> N -> list N -> res (list N)) (loop : c_loop_fn) : Prop :=
  forall fuel inputs num_inputs blocks key counter increment_counter flags flags_start flags_end out out_w,
    loop fuel inputs num_inputs blocks key counter increment_counter flags flags_start flags_end out out_w =
    if (0 <? num_inputs) then
      match fuel with
      | O => OutOfFuel
      | S fuel =>
        t_out <- H1 fuel (nth 0 inputs []) blocks key counter flags flags_start flags_end (firstn 32 out) ;;
        let out_w := out_w ++ [t_out] in
        counter <- (if increment_counter then
          let counter := c_wadd 64 counter 1 in
          Ok counter
        else Ok counter) ;;
        let inputs := skipn 1 inputs in
        let num_inputs := c_wsub 64 num_inputs 1 in
        let out := skipn 32 out in
        loop fuel inputs num_inputs blocks key counter increment_counter flags flags_start flags_end out out_w
      end
    else Ok (inputs, num_inputs, counter, out, out_w).

Section CSingle.
  Variable H1 : nat -> list N -> N -> list N -> N -> N -> N -> N -> list N -> res (list N).
  Variable h1 : hash1_fn.
  Variable bn : nat.
  Variable key : list N.
  Variables flags fs fe : N.
  (* invariant of each input, and of the `out` area when k inputs are still to be hashed *)
  Variable P : list N -> Prop.
  Variable Io : nat -> list N -> Prop.
  Hypothesis H1_ok : forall fuel input ctr out k, (bn < fuel)%nat -> P input -> Io (S k) out ->
    H1 fuel input (N.of_nat bn) key ctr flags fs fe (firstn 32 out) = h1 input bn key ctr flags fs fe.
  Hypothesis Io_step : forall k out, Io (S k) out -> Io k (skipn 32 out).
  Variable loop : c_loop_fn.
  Hypothesis loop_eq : c_single_unfolds H1 loop.

  Lemma c_single_ok : forall inputs fuel counter incr out acc,
    (length inputs + bn < fuel)%nat -> N.of_nat (length inputs) < 2 ^ 64 -> Forall P inputs -> Io (length inputs) out ->
    ('(inputs, num_inputs, counter, out, out_w) <-
        loop fuel inputs (N.of_nat (length inputs)) (N.of_nat bn) key counter incr flags fs fe out acc ;; Ok out_w)
    = (r <- single_loop h1 cadd_c false inputs bn key counter incr flags fs fe 0 ;; Ok (acc ++ r)).
  Proof.
    induction inputs as [|input tl IH]; intros fuel counter incr out acc Hf Hn Hall Ho; rewrite loop_eq.
    - cbn [length single_loop]. change (0 <? N.of_nat 0) with false. cbn [bind]. rewrite app_nil_r. reflexivity.
    - destruct fuel as [|fuel]; [lia|]. cbn [length] in Hf, Hn, Ho.
      replace (0 <? N.of_nat (length (input :: tl))) with true by (symmetry; apply N.ltb_lt; cbn [length]; lia).
      cbn [nth single_loop andb]. apply Forall_cons_iff in Hall. destruct Hall as [Hi Htl].
      rewrite (H1_ok fuel input counter out (length tl)) by (try assumption; lia).
      destruct (h1 input bn key counter flags fs fe) as [cv| |]; cbn [bind]; try reflexivity.
      cbv zeta. change (Ok (c_wadd 64 counter 1)) with (cadd_c counter 1).
      destruct (if incr then cadd_c counter 1 else Ok counter) as [c'| |]; cbn [bind]; try reflexivity.
      rewrite c_wsub_small by (cbn [length]; lia).
      replace (N.of_nat (length (input :: tl)) - 1) with (N.of_nat (length tl)) by (cbn [length]; lia).
      cbn [skipn]. rewrite IH by (try assumption; try lia; apply Io_step; exact Ho).
      rewrite N.sub_0_l.
      destruct (single_loop h1 cadd_c false tl bn key c' incr flags fs fe 0); cbn [bind]; try reflexivity.
      rewrite <- app_assoc. reflexivity.
  Qed.
End CSingle.

(* in C the chaining value is an array `uint32_t cv[8]` *)
Definition cip_len8 (cip : cip_fn) : Prop :=
  forall cv block bl ctr fl, length cv = 8%nat -> length (cip cv block bl ctr fl) = 8%nat.

Lemma hash_one_go_len8 cip : cip_len8 cip -> forall blocks cv input ctr fl bf fe, length cv = 8%nat ->
  length (hash_one_go cip blocks cv input ctr fl bf fe) = 8%nat.
Proof.
  intros Hc. induction blocks as [|blocks IH]; intros cv input ctr fl bf fe L; [exact L|].
  cbn [hash_one_go]. apply IH. apply Hc. exact L.
Qed.

(* what the C caller guarantees of every input pointer *)
Definition long_enough (bn : nat) (input : list N) : Prop := (64 * bn <= length input)%nat.

(* the trailing loop of blake3_hash_many_sse2 / _sse41 / _avx512 is single_loop over hash_one_c with the wrapping
   counter: num_inputs = the number of input pointers, the key has 8 words, fuel above num_inputs + blocks (the inner
   hash_one loop runs on the same fuel), compress_in_place keeps the cv 8 words long; `out` is arbitrary (hash_one_*
   only writes through it).  Inputs shorter than 64 * blocks bytes are read alike by both sides (firstn / skipn) *)
Definition c_single_spec (h1 : hash1_fn) bn key flags fs fe (loop : c_loop_fn) : Prop :=
  forall inputs fuel counter incr out acc, (length inputs + bn < fuel)%nat -> N.of_nat (length inputs) < 2 ^ 64 ->
  ('(inputs, num_inputs, counter, out, out_w) <-
      loop fuel inputs (N.of_nat (length inputs)) (N.of_nat bn) key counter incr flags fs fe out acc ;; Ok out_w)
  = (r <- single_loop h1 cadd_c false inputs bn key counter incr flags fs fe 0 ;; Ok (acc ++ r)).

Lemma c_single_simd H1 (cip : cip_fn) : c_hash_one_spec cip H1 -> forall bn key flags fs fe loop, c_single_unfolds H1 loop ->
  cip_len8 cip -> length key = 8%nat -> N.of_nat bn < 2 ^ 64 -> c_single_spec (hash_one_c cip) bn key flags fs fe loop.
Proof.
  intros H1_ok bn key flags fs fe loop loop_eq Hc Lk Hb inputs fuel counter incr out acc Hf Hn.
  apply (c_single_ok H1 (hash_one_c cip) bn key flags fs fe (fun _ => True) (fun _ _ => True)); try assumption.
  - intros fu input ctr o _ Hfu _ _. apply H1_ok; try assumption. apply hash_one_go_len8; assumption.
  - exact (fun _ _ _ => I).
  - apply Forall_forall. intros; exact I.
  - exact I.
Qed.

Theorem src_c_sse2_blake3_hash_many_sse2_loop2_ok hN (cip : cip_fn) bn key flags fs fe : cip_len8 cip -> length key = 8%nat ->
  N.of_nat bn < 2 ^ 64 -> c_single_spec (hash_one_c cip) bn key flags fs fe (src_c_sse2_blake3_hash_many_sse2_loop2 hN cip).
Proof. apply (c_single_simd _ cip (src_c_sse2_hash_one_sse2_ok cip)). intros f; destruct f; reflexivity. Qed.
Theorem src_c_sse41_blake3_hash_many_sse41_loop2_ok hN (cip : cip_fn) bn key flags fs fe : cip_len8 cip -> length key = 8%nat ->
  N.of_nat bn < 2 ^ 64 -> c_single_spec (hash_one_c cip) bn key flags fs fe (src_c_sse41_blake3_hash_many_sse41_loop2 hN cip).
Proof. apply (c_single_simd _ cip (src_c_sse41_hash_one_sse41_ok cip)). intros f; destruct f; reflexivity. Qed.
Theorem src_c_avx512_blake3_hash_many_avx512_loop4_ok h16 h8 h4 (cip : cip_fn) bn key flags fs fe : cip_len8 cip -> length key = 8%nat ->
  N.of_nat bn < 2 ^ 64 -> c_single_spec (hash_one_c cip) bn key flags fs fe (src_c_avx512_blake3_hash_many_avx512_loop4 h16 h8 h4 cip).
Proof. apply (c_single_simd _ cip (src_c_avx512_hash_one_avx512_ok cip)). intros f; destruct f; reflexivity. Qed.

(* blake3_hash_many_sse2 / blake3_hash_many_sse41 (c/blake3_sse2.c, c/blake3_sse41.c) = the cascade model hash_many_c4,
   for every list of inputs, num_inputs = their number, a key of 8 words, every fuel above num_inputs + blocks, any
   `out` pointer.  No result is a Panic on either side unless the 4-way kernel panics. *)
Theorem src_c_sse2_blake3_hash_many_sse2_ok lc4 (cip : cip_fn) fuel inputs bn key counter incr flags fs fe out :
  cip_len8 cip -> length key = 8%nat -> N.of_nat bn < 2 ^ 64 ->
  (length inputs + bn < fuel)%nat -> N.of_nat (length inputs) < 2 ^ 64 ->
  src_c_sse2_blake3_hash_many_sse2 (hashN_gen 4 transpose_msg_vecs4 lc4 store4) cip fuel inputs (N.of_nat (length inputs))
    (N.of_nat bn) key counter incr flags fs fe out
  = hash_many_c4 lc4 cip inputs bn key counter incr flags fs fe.
Proof.
  intros Hc Lk Hb Hf Hn. unfold src_c_sse2_blake3_hash_many_sse2, hash_many_c4. cbv zeta.
  apply (c_stage 4 _ _ ltac:(lia) (src_c_sse2_blake3_hash_many_sse2_loop1_ok _ cip)); try assumption; [lia|].
  intros rest c o outs Lr. apply src_c_sse2_blake3_hash_many_sse2_loop2_ok; try assumption; lia.
Qed.
Theorem src_c_sse41_blake3_hash_many_sse41_ok lc4 (cip : cip_fn) fuel inputs bn key counter incr flags fs fe out :
  cip_len8 cip -> length key = 8%nat -> N.of_nat bn < 2 ^ 64 ->
  (length inputs + bn < fuel)%nat -> N.of_nat (length inputs) < 2 ^ 64 ->
  src_c_sse41_blake3_hash_many_sse41 (hashN_gen 4 transpose_msg_vecs4 lc4 store4) cip fuel inputs (N.of_nat (length inputs))
    (N.of_nat bn) key counter incr flags fs fe out
  = hash_many_c4 lc4 cip inputs bn key counter incr flags fs fe.
Proof.
  intros Hc Lk Hb Hf Hn. unfold src_c_sse41_blake3_hash_many_sse41, hash_many_c4. cbv zeta.
  apply (c_stage 4 _ _ ltac:(lia) (src_c_sse41_blake3_hash_many_sse41_loop1_ok _ cip)); try assumption; [lia|].
  intros rest c o outs Lr. apply src_c_sse41_blake3_hash_many_sse41_loop2_ok; try assumption; lia.
Qed.

(* blake3_hash_many_avx2 (c/blake3_avx2.c), with `blake3_hash_many_sse41` the translated function above, = hash_many_c8 *)
Theorem src_c_avx2_blake3_hash_many_avx2_ok lc8 lc4 (cip : cip_fn) fuel inputs bn key counter incr flags fs fe out :
  cip_len8 cip -> length key = 8%nat -> N.of_nat bn < 2 ^ 64 ->
  (length inputs + bn < fuel)%nat -> N.of_nat (length inputs) < 2 ^ 64 ->
  src_c_avx2_blake3_hash_many_avx2 (hashN_gen 8 transpose_msg_vecs8 lc8 store8)
    (src_c_sse41_blake3_hash_many_sse41 (hashN_gen 4 transpose_msg_vecs4 lc4 store4) cip fuel)
    fuel inputs (N.of_nat (length inputs)) (N.of_nat bn) key counter incr flags fs fe out
  = hash_many_c8 lc8 lc4 cip inputs bn key counter incr flags fs fe.
Proof.
  intros Hc Lk Hb Hf Hn. unfold src_c_avx2_blake3_hash_many_avx2, hash_many_c8. cbv zeta.
  apply (c_stage 8 _ _ ltac:(lia) (src_c_avx2_blake3_hash_many_avx2_loop1_ok _ _)); try assumption; [lia|].
  intros rest c o outs Lr. rewrite src_c_sse41_blake3_hash_many_sse41_ok by (try assumption; lia). reflexivity.
Qed.

(* blake3_hash_many_avx512 (c/blake3_avx512.c): 16, 8, 4, 1 = hash_many_c16 *)
Theorem src_c_avx512_blake3_hash_many_avx512_ok (cip : cip_fn) fuel inputs bn key counter incr flags fs fe out :
  cip_len8 cip -> length key = 8%nat -> N.of_nat bn < 2 ^ 64 ->
  (length inputs + bn < fuel)%nat -> N.of_nat (length inputs) < 2 ^ 64 ->
  src_c_avx512_blake3_hash_many_avx512 hash16_avx512 hash8_avx512 hash4_avx512 cip fuel inputs (N.of_nat (length inputs))
    (N.of_nat bn) key counter incr flags fs fe out
  = hash_many_c16 cip inputs bn key counter incr flags fs fe.
Proof.
  intros Hc Lk Hb Hf Hn. unfold src_c_avx512_blake3_hash_many_avx512, hash_many_c16. cbv zeta.
  apply (c_stage 16 _ _ ltac:(lia) (src_c_avx512_blake3_hash_many_avx512_loop1_ok _ _ _ cip));
    try assumption; [lia|].
  intros r1 c1 out1 o16 L1.
  apply (c_stage 8 _ _ ltac:(lia) (src_c_avx512_blake3_hash_many_avx512_loop2_ok _ _ _ cip));
    try assumption; [lia|lia|].
  intros r2 c2 out2 o8 L2.
  apply (c_stage 4 _ _ ltac:(lia) (src_c_avx512_blake3_hash_many_avx512_loop3_ok _ _ _ cip));
    try assumption; [lia|lia|].
  intros r3 c3 out3 o4 L3.
  rewrite src_c_avx512_blake3_hash_many_avx512_loop4_ok by (try assumption; lia).
  destruct (single_loop (hash_one_c cip) cadd_c false r3 bn key c3 incr flags fs fe 0); cbn [bind app]; try reflexivity.
  rewrite <- !app_assoc. reflexivity.
Qed.

Lemma cip_len8_portable : cip_len8 Portable.compress_in_place.
Proof. intros cv block bl ctr fl L. apply PortableP.compress_in_place_length. exact L. Qed.
Lemma cip_len8_rows : cip_len8 compress_in_place_rows.
Proof.
  intros cv block bl ctr fl L. rewrite compress_in_place_rows_ok by exact L.
  apply PortableP.compress_in_place_length. exact L.
Qed.

Definition exact_len (bn : nat) (input : list N) : Prop := length input = (bn * 64)%nat.
Definition portable_hash1 : hash1_fn := fun input _ key counter flags fs fe => Portable.hash1 input key counter flags fs fe.

(* blake3_hash_many_portable (c/blake3_portable.c) is the one-at-a-time loop over Portable.hash1 with the WRAPPING uint64_t
   counter (cadd_c); every input has exactly blocks * 64 bytes, `out` has room for num_inputs * 32 bytes *)
Theorem src_c_portable_blake3_hash_many_portable_single fuel inputs bn key counter incr flags fs fe out :
  length key = 8%nat -> N.of_nat bn < 2 ^ 64 ->
  (length inputs + bn < fuel)%nat -> N.of_nat (length inputs) < 2 ^ 64 -> Forall (exact_len bn) inputs ->
  (32 * length inputs <= length out)%nat ->
  src_c_portable_blake3_hash_many_portable fuel inputs (N.of_nat (length inputs)) (N.of_nat bn) key counter incr flags fs fe out
  = single_loop portable_hash1 cadd_c false inputs bn key counter incr flags fs fe 0.
Proof.
  intros Lk Hb Hf Hn Hall Ho. unfold src_c_portable_blake3_hash_many_portable. cbv zeta.
  rewrite (c_single_ok src_c_portable_hash_one_portable portable_hash1 bn key flags fs fe (exact_len bn)
             (fun k o => (32 * k <= length o)%nat)) with (loop := src_c_portable_blake3_hash_many_portable_loop1);
    try assumption.
  - destruct (single_loop portable_hash1 cadd_c false inputs bn key counter incr flags fs fe 0); reflexivity.
  - intros fu input ctr o k Hfu Hp Hr. apply src_c_portable_hash_one_portable_ok; try assumption.
    rewrite firstn_length. lia.
  - intros k o Hr. rewrite skipn_length. lia.
  - intros f; destruct f; reflexivity.
Qed.

(* hence blake3_hash_many_portable = Portable.hash_many where the two debug-build checks of portable.rs hash_many pass,
   which C does not make: out has room for `cap >= num_inputs` CVs (debug_assert), and the counter stays below 2^64
   (`counter += 1` is overflow-checked, the C `uint64_t` wraps) *)
Theorem src_c_portable_blake3_hash_many_portable_ok fuel inputs bn key counter incr flags fs fe out cap :
  length key = 8%nat -> N.of_nat bn < 2 ^ 64 ->
  (length inputs + bn < fuel)%nat -> N.of_nat (length inputs) < 2 ^ 64 -> Forall (exact_len bn) inputs ->
  (32 * length inputs <= length out)%nat -> N.of_nat (length inputs) <= cap ->
  (incr = true -> counter + N.of_nat (length inputs) < 2 ^ 64) ->
  src_c_portable_blake3_hash_many_portable fuel inputs (N.of_nat (length inputs)) (N.of_nat bn) key counter incr flags fs fe out
  = Portable.hash_many inputs key counter incr flags fs fe cap.
Proof.
  intros Lk Hb Hf Hn Hall Ho Hcap Hc.
  rewrite src_c_portable_blake3_hash_many_portable_single by assumption. unfold portable_hash1, Portable.hash_many.
  rewrite single_loop_hash_many_go.
  - replace (N.of_nat (length inputs) <=? cap) with true by (symmetry; apply N.leb_le; exact Hcap). reflexivity.
  - discriminate.
  - intros Hi c Hr. specialize (Hc Hi). unfold cadd_c, mi_add, fits.
    replace (c + 1 <? 2 ^ 64) with true by (symmetry; apply N.ltb_lt; lia).
    rewrite N.land_ones, N.mod_small by lia. reflexivity.
Qed.
