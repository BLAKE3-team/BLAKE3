(* Ranges, rotations and the conversion to and from bytes of 32-bit words held as N (Base/Word.v). *)
From Coq Require Import NArith List Lia.
From V Require Import Base.Word.
Open Scope N_scope.

Lemma w32_mod x : w32 x = x mod 4294967296.
Proof. unfold w32, mask32. change 0xFFFFFFFF with (N.ones 32). apply N.land_ones. Qed.

Lemma lt_pow2_bits x k : x < 2 ^ k <-> forall n, k <= n -> N.testbit x n = false.
Proof.
  split.
  - intros H n Hn. apply N.mod_small in H. rewrite <- H. apply N.mod_pow2_bits_high, Hn.
  - intros H. assert (E : x = x mod 2 ^ k).
    { apply N.bits_inj. intros n. destruct (N.lt_ge_cases n k) as [Ln|Ln].
      - rewrite N.mod_pow2_bits_low by exact Ln. reflexivity.
      - rewrite N.mod_pow2_bits_high by exact Ln. apply H, Ln. }
    rewrite E. apply N.mod_lt, N.pow_nonzero. discriminate.
Qed.

Lemma lor_lt_pow2 a b k : a < 2 ^ k -> b < 2 ^ k -> N.lor a b < 2 ^ k.
Proof.
  rewrite !lt_pow2_bits. intros Ha Hb n Hn. rewrite N.lor_spec, Ha, Hb by exact Hn. reflexivity.
Qed.

Lemma lxor_lt_pow2 a b k : a < 2 ^ k -> b < 2 ^ k -> N.lxor a b < 2 ^ k.
Proof.
  rewrite !lt_pow2_bits. intros Ha Hb n Hn. rewrite N.lxor_spec, Ha, Hb by exact Hn. reflexivity.
Qed.

Lemma shiftr_le a r : N.shiftr a r <= a.
Proof.
  rewrite N.shiftr_div_pow2. apply N.div_le_upper_bound; [apply N.pow_nonzero; discriminate|].
  pose proof (N.pow_nonzero 2 r ltac:(discriminate)). nia.
Qed.

Lemma rotr32_lt x r : x < 4294967296 -> rotr32 x r < 4294967296.
Proof.
  intros H. unfold rotr32. apply (lor_lt_pow2 _ _ 32); [|apply w32_lt].
  pose proof (shiftr_le x r). change (2 ^ 32) with 4294967296. lia.
Qed.

Lemma lor_disjoint_add h l k : h < 2 ^ k -> N.lor h (2 ^ k * l) = h + 2 ^ k * l.
Proof.
  intros H. rewrite N.add_nocarry_lxor, N.lxor_lor; try reflexivity;
  apply N.bits_inj_0; intros n; rewrite N.land_spec;
  (destruct (N.lt_ge_cases n k) as [L|L];
   [rewrite N.mul_comm, N.mul_pow2_bits_low by exact L; apply Bool.andb_false_r
   |rewrite (proj1 (lt_pow2_bits h k) H n L); reflexivity]).
Qed.

Lemma word_of_bytes4_add b0 b1 b2 b3 : b0 < 256 -> b1 < 256 -> b2 < 256 ->
  word_of_bytes4 b0 b1 b2 b3 = b0 + 256 * (b1 + 256 * (b2 + 256 * b3)).
Proof.
  intros H0 H1 H2. unfold word_of_bytes4.
  change 24 with (8 + 8 + 8). change 16 with (8 + 8).
  rewrite <- !N.shiftl_shiftl, <- !N.shiftl_lor, !N.shiftl_mul_pow2, !(N.mul_comm _ (2 ^ 8)).
  rewrite !lor_disjoint_add by assumption. reflexivity.
Qed.

Lemma word_of_bytes4_lt b0 b1 b2 b3 : b0 < 256 -> b1 < 256 -> b2 < 256 -> b3 < 256 ->
  word_of_bytes4 b0 b1 b2 b3 < 4294967296.
Proof. intros H0 H1 H2 H3. rewrite word_of_bytes4_add by assumption. lia. Qed.

Lemma words_of_bytes_lt : forall l, Forall (fun b => b < 256) l -> Forall (fun w => w < 4294967296) (words_of_bytes l).
Proof.
  fix IH 1. intros [|b0 [|b1 [|b2 [|b3 tl]]]] H; try constructor.
  - repeat (apply Forall_cons_iff in H; destruct H as [? H]). apply word_of_bytes4_lt; assumption.
  - apply IH. do 4 apply Forall_inv_tail in H. exact H.
Qed.

Lemma words_of_bytes_length : forall (n : nat) (l : list N),
  length l = (4 * n)%nat -> length (words_of_bytes l) = n.
Proof.
  induction n as [|n IH]; intros l H.
  - destruct l; [reflexivity|discriminate].
  - destruct l as [|b0 [|b1 [|b2 [|b3 tl]]]]; try (cbn in H; lia).
    cbn [words_of_bytes length]. f_equal. apply IH. cbn [length] in H. lia.
Qed.

Lemma words_of_bytes_app a b k : length a = (4 * k)%nat ->
  words_of_bytes (a ++ b) = words_of_bytes a ++ words_of_bytes b.
Proof.
  revert a. induction k as [|k IH]; intros a Hk.
  - destruct a; [reflexivity|discriminate].
  - destruct a as [|b0 [|b1 [|b2 [|b3 tl]]]]; try (cbn in Hk; lia).
    cbn [app words_of_bytes]. f_equal. apply IH. cbn [length] in Hk. lia.
Qed.

Lemma split8 x : N.lor (N.land x 255) (N.shiftl (N.shiftr x 8) 8) = x.
Proof. change 255 with (N.ones 8). rewrite <- N.ldiff_ones_r, N.lor_comm. apply N.lor_ldiff_and. Qed.

Lemma word_of_bytes_of_word w : w < 4294967296 ->
  word_of_bytes4 (byte_n w 0) (byte_n w 1) (byte_n w 2) (byte_n w 3) = w.
Proof.
  intros Hw. unfold word_of_bytes4, byte_n.
  change (8 * 0) with 0. change (8 * 1) with 8. change (8 * 2) with 16. change (8 * 3) with 24.
  replace (N.land (N.shiftr w 24) 255) with (N.shiftr w 24).
  2:{ change 255 with (N.ones 8). rewrite N.land_ones, N.shiftr_div_pow2. symmetry. apply N.mod_small.
      apply N.div_lt_upper_bound; [discriminate|exact Hw]. }
  change 24 with (8 + 8 + 8). change 16 with (8 + 8).
  rewrite <- !N.shiftr_shiftr, <- !N.shiftl_shiftl, <- !N.shiftl_lor, N.shiftr_0_r, !split8. reflexivity.
Qed.

Lemma words_of_bytes_of_words ws : Forall (fun w => w < 4294967296) ws -> words_of_bytes (bytes_of_words ws) = ws.
Proof.
  induction 1 as [|w ws Hw _ IH]; [reflexivity|].
  unfold bytes_of_words in *. cbn [flat_map bytes_of_word app words_of_bytes].
  rewrite IH, word_of_bytes_of_word by exact Hw. reflexivity.
Qed.

Lemma land_mask32_id w : w < 4294967296 -> N.land mask32 w = w.
Proof. intros H. rewrite N.land_comm. apply w32_id, H. Qed.

(* p and q are parameters so that a caller gives them as numerals *)
Lemma rotr32_split k p q l h x : 0 < k < 32 -> p = 2 ^ k -> q = 2 ^ (32 - k) ->
  l < p -> h < q -> x = l + p * h -> rotr32 x k = h + q * l.
Proof.
  intros Hk -> -> Hl Hh ->. unfold rotr32.
  assert (P : 2 ^ k * 2 ^ (32 - k) = 4294967296).
  { rewrite <- N.pow_add_r. replace (k + (32 - k)) with 32 by lia. reflexivity. }
  assert (Hp : 2 ^ k <> 0) by (apply N.pow_nonzero; discriminate).
  replace (N.shiftr (l + 2 ^ k * h) k) with h.
  2:{ rewrite N.shiftr_div_pow2. apply (N.div_unique _ _ h l); [exact Hl|lia]. }
  replace (w32 (N.shiftl (l + 2 ^ k * h) (32 - k))) with (2 ^ (32 - k) * l).
  2:{ rewrite w32_mod, N.shiftl_mul_pow2. apply (N.mod_unique _ _ h); [nia|nia]. }
  apply lor_disjoint_add, Hh.
Qed.
