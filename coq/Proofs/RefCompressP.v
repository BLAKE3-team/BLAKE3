(* The reference implementation's compression function (model of
   reference_impl.rs::{g, round, permute, compress}, with the repository's
   ref_IV and ref_MSG_PERMUTATION) computes the specification's compression
   function; plus the word-range facts needed because the reference
   implementation keeps chaining values as u32 words where the specification
   passes them through bytes. *)
From V Require Import Proofs.ListP Proofs.ResP.
From V Require Import Base.Res Base.Word Base.MachInt gen.GenConsts
  Spec.Compress Spec.Tree Spec.Blake3 Model.RefImpl Proofs.WordP Proofs.PortableP.
Open Scope N_scope.

Lemma ref_IV_is_spec : ref_IV = IV.
Proof. reflexivity. Qed.

Lemma ref_MSG_PERMUTATION_is_spec : ref_MSG_PERMUTATION = MSG_PERMUTATION.
Proof. reflexivity. Qed.

Lemma ref_flags_are_spec :
  ref_flag_CHUNK_START = CHUNK_START /\ ref_flag_CHUNK_END = CHUNK_END /\ ref_flag_PARENT = PARENT /\
  ref_flag_ROOT = ROOT /\ ref_flag_KEYED_HASH = KEYED_HASH /\
  ref_flag_DERIVE_KEY_CONTEXT = DERIVE_KEY_CONTEXT /\ ref_flag_DERIVE_KEY_MATERIAL = DERIVE_KEY_MATERIAL.
Proof. repeat split; reflexivity. Qed.

Lemma ref_lens : ref_OUT_LEN = 32 /\ ref_KEY_LEN = 32 /\ ref_BLOCK_LEN = 64 /\ ref_CHUNK_LEN = 1024 /\ ref_stack_len = 54.
Proof. repeat split; reflexivity. Qed.

Lemma ref_round_is_spec s m : length s = 16%nat -> length m = 16%nat ->
  ref_round s m = Compress.round s m.
Proof. intros Hs Hm. destruct_list s 16. destruct_list m 16. reflexivity. Qed.

Lemma ref_round_length s m : length s = 16%nat -> length (ref_round s m) = 16%nat.
Proof. intros Hs. destruct_list s 16. reflexivity. Qed.

Lemma ref_permute_is_spec m : length m = 16%nat -> ref_permute m = Ok (Compress.permute m).
Proof. intros Hm. destruct_list m 16. reflexivity. Qed.

Lemma ref_feed_forward_is_spec s cv : length s = 16%nat -> length cv = 8%nat ->
  ref_feed_forward s cv = xor_lists (firstn 8 s) (skipn 8 s) ++ xor_lists (skipn 8 s) cv.
Proof. intros Hs Hcv. destruct_list s 16. destruct_list cv 8. reflexivity. Qed.

Theorem ref_compress_words_is_spec cv bw block ctr bl fl :
  length cv = 8%nat -> length bw = 16%nat -> words_of_bytes block = bw ->
  ref_compress cv bw ctr bl fl = Ok (compress cv block bl ctr fl).
Proof.
  intros Hcv Hbw <-. destruct_list cv 8. unfold ref_compress, compress. cbv zeta.
  rewrite ref_permute_is_spec by exact Hbw. cbn [bind].
  do 5 (rewrite ref_permute_is_spec by apply permute_length; cbn [bind]).
  (* `simple apply`: plain `apply` would try to compute the rounds to tell them from a permutation *)
  rewrite !ref_round_is_spec
    by first [exact Hbw | simple apply permute_length | repeat simple apply ref_round_length; reflexivity].
  rewrite <- ref_feed_forward_is_spec by first [reflexivity | apply rounds7_length; [reflexivity|exact Hbw]].
  cbn [rounds]. reflexivity.
Qed.

Lemma ref_words_from_le_bytes_ok bytes (n : nat) : length bytes = (4 * n)%nat ->
  ref_words_from_le_bytes bytes n = Ok (words_of_bytes bytes).
Proof.
  intros H. pose proof (words_of_bytes_length n bytes H) as Hw.
  unfold ref_words_from_le_bytes, rlen. rewrite H.
  replace (N.of_nat (4 * n) =? 4 * N.of_nat n) with true by lia. cbn [check bind].
  rewrite firstn_all2 by lia. rewrite Hw, Nat.sub_diag. cbn [repeat]. rewrite app_nil_r. reflexivity.
Qed.

Theorem ref_compress_is_spec cv block ctr bl fl :
  length cv = 8%nat -> length block = 64%nat ->
  (bw <- ref_words_from_le_bytes block 16 ;; ref_compress cv bw ctr bl fl)
  = Ok (compress cv block bl ctr fl).
Proof.
  intros Hcv Hb. rewrite (ref_words_from_le_bytes_ok block 16) by exact Hb.
  apply ref_compress_words_is_spec; [exact Hcv|apply words_of_bytes_length; exact Hb|reflexivity].
Qed.

Definition W (x : N) : Prop := x < 4294967296.

Lemma W_add32 a b : W (add32 a b).
Proof. apply w32_lt. Qed.

Lemma W_lor a b : W a -> W b -> W (N.lor a b).
Proof. apply (lor_lt_pow2 a b 32). Qed.

Lemma W_xor32 a b : W a -> W b -> W (xor32 a b).
Proof. apply (lxor_lt_pow2 a b 32). Qed.

Lemma W_rotr32 x r : W x -> W (rotr32 x r).
Proof. apply rotr32_lt. Qed.

Lemma g_words a b c d mx my : W b -> W d ->
  let '(a', b', c', d') := Compress.g a b c d mx my in W a' /\ W b' /\ W c' /\ W d'.
Proof.
  intros Hb Hd. unfold Compress.g. cbv zeta.
  repeat split; repeat first [apply W_add32 | apply W_rotr32 | apply W_xor32 | assumption].
Qed.

Lemma round_words s m : length s = 16%nat -> length m = 16%nat ->
  Forall W s -> Forall W (Compress.round s m).
Proof.
  intros Hs Hm HW. destruct_list s 16. destruct_list m 16.
  repeat (apply Forall_cons_iff in HW; destruct HW as [? HW]).
  cbn [Compress.round].
  repeat match goal with
  | |- context [Compress.g ?a ?b ?c ?d ?x ?y] =>
      let G := fresh "G" in
      pose proof (g_words a b c d x y ltac:(assumption) ltac:(assumption)) as G;
      destruct (Compress.g a b c d x y) as [[[? ?] ?] ?]; destruct G as (?&?&?&?)
  end.
  repeat (apply Forall_cons; [assumption|]). apply Forall_nil.
Qed.

Lemma permute_length' m : length (permute m) = 16%nat.
Proof. apply permute_length. Qed.

Lemma rounds_inv (P : list N -> Prop) :
  (forall s m, P s -> length m = 16%nat -> P (Compress.round s m)) ->
  forall n s m, P s -> length m = 16%nat -> P (rounds n s m).
Proof.
  intros HP. induction n as [|n IH]; intros s m Hs Hm; [exact Hs|].
  destruct n; [apply HP; assumption|].
  apply IH; [apply HP; assumption|apply permute_length].
Qed.

Lemma rounds_words n s m : length s = 16%nat -> length m = 16%nat ->
  Forall W s -> Forall W (rounds n s m).
Proof.
  intros Hs Hm HW.
  apply (rounds_inv (fun s => length s = 16%nat /\ Forall W s)); [|split; assumption|exact Hm].
  intros s' m' [Hs' HW'] Hm'. split; [apply round_length|apply round_words]; assumption.
Qed.

Lemma xor_lists_words a : forall b, Forall W a -> Forall W b -> Forall W (xor_lists a b).
Proof.
  unfold xor_lists. induction a as [|x a IH]; intros b Ha Hb; [constructor|].
  destruct b as [|y b]; [constructor|]. cbn [combine map fst snd].
  inversion Ha; subst. inversion Hb; subst. constructor; [apply W_xor32; assumption|apply IH; assumption].
Qed.

Lemma IV_words : Forall W IV.
Proof. repeat constructor. Qed.

Theorem spec_c8_words cv block bl ctr fl :
  length cv = 8%nat -> length block = 64%nat -> Forall W cv -> W bl -> W fl ->
  Forall W (spec_c8 cv block bl ctr fl).
Proof.
  intros Hcv Hb HW Hbl Hfl. unfold spec_c8, compress. cbv zeta.
  set (r := rounds 7 _ _).
  assert (HR : Forall W r).
  { apply rounds_words.
    - rewrite !app_length, Hcv. reflexivity.
    - apply words_of_bytes_length. exact Hb.
    - repeat (apply Forall_app; split); [exact HW|apply Forall_firstn, IV_words|].
      repeat constructor; first [apply w32_lt | assumption]. }
  pose proof (Forall_firstn W 8 r HR) as H1. pose proof (Forall_skipn W 8 r HR) as H2.
  apply Forall_firstn, Forall_app. split; apply xor_lists_words; assumption.
Qed.
