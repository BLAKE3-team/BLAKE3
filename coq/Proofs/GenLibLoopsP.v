(* ChunkState and the CV stack of Hasher in src/lib.rs as TRANSLATED statement by statement (gen/GenLibLoops.v:
   ChunkState::count / fill_buf / output / update, Hasher::merge_cv_stack / push_cv / final_output / finalize /
   finalize_xof / count) against the hand-written models Model/RsChunk.v / Model/RsHasher.v, for all arguments, the
   Panic and OutOfFuel results included.

   Representation.  The translated records keep the platform inside: lib_of_cs / lib_of_out / lib_of_hasher build them
   from the models' records and the platform (the ArrayVec cv_stack is the model's stack, top first, reversed).
   Method.  A translated function and its model are walked in lockstep.  Where no caller needs more, the statement is
   the equation `translation = res_map repr model`.  Where callers go on with the result (ChunkState::update, push_cv)
   it is the simulation `rsim (img repr P) model translation` of Proofs/ResP.v: that equation together with what the
   model's result satisfies (P), proved in one walk; rsim_eq and rsim_post give the two halves.
   Fuel.  cs_update_with / merge_cv_stack_with / push_cv_with are the models with the fuel of their loop as a
   parameter, as the translation has it; they are the models themselves when the fuel is enough (the lemmas ending in _enough and _64). *)
From Coq Require Import NArith List Bool Lia Arith.
From V Require Import Base.Res Base.Word Base.MachInt Base.Arr Base.ArrayVec gen.GenConsts gen.GenFormulas
  gen.GenLibSmall gen.GenLibLoops Spec.Tree Model.Portable Model.Platform Model.RsChunk Model.RsHasher
  Proofs.ResP Proofs.GenLibSmallP.
Import ListNotations.
Open Scope N_scope.

(* ResP.res_map under a name of this file: the statements of Props/C01 - C03, C09, C11, C16 are written with this
   constant; GenCHasherSmallP.res_map (Props/C06) and GenRefImplLoopsP.res_map (Props/C15, written with bind) are two more.
   All four are convertible, so the lemmas of ResP apply to each of them.  Where two of the constants would have to be
   unified under large terms, which is slow (GenLibWideP.v, GenCHasherLoopsP.v, GenCHasherWideP.v), the lemma is restated
   for the constant at hand; `cbn [ResP.res_map]` in a proof names the one a ResP lemma has left in the goal. *)
Definition res_map {A B} (f : A -> B) (r : res A) : res B :=
  match r with Ok a => Ok (f a) | Panic c => Panic c | OutOfFuel => OutOfFuel end.

Definition lib_of_out (p : platform) (o : output) : lib_Output :=
  lib_Output_mk (o_cv o) (o_block o) (o_blen o) (o_ctr o) (o_flags o) p.
Definition lib_of_cs (p : platform) (c : chunk_state) : lib_ChunkState :=
  lib_ChunkState_mk (cs_cv c) (cs_ctr c) (cs_buf c) (cs_buf_len c) (cs_blocks c) (cs_flags c) p.
Definition lib_of_hasher (p : platform) (h : hasher) : lib_Hasher :=
  lib_Hasher_mk (h_key h) (lib_of_cs p (h_cs h)) (h_init h) (rev (h_stack h)).

Ltac cs_fields :=
  cbn [lib_ChunkState_set_cv lib_ChunkState_set_buf lib_ChunkState_set_buf_len lib_ChunkState_set_blocks_compressed
       lib_ChunkState_cv lib_ChunkState_chunk_counter lib_ChunkState_buf lib_ChunkState_buf_len
       lib_ChunkState_blocks_compressed lib_ChunkState_flags lib_ChunkState_platform
       cs_cv cs_ctr cs_buf cs_buf_len cs_blocks cs_flags].

Lemma lib_ChunkState_count_eq p c : lib_ChunkState_count (lib_of_cs p c) = cs_count c.
Proof. apply bind_ret. Qed.

Lemma cs_of_lib_of_cs p c : cs_of_lib (lib_of_cs p c) = c.
Proof. destruct c; reflexivity. Qed.
Lemma out_of_lib_of_out p o : out_of_lib (lib_of_out p o) = o.
Proof. destruct o; reflexivity. Qed.

Lemma start_flag_eq p c : lib_ChunkState_start_flag (lib_of_cs p c) = Ok (cs_start_flag c).
Proof. rewrite lib_ChunkState_start_flag_eq, cs_of_lib_of_cs. reflexivity. Qed.

Lemma output_eq p c : lib_ChunkState_output (lib_of_cs p c) = Ok (lib_of_out p (cs_output c)).
Proof. unfold lib_ChunkState_output. rewrite start_flag_eq. reflexivity. Qed.

Lemma cs_fill_buf_Ok c input c' input' : cs_fill_buf c input = Ok (c', input') ->
  cs_cv c' = cs_cv c /\ cs_buf_len c' < 2 ^ 8 /\ (length input' <= length input)%nat.
Proof.
  unfold cs_fill_buf. intros H.
  apply bind_Ok in H. destruct H as (want & _ & H).
  apply bind_Ok in H. destruct H as ([] & _ & H). apply bind_Ok in H. destruct H as ([] & _ & H).
  apply bind_Ok in H. destruct H as (bl' & Hbl & H). inversion H; subst. cbn [cs_cv cs_buf_len].
  split; [reflexivity|]. split; [exact (proj2 (mi_add_Ok _ _ _ _ Hbl))|]. rewrite skipn_length. lia.
Qed.

Lemma fill_buf_eq p c input : cs_buf_len c < 2 ^ 64 ->
  lib_ChunkState_fill_buf (lib_of_cs p c) input
  = res_map (fun r => (lib_of_cs p (fst r), snd r)) (cs_fill_buf c input).
Proof.
  intros Hbl. destruct c as [cv ctr buf bl blocks fl]. cbn [cs_buf_len] in Hbl.
  unfold lib_ChunkState_fill_buf, cs_fill_buf, lib_of_cs, nlen. cs_fields. mstep.
  rewrite (cast_small 64 bl Hbl). cbn [bind]. apply bind_same. intros want Hw. apply mi_sub_Ok in Hw.
  unfold mi_min. cbn [bind]. set (take := N.min want (N.of_nat (length input))).
  assert (Hti : take <= N.of_nat (length input)) by apply N.le_min_r.
  assert (Ht : take < 2 ^ 8) by (pose proof (N.le_min_l want (N.of_nat (length input))); change rs_BLOCK_LEN with 64 in Hw;
                                  word_lia).
  clearbody take. apply check_same. intros _. apply check_same. intros _.
  rewrite (check_leb take), check_eqb by (try rewrite firstn_length; lia). cs_fields.
  rewrite (cast_small 8 take Ht). cbn [bind]. apply bind_same. intros bl' _.
  rewrite (check_leb take) by exact Hti. cbn [res_map fst snd]. cs_fields.
  unfold arr_store. rewrite firstn_length, N2Nat.inj_add, Nat.min_l by lia. reflexivity.
Qed.

Definition cs_update_tail_with (fuel : nat) (p : platform) (cs : chunk_state) (input : list N) : res chunk_state :=
  '(cs, input) <- cs_update_loop fuel p cs input ;;
  '(cs, input) <- cs_fill_buf cs input ;;
  assert! (nlen input =? 0) code 1303 ;;
  c <- cs_count cs ;;
  assert! (c <=? rs_CHUNK_LEN) code 1304 ;;
  Ok cs.

Definition cs_update_with (fuel : nat) (p : platform) (cs : chunk_state) (input : list N) : res chunk_state :=
  '(cs, input) <-
    (if 0 <? cs_buf_len cs then
       '(cs, input) <- cs_fill_buf cs input ;;
       if negb (nlen input =? 0) then
         assert! (cs_buf_len cs =? rs_BLOCK_LEN) code 1302 ;;
         let block_flags := N.lor (cs_flags cs) (cs_start_flag cs) in
         let cv := p_compress_in_place p (cs_cv cs) (cs_buf cs) rs_BLOCK_LEN (cs_ctr cs) block_flags in
         blocks <- mi_add 8 (cs_blocks cs) 1 ;;
         Ok (mkCS cv (cs_ctr cs) zero_block 0 blocks (cs_flags cs), input)
       else Ok (cs, input)
     else Ok (cs, input)) ;;
  cs_update_tail_with fuel p cs input.

Definition cs_update_head (p : platform) (cs : chunk_state) (input : list N) : res (chunk_state * list N) :=
  if 0 <? cs_buf_len cs then
    '(cs, input) <- cs_fill_buf cs input ;;
    if negb (nlen input =? 0) then
      assert! (cs_buf_len cs =? rs_BLOCK_LEN) code 1302 ;;
      let block_flags := N.lor (cs_flags cs) (cs_start_flag cs) in
      let cv := p_compress_in_place p (cs_cv cs) (cs_buf cs) rs_BLOCK_LEN (cs_ctr cs) block_flags in
      blocks <- mi_add 8 (cs_blocks cs) 1 ;;
      Ok (mkCS cv (cs_ctr cs) zero_block 0 blocks (cs_flags cs), input)
    else Ok (cs, input)
  else Ok (cs, input).

Lemma cs_update_with_head fuel p c input :
  cs_update_with fuel p c input = ('(cs, input) <- cs_update_head p c input ;; cs_update_tail_with fuel p cs input).
Proof. reflexivity. Qed.

Lemma cs_update_head_tail p c input :
  cs_update p c input = ('(cs, input) <- cs_update_head p c input ;; cs_update_tail p cs input).
Proof. reflexivity. Qed.

Lemma cs_update_head_len p c input c' input' : cs_update_head p c input = Ok (c', input') -> (length input' <= length input)%nat.
Proof.
  unfold cs_update_head. intros H. destruct (0 <? cs_buf_len c); [|inversion H; subst; apply le_n].
  apply bind_Ok in H. destruct H as ([c1 in1] & Hf & H). destruct (cs_fill_buf_Ok _ _ _ _ Hf) as (_ & _ & Hlen).
  destruct (negb (nlen in1 =? 0)); [|inversion H; subst; exact Hlen].
  apply bind_Ok in H. destruct H as ([] & _ & H). apply bind_Ok in H. destruct H as (b & _ & H). inversion H; subst. exact Hlen.
Qed.

(* Inv is what a caller needs kept of the chaining value: `length cv = 8` in GenLibWideP.v, True for the plain equations *)
Section UpdateInv.
  Variables (p : platform) (Inv : list N -> Prop).
  Hypothesis Hstep : forall cv block bl ctr fl, Inv cv -> Inv (p_compress_in_place p cv block bl ctr fl).

  Definition cs_in (r : chunk_state * list N) : lib_ChunkState * list N := (lib_of_cs p (fst r), snd r).
  Definition keeps (c c' : chunk_state) : Prop := Inv (cs_cv c) -> Inv (cs_cv c').

  Lemma fill_buf_sim c input : cs_buf_len c < 2 ^ 64 ->
    rsim (img cs_in (fun r => cs_cv (fst r) = cs_cv c /\ cs_buf_len (fst r) < 2 ^ 8 /\ (length (snd r) <= length input)%nat))
      (cs_fill_buf c input) (lib_ChunkState_fill_buf (lib_of_cs p c) input).
  Proof.
    intros H. refine (rsim_of_eq cs_in _ (cs_fill_buf c input) _ (fill_buf_eq p c input H) _).
    intros [c' i'] E. exact (cs_fill_buf_Ok c input c' i' E).
  Qed.

  Lemma update_loop_sim : forall fuel c input,
    rsim (img cs_in (fun r => cs_buf_len (fst r) = cs_buf_len c /\ keeps c (fst r)))
      (cs_update_loop fuel p c input) (lib_ChunkState_update_loop1 fuel (lib_of_cs p c) input).
  Proof.
    induction fuel as [|fuel IH]; intros c input; cbn [lib_ChunkState_update_loop1 cs_update_loop]; mstep; unfold nlen;
      rewrite N.ltb_antisym; destruct (N.of_nat (length input) <=? rs_BLOCK_LEN) eqn:Elen; cbn [negb];
      try exact (rsim_ret _ _ _ (conj eq_refl (conj eq_refl (fun H => H)))); try reflexivity.
    apply N.leb_gt in Elen. rewrite start_flag_eq.
    change (lib_ChunkState_buf_len (lib_of_cs p c)) with (cs_buf_len c). apply rsim_check. intros _.
    unfold mi_or, mi_cast. cbn [bind]. rewrite (check_leb (0 + rs_BLOCK_LEN)) by lia.
    destruct c as [cv ctr buf bl blocks fl]. unfold lib_of_cs. cs_fields. apply rsim_same. intros b' _.
    rewrite (check_leb rs_BLOCK_LEN) by lia.
    refine (rsim_impl _ _ _ _ _ (IH (mkCS _ ctr buf bl b' fl) _)).
    intros r t [E [H1 H2]]. split; [exact E|]. split; [exact H1|]. intros Hc. apply H2, Hstep, Hc.
  Qed.

  Theorem update_sim fuel c input : cs_buf_len c < 2 ^ 64 ->
    rsim (img (lib_of_cs p) (fun c' => cs_buf_len c' < 2 ^ 8 /\ keeps c c'))
      (cs_update_with fuel p c input) (lib_ChunkState_update fuel (lib_of_cs p c) input).
  Proof.
    intros Hbl. rewrite cs_update_with_head. unfold lib_ChunkState_update. mstep.
    change (lib_ChunkState_buf_len (lib_of_cs p c)) with (cs_buf_len c).
    apply (rsim_bind (img cs_in (fun r => cs_buf_len (fst r) < 2 ^ 64 /\ keeps c (fst r)))).
    - unfold cs_update_head. apply rsim_if; intros _; [|exact (rsim_ret _ _ _ (conj eq_refl (conj Hbl (fun H => H))))].
      eapply rsim_bind; [exact (fill_buf_sim c input Hbl)|]. intros [c1 in1] ? [-> (Hcv & Hbl1 & _)]. cbn [cs_in fst snd] in *.
      fold (nlen in1). destruct (negb (nlen in1 =? 0));
        [|apply rsim_ret; split; [reflexivity|]; cbn [fst]; split; [word_lia|unfold keeps; rewrite Hcv; auto]].
      rewrite start_flag_eq. destruct c1 as [cv ctr buf bl blocks fl]. unfold lib_of_cs. cs_fields.
      rewrite (cast_small 64 bl) by (cbn [cs_buf_len] in Hbl1; word_lia).
      cbn [bind]. rewrite bind_assoc. apply rsim_check. intros _. unfold mi_or, mi_cast. cbn [bind]. cs_fields.
      rewrite !bind_assoc. apply rsim_same. intros b' _. apply rsim_ret. split; [reflexivity|].
      split; [reflexivity|]. intros Hc. apply Hstep. cbn [cs_cv] in Hcv. rewrite Hcv. exact Hc.
    - intros [c0 in0] ? [-> [Hbl0 K0]]. cbn [cs_in fst snd] in *. unfold cs_update_tail_with.
      eapply rsim_bind; [apply update_loop_sim|]. intros [c1 in1] ? [-> [Ebl K1]]. cbn [cs_in fst snd] in *.
      eapply rsim_bind; [exact (fill_buf_sim c1 in1 ltac:(rewrite Ebl; exact Hbl0))|].
      intros [c2 in2] ? [-> (Hcv & Hbl2 & _)]. cbn [cs_in fst snd] in *. apply rsim_check. intros _.
      rewrite lib_ChunkState_count_eq, bind_assoc. apply rsim_same. intros n _. apply rsim_check. intros _.
      apply rsim_ret. split; [reflexivity|]. split; [exact Hbl2|]. unfold keeps in *. rewrite Hcv. auto.
  Qed.
End UpdateInv.

Lemma update_loop_eq p fuel c input :
  lib_ChunkState_update_loop1 fuel (lib_of_cs p c) input
  = res_map (fun r => (lib_of_cs p (fst r), snd r)) (cs_update_loop fuel p c input).
Proof. exact (rsim_eq _ _ _ _ (update_loop_sim p (fun _ => True) (fun _ _ _ _ _ _ => I) fuel c input)). Qed.

Lemma lib_ChunkState_update_eq p fuel c input : cs_buf_len c < 2 ^ 64 ->
  lib_ChunkState_update fuel (lib_of_cs p c) input = res_map (lib_of_cs p) (cs_update_with fuel p c input).
Proof. intros Hbl. exact (rsim_eq _ _ _ _ (update_sim p (fun _ => True) (fun _ _ _ _ _ _ => I) fuel c input Hbl)). Qed.

Lemma cs_update_loop_fuel p : forall f1 f2 c input, (length input < 64 * f1)%nat -> (length input < 64 * f2)%nat ->
  cs_update_loop f1 p c input = cs_update_loop f2 p c input.
Proof.
  induction f1 as [|f1 IH]; intros f2 c input H1 H2; [lia|].
  destruct f2 as [|f2]; [lia|]. cbn [cs_update_loop].
  destruct (nlen input <=? rs_BLOCK_LEN) eqn:E; [reflexivity|].
  apply N.leb_gt in E. unfold nlen in E. change rs_BLOCK_LEN with 64 in E.
  apply bind_ext. intros _ _. apply bind_ext. intros b _.
  apply IH; rewrite skipn_length; change (N.to_nat rs_BLOCK_LEN) with 64%nat; lia.
Qed.

Lemma cs_update_tail_with_enough p fuel c input : (length input < 64 * fuel)%nat ->
  cs_update_tail_with fuel p c input = cs_update_tail p c input.
Proof.
  intros H. unfold cs_update_tail_with, cs_update_tail.
  rewrite (cs_update_loop_fuel p fuel (S (length input / 64)) c input H (Nat.mul_succ_div_gt _ 64 ltac:(discriminate))). reflexivity.
Qed.

Lemma cs_update_with_enough p fuel c input : (length input < 64 * fuel)%nat ->
  cs_update_with fuel p c input = cs_update p c input.
Proof.
  intros H. rewrite cs_update_with_head, cs_update_head_tail. apply bind_ext. intros [c0 in0] Eh.
  apply cs_update_tail_with_enough.
  pose proof (cs_update_head_len p _ _ _ _ Eh). lia.
Qed.

Theorem lib_ChunkState_update_model p fuel c input : cs_buf_len c < 2 ^ 64 -> (length input < 64 * fuel)%nat ->
  lib_ChunkState_update fuel (lib_of_cs p c) input = res_map (lib_of_cs p) (cs_update p c input).
Proof.
  intros Hbl Hf. rewrite (lib_ChunkState_update_eq p fuel c input Hbl), (cs_update_with_enough p fuel c input Hf).
  reflexivity.
Qed.

(* the model's stand-ins for the functions the translation takes as parameters *)
Definition m_parent_node_output (l r key : list N) (flags : N) (p : platform) : lib_Output :=
  lib_of_out p (parent_output key flags l r).
Definition m_Output_chaining_value (o : lib_Output) : list N :=
  out_chaining_value (lib_Output_platform o) (out_of_lib o).
Definition m_Output_root_hash (o : lib_Output) : res (list N) :=
  out_root_hash (lib_Output_platform o) (out_of_lib o).

Definition set_stack (h : hasher) (st : list (list N)) : hasher := mkHasher (h_key h) (h_cs h) (h_init h) st.

Lemma set_stack_id h : set_stack h (h_stack h) = h.
Proof. destruct h; reflexivity. Qed.

Lemma m_cv_of_out p o : m_Output_chaining_value (lib_of_out p o) = out_chaining_value p o.
Proof. unfold m_Output_chaining_value. rewrite out_of_lib_of_out. reflexivity. Qed.

Lemma av_index_app_last {A} (a w : list A) (x : A) : av_index ((a ++ [x]) ++ w) (N.of_nat (length a)) = Ok x.
Proof.
  unfold av_index. rewrite Nat2N.id, <- app_assoc. rewrite nth_error_app2 by lia.
  rewrite Nat.sub_diag. reflexivity.
Qed.

Lemma av_index_last {A} (a : list A) (x : A) : av_index (a ++ [x]) (N.of_nat (length a)) = Ok x.
Proof. rewrite <- (app_nil_r (a ++ [x])). apply av_index_app_last. Qed.

Definition merge_cv_stack_with (fuel : nat) (p : platform) (h : hasher) (chunk_counter : N) : res hasher :=
  target <- rs_post_merge_len chunk_counter (h_init h) ;;
  st <- merge_loop fuel p h (h_stack h) target ;;
  Ok (mkHasher (h_key h) (h_cs h) (h_init h) st).

Lemma merge_cv_stack_with_64 p h cc : merge_cv_stack_with 64 p h cc = merge_cv_stack p h cc.
Proof. reflexivity. Qed.

Definition push_cv_with (fuel : nat) (p : platform) (h : hasher) (new_cv : list N) (chunk_counter : N) : res hasher :=
  h <- merge_cv_stack_with fuel p h chunk_counter ;;
  assert! (N.of_nat (length (h_stack h)) <? rs_cv_stack_cap) code 51 ;;
  Ok (mkHasher (h_key h) (h_cs h) (h_init h) (new_cv :: h_stack h)).

Lemma push_cv_with_64 p h cv cc : push_cv_with 64 p h cv cc = push_cv p h cv cc.
Proof. reflexivity. Qed.

Definition same_but_stack (h h' : hasher) : Prop := h_key h' = h_key h /\ h_cs h' = h_cs h /\ h_init h' = h_init h.
Definition pushed (h h' : hasher) : Prop := same_but_stack h h' /\ N.of_nat (length (h_stack h')) <= rs_cv_stack_cap.

(* The lemmas about the functions that call parent_node_output / Output::chaining_value are proved once, for ANY pair
   of functions (pno, cvf) that behave like the specification's parent_output / the model's out_chaining_value on
   chaining values satisfying G and outputs satisfying Good (ext_ok); ext_ok has two instances:
     - the model's own m_parent_node_output / m_Output_chaining_value (G, Good := True): no side conditions;
     - the TRANSLATED lib_parent_node_output / lib_Output_chaining_value of gen/GenLibSmall.v (G := 32 bytes,
       Good := an 8-word input chaining value, on a PlatformOK platform): then every line is the source's. *)
Record ext_ok (p : platform) (G : list N -> Prop) (Good : output -> Prop)
    (pno : list N -> list N -> list N -> N -> platform -> lib_Output) (cvf : lib_Output -> list N) : Prop := {
  ext_pno : forall l r key fl, G l -> G r -> pno l r key fl p = lib_of_out p (parent_output key fl l r);
  ext_cv : forall o, Good o -> cvf (lib_of_out p o) = out_chaining_value p o;
  ext_G : forall o, Good o -> G (out_chaining_value p o) }.
Arguments ext_pno {p G Good pno cvf}.
Arguments ext_cv {p G Good pno cvf}.
Arguments ext_G {p G Good pno cvf}.

Section Ext.
  Variable p : platform.
  Variable G : list N -> Prop.
  Variable Good : output -> Prop.
  Variable pno : list N -> list N -> list N -> N -> platform -> lib_Output.
  Variable cvf : lib_Output -> list N.
  Hypothesis E : ext_ok p G Good pno cvf.

  Definition key_ok (h : hasher) : Prop := forall fl l r, Good (parent_output (h_key h) fl l r).

  Lemma merge_loop_gen cc : forall fuel h st target, N.of_nat (length st) <= rs_cv_stack_cap ->
    Forall G st -> key_ok h ->
    lib_Hasher_merge_cv_stack_loop1 pno cvf fuel (lib_of_hasher p (set_stack h st)) cc target
    = res_map (fun st' => lib_of_hasher p (set_stack h st')) (merge_loop fuel p h st target).
  Proof.
    induction fuel as [|fuel IH]; intros h st target Hcap HGst Hkey; cbn [lib_Hasher_merge_cv_stack_loop1 merge_loop]; mstep;
      unfold lib_of_hasher at 1; cbn [lib_Hasher_cv_stack set_stack h_stack]; unfold av_len at 1; rewrite rev_length, N.ltb_antisym;
      destruct (N.of_nat (length st) <=? target); cbn [negb res_map]; try reflexivity.
    unfold lib_of_hasher, set_stack. cbn [h_key h_cs h_init h_stack lib_Hasher_cv_stack].
    destruct st as [|rcv [|lcv rest]]; try reflexivity.
    inversion HGst as [|? ? Hr HG1]; subst. inversion HG1 as [|? ? Hl HG2]; subst. cbn [length] in Hcap.
    cbn [rev]. rewrite av_pop_unwrap_snoc.
    cbn [bind lib_Hasher_set_cv_stack lib_Hasher_cv_stack lib_Hasher_key lib_Hasher_chunk_state lib_Hasher_initial_chunk_counter].
    rewrite av_pop_unwrap_snoc.
    cbn [bind lib_Hasher_set_cv_stack lib_Hasher_cv_stack lib_Hasher_key lib_Hasher_chunk_state lib_Hasher_initial_chunk_counter].
    unfold av_push, av_len. rewrite rev_length, check_ltb by lia.
    cbn [lib_Hasher_set_cv_stack lib_Hasher_cv_stack lib_Hasher_key lib_Hasher_chunk_state lib_Hasher_initial_chunk_counter
         lib_of_cs lib_ChunkState_flags lib_ChunkState_platform].
    rewrite (ext_pno E lcv rcv _ _ Hl Hr), (ext_cv E _ (Hkey _ lcv rcv)).
    apply (IH h (parent_cv p h lcv rcv :: rest) target); [cbn [length]; lia| |exact Hkey].
    constructor; [|exact HG2]. apply (ext_G E), Hkey.
  Qed.

  Lemma merge_cv_stack_gen fuel h cc : N.of_nat (length (h_stack h)) <= rs_cv_stack_cap ->
    Forall G (h_stack h) -> key_ok h ->
    rsim (img (lib_of_hasher p) (same_but_stack h)) (merge_cv_stack_with fuel p h cc)
      (lib_Hasher_merge_cv_stack pno cvf fuel (lib_of_hasher p h) cc).
  Proof.
    intros Hcap HGst Hkey. unfold lib_Hasher_merge_cv_stack, merge_cv_stack_with, rs_post_merge_len.
    change (lib_Hasher_initial_chunk_counter (lib_of_hasher p h)) with (h_init h).
    apply rsim_same. intros target _.
    pose proof (merge_loop_gen cc fuel h _ target Hcap HGst Hkey) as HL. rewrite set_stack_id in HL.
    apply (rsim_bind _ _ _ _ _ _ (rsim_of_eq _ (fun _ => True) (merge_loop fuel p h (h_stack h) target) _ HL (fun _ _ => I))).
    intros st' ? [-> _]. apply rsim_ret. repeat split.
  Qed.

  Lemma push_cv_gen fuel h new_cv cc : N.of_nat (length (h_stack h)) <= rs_cv_stack_cap ->
    Forall G (h_stack h) -> key_ok h ->
    rsim (img (lib_of_hasher p) (pushed h)) (push_cv_with fuel p h new_cv cc)
      (lib_Hasher_push_cv pno cvf fuel (lib_of_hasher p h) new_cv cc).
  Proof.
    intros Hcap HGst Hkey. unfold lib_Hasher_push_cv, push_cv_with.
    eapply rsim_bind; [exact (merge_cv_stack_gen fuel h cc Hcap HGst Hkey)|]. intros h1 ? [-> (A & B & C)].
    unfold av_push, av_len. unfold lib_of_hasher at 1 2. cbn [lib_Hasher_cv_stack]. rewrite rev_length, bind_assoc.
    apply rsim_check. intros E51. apply N.ltb_lt in E51. apply rsim_ret. split; [reflexivity|].
    repeat split; cbn [h_key h_cs h_init h_stack length]; try assumption. lia.
  Qed.

  Lemma final_loop_gen h : key_ok h -> forall l fuel w o, Forall G l -> Good o ->
    lib_Hasher_final_output_loop1 pno cvf fuel
      (lib_Hasher_mk (h_key h) (lib_of_cs p (h_cs h)) (h_init h) (rev l ++ w)) (lib_of_out p o) (N.of_nat (length l))
    = if (length l <=? fuel)%nat then Ok (lib_of_out p (final_fold p h o l), 0) else OutOfFuel.
  Proof.
    intros Hkey. induction l as [|cv l IH]; intros fuel w o HGl Ho.
    - destruct fuel; reflexivity.
    - destruct fuel as [|fuel]; [reflexivity|]. inversion HGl as [|? ? Hcvg HGl']; subst.
      cbn [lib_Hasher_final_output_loop1]. mstep.
      replace (0 <? N.of_nat (length (cv :: l))) with true by (symmetry; apply N.ltb_lt; cbn [length]; lia).
      rewrite !(sub_small 64 _ 1) by (cbn [length]; lia). cbn [bind].
      replace (N.of_nat (length (cv :: l)) - 1) with (N.of_nat (length l)) by (cbn [length]; lia).
      cbn [lib_Hasher_cv_stack rev]. rewrite <- (rev_length l) at 1. rewrite av_index_app_last. cbn [bind].
      cbn [lib_Hasher_key lib_Hasher_chunk_state lib_of_cs lib_ChunkState_flags lib_ChunkState_platform].
      rewrite (ext_cv E o Ho), (ext_pno E cv _ _ _ Hcvg (ext_G E o Ho)), <- app_assoc.
      exact (IH fuel ([cv] ++ w) _ HGl' (Hkey _ _ _)).
  Qed.

  (* the one place where the model and the source differ: with exactly one entry on the stack and an empty chunk state
     the source's debug_assert!(self.cv_stack.len() >= 2) fires (code 1406 here); the model leaves it to the index
     panic that follows in every build (Panic 53) *)
  Lemma final_output_gen fuel h : (length (h_stack h) <= fuel)%nat ->
    (forall a, h_stack h = [a] -> cs_count (h_cs h) <> Ok 0) ->
    Forall G (h_stack h) -> key_ok h -> Good (cs_output (h_cs h)) ->
    lib_Hasher_final_output pno cvf fuel (lib_of_hasher p h) = res_map (lib_of_out p) (final_output p h).
  Proof.
    intros Hfuel Hone HGst Hkey Hcs. unfold lib_Hasher_final_output, final_output, lib_of_hasher.
    cbn [lib_Hasher_cv_stack lib_Hasher_chunk_state lib_Hasher_initial_chunk_counter]. unfold av_len. rewrite rev_length.
    rewrite lib_ChunkState_count_eq, output_eq. change (lib_ChunkState_chunk_counter (lib_of_cs p (h_cs h))) with (cs_ctr (h_cs h)).
    change (mu (mi_cast 64) (mu (mi_popcount 64) (mb (mi_sub 64) (Ok (cs_ctr (h_cs h))) (Ok (h_init h)))))
      with (rs_post_merge_len (cs_ctr (h_cs h)) (h_init h)).
    mstep. destruct (h_stack h) as [|a st] eqn:Est.
    - cbn [length N.of_nat N.eqb]. apply check_same. reflexivity.
    - replace (N.of_nat (length (a :: st)) =? 0) with false by (symmetry; apply N.eqb_neq; cbn [length]; lia).
      rewrite bind_assoc. apply bind_same. intros c Ec. cbn [bind].
      destruct (0 <? c) eqn:Epos.
      + rewrite !bind_assoc. apply bind_same. intros target _. cbn [bind]. rewrite bind_assoc. apply check_same. intros _.
        cbn [bind]. rewrite <- (app_nil_r (rev (a :: st))), (final_loop_gen h Hkey (a :: st) fuel [] _ HGst Hcs).
        apply Nat.leb_le in Hfuel. rewrite Hfuel. reflexivity.
      + assert (c = 0) by (apply N.ltb_ge in Epos; lia). subst c.
        destruct st as [|lcv rest]; [destruct (Hone a eq_refl Ec)|].
        inversion HGst as [|? ? Ha HG1]; subst. inversion HG1 as [|? ? Hl HG2]; subst.
        rewrite (check_leb 2) by (cbn [length]; lia). rewrite !(sub_small 64) by (cbn [length]; lia). cbn [bind].
        replace (N.of_nat (length (a :: lcv :: rest)) - 2) with (N.of_nat (length (rev rest))) by (rewrite rev_length; cbn [length]; lia).
        replace (N.of_nat (length (a :: lcv :: rest)) - 1) with (N.of_nat (length (rev rest ++ [lcv])))
          by (rewrite app_length, rev_length; cbn [length]; lia).
        cbn [rev]. rewrite av_index_app_last. cbn [bind]. rewrite av_index_last. cbn [bind].
        cbn [lib_Hasher_key lib_Hasher_chunk_state lib_of_cs lib_ChunkState_flags lib_ChunkState_platform].
        rewrite <- app_assoc, rev_length, (ext_pno E lcv a _ _ Hl Ha).
        rewrite (final_loop_gen h Hkey rest fuel ([lcv] ++ [a]) _ HG2 (Hkey _ _ _)).
        replace (length rest <=? fuel)%nat with true by (symmetry; apply Nat.leb_le; cbn [length] in Hfuel; lia).
        reflexivity.
  Qed.

  Lemma final_output_one_gen fuel h a : h_stack h = [a] -> cs_count (h_cs h) = Ok 0 ->
    lib_Hasher_final_output pno cvf fuel (lib_of_hasher p h) = Panic 1406 /\ final_output p h = Panic 53.
  Proof.
    intros Est Ec. unfold lib_Hasher_final_output, final_output, lib_of_hasher. rewrite Est.
    cbn [lib_Hasher_cv_stack lib_Hasher_chunk_state rev app]. rewrite lib_ChunkState_count_eq, Ec. split; reflexivity.
  Qed.

  Lemma finalize_gen rh fuel h : (forall o, rh (lib_of_out p o) = out_root_hash p o) ->
    (length (h_stack h) <= fuel)%nat -> (forall a, h_stack h = [a] -> cs_count (h_cs h) <> Ok 0) ->
    Forall G (h_stack h) -> key_ok h -> Good (cs_output (h_cs h)) ->
    lib_Hasher_finalize pno cvf rh fuel (lib_of_hasher p h) = hasher_finalize p h.
  Proof.
    intros Hrh Hf H1 HGst Hkey Hcs. unfold lib_Hasher_finalize, hasher_finalize. mstep. apply bind_ext. intros _ _.
    rewrite (final_output_gen fuel h Hf H1 HGst Hkey Hcs), bind_res_map. apply bind_ext. intros o _.
    rewrite Hrh. apply bind_ret.
  Qed.

  (* finalize_xof: OutputReader::new is a parameter of the translation *)
  Lemma finalize_xof_gen {R} (new : lib_Output -> R) fuel h : (length (h_stack h) <= fuel)%nat ->
    (forall a, h_stack h = [a] -> cs_count (h_cs h) <> Ok 0) ->
    Forall G (h_stack h) -> key_ok h -> Good (cs_output (h_cs h)) ->
    lib_Hasher_finalize_xof pno cvf new fuel (lib_of_hasher p h)
    = res_map (fun o => new (lib_of_out p o)) (hasher_finalize_output p h).
  Proof.
    intros Hf H1 HGst Hkey Hcs. unfold lib_Hasher_finalize_xof, hasher_finalize_output. mstep. apply check_same. intros _.
    apply (bind_sim_ret (lib_of_out p)); [exact (final_output_gen fuel h Hf H1 HGst Hkey Hcs)|]. reflexivity.
  Qed.
End Ext.

Definition GT (_ : list N) : Prop := True.
Definition GoodT (_ : output) : Prop := True.

Lemma Forall_GT st : Forall GT st.
Proof. induction st; constructor; [exact I|assumption]. Qed.

Lemma key_ok_T h : key_ok GoodT h.
Proof. intros fl l r. exact I. Qed.

Lemma ext_m p : ext_ok p GT GoodT m_parent_node_output m_Output_chaining_value.
Proof. split; [reflexivity|intros o _; apply m_cv_of_out|intros o _; exact I]. Qed.

Lemma lib_Hasher_merge_cv_stack_eq p fuel h cc : N.of_nat (length (h_stack h)) <= rs_cv_stack_cap ->
  lib_Hasher_merge_cv_stack m_parent_node_output m_Output_chaining_value fuel (lib_of_hasher p h) cc
  = res_map (lib_of_hasher p) (merge_cv_stack_with fuel p h cc).
Proof. intros Hcap. exact (rsim_eq _ _ _ _ (merge_cv_stack_gen p _ _ _ _ (ext_m p) fuel h cc Hcap (Forall_GT _) (key_ok_T h))). Qed.

Lemma lib_Hasher_push_cv_sim p fuel h new_cv cc : N.of_nat (length (h_stack h)) <= rs_cv_stack_cap ->
  rsim (img (lib_of_hasher p) (pushed h)) (push_cv_with fuel p h new_cv cc)
    (lib_Hasher_push_cv m_parent_node_output m_Output_chaining_value fuel (lib_of_hasher p h) new_cv cc).
Proof. intros Hcap. exact (push_cv_gen p _ _ _ _ (ext_m p) fuel h new_cv cc Hcap (Forall_GT _) (key_ok_T h)). Qed.

Lemma lib_Hasher_final_output_eq p fuel h : (length (h_stack h) <= fuel)%nat ->
  (forall a, h_stack h = [a] -> cs_count (h_cs h) <> Ok 0) ->
  lib_Hasher_final_output m_parent_node_output m_Output_chaining_value fuel (lib_of_hasher p h)
  = res_map (lib_of_out p) (final_output p h).
Proof. intros Hf H1. exact (final_output_gen p _ _ _ _ (ext_m p) fuel h Hf H1 (Forall_GT _) (key_ok_T h) I). Qed.

Lemma m_rh_of_out p o : m_Output_root_hash (lib_of_out p o) = out_root_hash p o.
Proof. unfold m_Output_root_hash. rewrite out_of_lib_of_out. reflexivity. Qed.

(* the translation's `output.root_hash()` after a call the model makes on the model's Output *)
Lemma root_hash_bind p (m : res output) :
  (t1 <- res_map (lib_of_out p) m ;; t2 <- m_Output_root_hash t1 ;; Ok t2) = (o <- m ;; out_root_hash p o).
Proof. rewrite bind_res_map. apply bind_ext. intros o _. rewrite m_rh_of_out. apply bind_ret. Qed.

Lemma lib_Hasher_finalize_eq p fuel h : (length (h_stack h) <= fuel)%nat ->
  (forall a, h_stack h = [a] -> cs_count (h_cs h) <> Ok 0) ->
  lib_Hasher_finalize m_parent_node_output m_Output_chaining_value m_Output_root_hash fuel (lib_of_hasher p h)
  = hasher_finalize p h.
Proof. intros Hf H1. exact (finalize_gen p _ _ _ _ (ext_m p) _ fuel h (m_rh_of_out p) Hf H1 (Forall_GT _) (key_ok_T h) I). Qed.

Lemma lib_Hasher_finalize_xof_eq p fuel h : (length (h_stack h) <= fuel)%nat ->
  (forall a, h_stack h = [a] -> cs_count (h_cs h) <> Ok 0) ->
  lib_Hasher_finalize_xof m_parent_node_output m_Output_chaining_value out_of_lib fuel (lib_of_hasher p h)
  = hasher_finalize_output p h.
Proof.
  intros Hf H1. rewrite (finalize_xof_gen p _ _ _ _ (ext_m p) out_of_lib fuel h Hf H1 (Forall_GT _) (key_ok_T h) I).
  apply res_map_id, out_of_lib_of_out.
Qed.

Lemma merge_loop_length p h : forall fuel st target st', merge_loop fuel p h st target = Ok st' ->
  (length st' <= length st)%nat.
Proof.
  induction fuel as [|fuel IH]; intros st target st' H; cbn [merge_loop] in H.
  - destruct (N.of_nat (length st) <=? target); [inversion H; lia|discriminate].
  - destruct (N.of_nat (length st) <=? target); [inversion H; lia|].
    destruct st as [|rcv [|lcv rest]]; try discriminate. apply IH in H. cbn [length] in *. lia.
Qed.

Lemma cs_count_ok c : cs_blocks c < 2 ^ 8 -> cs_buf_len c < 2 ^ 8 -> exists n, cs_count c = Ok n.
Proof.
  intros Hb Hl. unfold cs_count, rs_chunk_count. mstep. change rs_BLOCK_LEN with 64.
  rewrite !cast_small by word_lia. cbn [bind].
  rewrite mul_small by word_lia. cbn [bind].
  rewrite add_small by word_lia. eexists. reflexivity.
Qed.

(* Hasher::count: the source evaluates (chunk_counter - initial_chunk_counter) * CHUNK_LEN before chunk_state.count(),
   the model the other way round; chunk_state.count() cannot fail for u8 fields (cs_count_ok), so the order does not show *)
Lemma lib_Hasher_count_eq p h : cs_blocks (h_cs h) < 2 ^ 8 -> cs_buf_len (h_cs h) < 2 ^ 8 ->
  lib_Hasher_count (lib_of_hasher p h) = hasher_count h.
Proof.
  intros Hb Hl. unfold lib_Hasher_count, hasher_count, rs_count.
  change (lib_Hasher_chunk_state (lib_of_hasher p h)) with (lib_of_cs p (h_cs h)).
  rewrite lib_ChunkState_count_eq. destruct (cs_count_ok (h_cs h) Hb Hl) as [n ->]. apply bind_ret.
Qed.

Lemma lib_of_cs_of_lib c : lib_of_cs (lib_ChunkState_platform c) (cs_of_lib c) = c.
Proof. destruct c; reflexivity. Qed.
Lemma lib_of_out_of_lib o : lib_of_out (lib_Output_platform o) (out_of_lib o) = o.
Proof. destruct o; reflexivity. Qed.
Lemma lib_of_hasher_of_lib h :
  lib_of_hasher (lib_ChunkState_platform (lib_Hasher_chunk_state h)) (hasher_of_lib h) = h.
Proof.
  destruct h as [k c i st]. unfold lib_of_hasher, hasher_of_lib.
  cbn [h_key h_cs h_init h_stack lib_Hasher_key lib_Hasher_chunk_state lib_Hasher_initial_chunk_counter lib_Hasher_cv_stack].
  rewrite rev_involutive, lib_of_cs_of_lib. reflexivity.
Qed.
Lemma hasher_of_lib_of_hasher p h : hasher_of_lib (lib_of_hasher p h) = h.
Proof.
  destruct h as [k c i st]. unfold lib_of_hasher, hasher_of_lib.
  cbn [h_key h_cs h_init h_stack lib_Hasher_key lib_Hasher_chunk_state lib_Hasher_initial_chunk_counter lib_Hasher_cv_stack].
  rewrite rev_involutive, cs_of_lib_of_cs. reflexivity.
Qed.

Definition G32 (cv : list N) : Prop := length cv = 32%nat.
Definition Good8 (o : output) : Prop := length (o_cv o) = 8%nat.

Section Src.
  Variable p : platform.
  Hypothesis OK : PlatformOK p.

  Lemma src_pno l r key fl : G32 l -> G32 r ->
    lib_parent_node_output l r key fl p = lib_of_out p (parent_output key fl l r).
  Proof.
    intros Hl Hr. destruct (lib_parent_node_output_eq l r key fl p Hl Hr) as [H1 H2].
    rewrite <- (lib_of_out_of_lib (lib_parent_node_output l r key fl p)), H1, H2. reflexivity.
  Qed.

  Lemma ext_src : ext_ok p G32 Good8 lib_parent_node_output lib_Output_chaining_value.
  Proof.
    split; [exact src_pno| |]; intros o Ho.
    - rewrite lib_Output_chaining_value_eq; [rewrite out_of_lib_of_out; reflexivity|exact OK|exact Ho].
    - exact (out_chaining_value_length p (fun cv block bl ctr fl => p_cip_length p cv block bl ctr fl OK) o Ho).
  Qed.

  Lemma src_key_ok h : length (h_key h) = 8%nat -> key_ok Good8 h.
  Proof. intros Hk fl l r. exact Hk. Qed.

  Lemma merge_loop_src cc fuel h st target : N.of_nat (length st) <= rs_cv_stack_cap ->
    Forall G32 st -> length (h_key h) = 8%nat ->
    lib_Hasher_merge_cv_stack_loop1 lib_parent_node_output lib_Output_chaining_value fuel
      (lib_of_hasher p (set_stack h st)) cc target
    = res_map (fun st' => lib_of_hasher p (set_stack h st')) (merge_loop fuel p h st target).
  Proof. intros Hcap HG Hk. exact (merge_loop_gen p _ _ _ _ ext_src cc fuel h st target Hcap HG (src_key_ok h Hk)). Qed.

End Src.
