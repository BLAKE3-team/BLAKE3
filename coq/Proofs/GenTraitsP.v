(* src/traits.rs and src/guts.rs as TRANSLATED statement by statement (gen/GenTraits.v): every RustCrypto trait method
   is the sequence of inherent-method calls the OpT* cases of Machine.step (Model/Machine.v) perform, and the guts API is
   Model/RsGuts.v, for all arguments, including the Panic results.

   Representation.  lib_of_hasher / lib_of_cs / lib_of_out / lib_of_rd as in Proofs/GenLibLoopsP.v, Proofs/GenXofP.v.
   Hasher::update is not translated (a parameter of the translation): m_Hasher_update is the model's hasher_update
   through the representation maps.  The other parameters are instantiated with the models' as in
   Proofs/GenLibLoopsP.v / Proofs/GenXofP.v.  guts::ChunkState is a tuple struct around crate::ChunkState: the
   translation works on the inner record.  An `out: &mut Array<u8, U32>` is its byte list. *)
From Coq Require Import NArith ZArith List Bool Lia Arith.
From V Require Import Base.Res Base.Word Base.MachInt Base.Arr Base.ArrayVec Base.MutSlice Base.SInt
  gen.GenConsts gen.GenFormulas gen.GenLibSmall gen.GenLibLoops gen.GenXof gen.GenHazmat gen.GenTraits
  Spec.Tree Model.Portable Model.Platform Model.RsChunk Model.RsWide Model.RsHasher Model.RsXof Model.RsGuts Model.Machine
  Proofs.ListP Proofs.ResP Proofs.GenLibSmallP Proofs.GenLibLoopsP Proofs.GenXofP Proofs.GenHazmatP.
Import ListNotations.
Open Scope N_scope.
(* a tactic that diverges when the generated text changes is a failure, not a hang *)
Set Default Timeout 300.

Definition m_Hasher_update (h : lib_Hasher) (input : list N) : res lib_Hasher :=
  let p := lib_ChunkState_platform (lib_Hasher_chunk_state h) in
  res_map (lib_of_hasher p) (hasher_update p (hasher_of_lib h) input).

Lemma m_Hasher_update_of p h input :
  m_Hasher_update (lib_of_hasher p h) input = res_map (lib_of_hasher p) (hasher_update p h input).
Proof. unfold m_Hasher_update. cbv zeta. rewrite hasher_of_lib_of_hasher. reflexivity. Qed.

Lemma tr_Update_update_eq p h data :
  tr_Update_update m_Hasher_update (lib_of_hasher p h) data = res_map (lib_of_hasher p) (hasher_update p h data).
Proof. unfold tr_Update_update. rewrite m_Hasher_update_of. apply bind_ret. Qed.

(* the side conditions of Hasher::finalize's tie (Proofs/GenLibLoopsP.v): the fuel covers the stack, and not the one
   state where the source's debug_assert fires before the model's index panic *)
Definition fin_ok (fuel : nat) (h : hasher) : Prop :=
  (length (h_stack h) <= fuel)%nat /\ (forall a, h_stack h = [a] -> cs_count (h_cs h) <> Ok 0).

Lemma finalize_into_gen {A} (g : list N -> A) p fuel h out : fin_ok fuel h ->
  (t1 <- lib_Hasher_finalize m_parent_node_output m_Output_chaining_value m_Output_root_hash fuel (lib_of_hasher p h) ;;
   assert! (N.of_nat (length t1) =? N.of_nat (length out)) code 42 ;;
   Ok (g (arr_store out (N.to_nat 0) t1)))
  = (d <- hasher_finalize p h ;; assert! (nlen d =? nlen out) code 42 ;; Ok (g d)).
Proof.
  intros [Hf H1]. rewrite (lib_Hasher_finalize_eq p fuel h Hf H1). apply bind_ext. intros d _. apply check_ext. intros E.
  apply N.eqb_eq in E. rewrite arr_store_whole by (unfold nlen in E; lia). reflexivity.
Qed.

Lemma tr_FixedOutput_finalize_into_eq p fuel h out : fin_ok fuel h ->
  tr_FixedOutput_finalize_into m_parent_node_output m_Output_chaining_value m_Output_root_hash fuel (lib_of_hasher p h) out
  = (d <- hasher_finalize p h ;; assert! (nlen d =? nlen out) code 42 ;; Ok d).
Proof. exact (finalize_into_gen (fun d => d) p fuel h out). Qed.

Lemma tr_FixedOutputReset_finalize_into_reset_eq p fuel h out : fin_ok fuel h ->
  tr_FixedOutputReset_finalize_into_reset m_parent_node_output m_Output_chaining_value m_Output_root_hash fuel
    (lib_of_hasher p h) out
  = (d <- hasher_finalize p h ;; assert! (nlen d =? nlen out) code 42 ;; Ok (lib_of_hasher p (hasher_reset h), d)).
Proof. exact (finalize_into_gen (fun d => (lib_of_hasher p (hasher_reset h), d)) p fuel h out). Qed.

Lemma final_fold_cv p h : forall l o,
  o_cv (final_fold p h o l) = match l with [] => o_cv o | _ => h_key h end.
Proof.
  induction l as [|cv l IH]; intros o; [reflexivity|].
  cbn [final_fold]. rewrite IH. destruct l; reflexivity.
Qed.

Lemma final_output_cv p h o : final_output p h = Ok o -> o_cv o = h_key h \/ o_cv o = cs_cv (h_cs h).
Proof.
  unfold final_output. destruct (h_stack h) as [|a st] eqn:Est.
  - destruct (cs_ctr (h_cs h) =? h_init h); cbn [check bind]; [|discriminate]. intros H. inversion H. right. reflexivity.
  - destruct (cs_count (h_cs h)) as [c| |]; cbn [bind]; try discriminate.
    destruct (0 <? c).
    + destruct (rs_post_merge_len (cs_ctr (h_cs h)) (h_init h)) as [t| |]; cbn [bind]; try discriminate.
      destruct (N.of_nat (length (a :: st)) =? t); cbn [check bind]; [|discriminate].
      intros H. inversion H. left. apply (final_fold_cv p h (a :: st)).
    + destruct st as [|lcv rest]; [discriminate|]. intros H. inversion H. left.
      rewrite final_fold_cv. destruct rest; reflexivity.
Qed.

(* the root node's input cv is the key or the chunk state's cv (final_output_cv): 8 words either way *)
Lemma hasher_finalize_length p h d : PlatformOK p -> length (h_key h) = 8%nat -> length (cs_cv (h_cs h)) = 8%nat ->
  hasher_finalize p h = Ok d -> length d = 32%nat.
Proof.
  intros OK Hk Hc H. unfold hasher_finalize in H. apply bind_Ok in H. destruct H as ([] & _ & H).
  apply bind_Ok in H. destruct H as (o & Eo & H).
  apply (out_root_hash_length p (fun cv block bl ctr fl => p_cip_length p cv block bl ctr fl OK) o d); [|exact H].
  destruct (final_output_cv p h o Eo) as [E|E]; rewrite E; assumption.
Qed.

Lemma tr_FixedOutput_finalize_into_32 p fuel h out : fin_ok fuel h -> PlatformOK p ->
  length (h_key h) = 8%nat -> length (cs_cv (h_cs h)) = 8%nat -> length out = 32%nat ->
  tr_FixedOutput_finalize_into m_parent_node_output m_Output_chaining_value m_Output_root_hash fuel (lib_of_hasher p h) out
  = hasher_finalize p h.
Proof.
  intros Hfin OK Hk Hc Hout. rewrite (tr_FixedOutput_finalize_into_eq p fuel h out Hfin). apply bind_ret_if. intros d Ed. unfold nlen. rewrite (hasher_finalize_length p h d OK Hk Hc Ed), Hout. reflexivity.
Qed.

Lemma lib_Hasher_finalize_xof_new_eq p fuel h : fin_ok fuel h ->
  lib_Hasher_finalize_xof m_parent_node_output m_Output_chaining_value lib_OutputReader_new fuel (lib_of_hasher p h)
  = res_map (fun o => lib_of_rd p (reader_new o)) (hasher_finalize_output p h).
Proof.
  intros [Hf H1]. exact (finalize_xof_gen p _ _ _ _ (ext_m p) lib_OutputReader_new fuel h Hf H1 (Forall_GT _) (key_ok_T h) I).
Qed.

Lemma tr_ExtendableOutput_finalize_xof_eq p fuel h : fin_ok fuel h ->
  tr_ExtendableOutput_finalize_xof m_parent_node_output m_Output_chaining_value fuel (lib_of_hasher p h)
  = res_map (fun o => lib_of_rd p (reader_new o)) (hasher_finalize_output p h).
Proof.
  intros Hfin. unfold tr_ExtendableOutput_finalize_xof. rewrite (lib_Hasher_finalize_xof_new_eq p fuel h Hfin). apply bind_ret.
Qed.

Lemma tr_ExtendableOutputReset_finalize_xof_reset_eq p fuel h : fin_ok fuel h ->
  tr_ExtendableOutputReset_finalize_xof_reset m_parent_node_output m_Output_chaining_value fuel (lib_of_hasher p h)
  = res_map (fun o => (lib_of_hasher p (hasher_reset h), lib_of_rd p (reader_new o))) (hasher_finalize_output p h).
Proof.
  intros Hfin. unfold tr_ExtendableOutputReset_finalize_xof_reset.
  apply (bind_sim_ret (fun o => lib_of_rd p (reader_new o))); [exact (lib_Hasher_finalize_xof_new_eq p fuel h Hfin)|]. reflexivity.
Qed.

Lemma tr_XofReader_read_eq p r buf : r_pwb r < 2 ^ 8 -> nlen buf < 2 ^ 64 -> xof_shape p (r_out r) ->
  tr_XofReader_read m_xof_many (lib_of_rd p r) buf = res_map (fill_map p) (reader_fill p r (nlen buf)).
Proof.
  intros Hpwb Hn Hsh. unfold tr_XofReader_read. cbv zeta. change (ms_win (ms_of buf)) with buf.
  rewrite (lib_OutputReader_fill_eq p r buf Hpwb Hn Hsh). apply bind_ret_pair.
Qed.

Lemma tr_XofReader_read_new p o n : n < 2 ^ 64 -> xof_shape p o ->
  tr_XofReader_read m_xof_many (lib_of_rd p (reader_new o)) (repeat 0 (N.to_nat n))
  = res_map (fill_map p) (reader_fill p (reader_new o) n).
Proof.
  intros Hn Hsh. assert (Hlen : nlen (repeat 0 (N.to_nat n)) = n) by (unfold nlen; rewrite repeat_length; apply N2Nat.id).
  rewrite tr_XofReader_read_eq, Hlen; [reflexivity|reflexivity|rewrite Hlen; exact Hn|exact Hsh].
Qed.

Lemma tr_KeyInit_new_eq key p : length key = 32%nat ->
  tr_KeyInit_new key p = lib_of_hasher p (new_internal (words_of_bytes key) rs_flag_KEYED_HASH).
Proof. intros H. unfold tr_KeyInit_new. cbv zeta. apply hz_Hasher_new_keyed_eq. exact H. Qed.

Section Step.
  Variables (p : platform) (pn : list N) (m : mmode) (key : list N) (flags : N) (st : mstate).

  Lemma step_TUpdate i b :
    step p pn m key flags st (OpTUpdate i b)
    = (h <- get (st_hashers st) i ;;
       h' <- tr_Update_update m_Hasher_update (lib_of_hasher p h) b ;;
       Ok (set_hasher st i (hasher_of_lib h'), [])).
  Proof.
    cbn [step]. apply bind_ext. intros h _. rewrite tr_Update_update_eq, bind_res_map. apply bind_ext. intros h' _.
    rewrite hasher_of_lib_of_hasher. reflexivity.
  Qed.

  Definition hasher_shape (fuel : nat) (h : hasher) : Prop :=
    fin_ok fuel h /\ length (h_key h) = 8%nat /\ length (cs_cv (h_cs h)) = 8%nat.

  Lemma step_TFinalize fuel i : PlatformOK p ->
    (forall h, get (st_hashers st) i = Ok h -> hasher_shape fuel h) ->
    step p pn m key flags st (OpTFinalize i)
    = (h <- get (st_hashers st) i ;;
       d <- tr_FixedOutput_finalize_into m_parent_node_output m_Output_chaining_value m_Output_root_hash fuel
              (lib_of_hasher p h) (repeat 0 32%nat) ;;
       Ok (st, [ObHex d])).
  Proof.
    intros OK Hsh. cbn [step]. apply bind_ext. intros h Eg. destruct (Hsh h Eg) as (Hfin & Hk & Hc).
    rewrite (tr_FixedOutput_finalize_into_32 p fuel h (repeat 0 32%nat) Hfin OK Hk Hc eq_refl). reflexivity.
  Qed.

  Lemma step_TFinalizeReset fuel i : PlatformOK p ->
    (forall h, get (st_hashers st) i = Ok h -> hasher_shape fuel h) ->
    step p pn m key flags st (OpTFinalizeReset i)
    = (h <- get (st_hashers st) i ;;
       '(h', d) <- tr_FixedOutputReset_finalize_into_reset m_parent_node_output m_Output_chaining_value m_Output_root_hash
                     fuel (lib_of_hasher p h) (repeat 0 32%nat) ;;
       Ok (set_hasher st i (hasher_of_lib h'), [ObHex d])).
  Proof.
    intros OK Hsh. cbn [step]. apply bind_ext. intros h Eg. destruct (Hsh h Eg) as (Hfin & Hk & Hc).
    rewrite (tr_FixedOutputReset_finalize_into_reset_eq p fuel h _ Hfin), bind_assoc. apply bind_ext. intros d Ed.
    unfold nlen. rewrite (hasher_finalize_length p h d OK Hk Hc Ed), repeat_length. reflexivity.
  Qed.

  Lemma step_TXof fuel i n : n < 2 ^ 64 ->
    (forall h, get (st_hashers st) i = Ok h -> fin_ok fuel h /\ forall o, hasher_finalize_output p h = Ok o -> xof_shape p o) ->
    step p pn m key flags st (OpTXof i n)
    = (h <- get (st_hashers st) i ;;
       rd <- tr_ExtendableOutput_finalize_xof m_parent_node_output m_Output_chaining_value fuel (lib_of_hasher p h) ;;
       '(rd', buf) <- tr_XofReader_read m_xof_many rd (repeat 0 (N.to_nat n)) ;;
       Ok (add_reader st (rd_of_lib rd'), [ObXof buf])).
  Proof.
    intros Hn Hsh. cbn [step]. apply bind_ext. intros h Eg. destruct (Hsh h Eg) as (Hfin & Hx).
    rewrite (tr_ExtendableOutput_finalize_xof_eq p fuel h Hfin), bind_res_map. apply bind_ext. intros o Eo.
    rewrite (tr_XofReader_read_new p o n Hn (Hx o Eo)), bind_res_map. apply bind_ext. intros [r bs] _.
    unfold fill_map. cbn [fst snd]. rewrite rd_of_lib_of_rd. reflexivity.
  Qed.

  Lemma step_TXofReset fuel i n : n < 2 ^ 64 ->
    (forall h, get (st_hashers st) i = Ok h -> fin_ok fuel h /\ forall o, hasher_finalize_output p h = Ok o -> xof_shape p o) ->
    step p pn m key flags st (OpTXofReset i n)
    = (h <- get (st_hashers st) i ;;
       '(h', rd) <- tr_ExtendableOutputReset_finalize_xof_reset m_parent_node_output m_Output_chaining_value fuel
                      (lib_of_hasher p h) ;;
       '(rd', buf) <- tr_XofReader_read m_xof_many rd (repeat 0 (N.to_nat n)) ;;
       Ok (add_reader (set_hasher st i (hasher_of_lib h')) (rd_of_lib rd'), [ObXof buf])).
  Proof.
    intros Hn Hsh. cbn [step]. apply bind_ext. intros h Eg. destruct (Hsh h Eg) as (Hfin & Hx).
    rewrite (tr_ExtendableOutputReset_finalize_xof_reset_eq p fuel h Hfin), bind_res_map. apply bind_ext. intros o Eo.
    rewrite (tr_XofReader_read_new p o n Hn (Hx o Eo)), bind_res_map. apply bind_ext. intros [r bs] _.
    unfold fill_map. cbn [fst snd]. rewrite rd_of_lib_of_rd, hasher_of_lib_of_hasher. reflexivity.
  Qed.

  Lemma step_TKeyInit k : m = MKeyed k -> length k = 32%nat ->
    step p pn m key flags st OpTKeyInit = Ok (add_hasher st (hasher_of_lib (tr_KeyInit_new k p)), []).
  Proof.
    intros Hm Hk. cbn [step]. rewrite Hm, (tr_KeyInit_new_eq k p Hk), hasher_of_lib_of_hasher. reflexivity.
  Qed.

  (* digest::Digest::new() is Default::default(), which is Hasher::new() *)
  Lemma step_TDigestNew :
    step p pn m key flags st OpTDigestNew = Ok (add_hasher st (hasher_of_lib (hz_Hasher_Default_default p)), []).
  Proof. cbn [step]. rewrite hz_Hasher_default_eq, hasher_of_lib_of_hasher. reflexivity. Qed.
End Step.

Lemma gu_ChunkState_len_eq p c : gu_ChunkState_len (lib_of_cs p c) = guts_len c.
Proof. unfold gu_ChunkState_len, guts_len. rewrite lib_ChunkState_count_eq. apply bind_ret. Qed.

Lemma gu_ChunkState_update_eq p fuel c input : cs_buf_len c < 2 ^ 64 -> (length input < 64 * fuel)%nat ->
  gu_ChunkState_update fuel (lib_of_cs p c) input = res_map (lib_of_cs p) (guts_update p c input).
Proof.
  intros Hbl Hf. unfold gu_ChunkState_update, guts_update. rewrite (lib_ChunkState_update_model p fuel c input Hbl Hf).
  apply bind_ret.
Qed.

Lemma gu_ChunkState_update_fuel p fuel c input : cs_buf_len c < 2 ^ 64 ->
  gu_ChunkState_update fuel (lib_of_cs p c) input = res_map (lib_of_cs p) (cs_update_with fuel p c input).
Proof. intros Hbl. unfold gu_ChunkState_update. rewrite (lib_ChunkState_update_eq p fuel c input Hbl). apply bind_ret. Qed.

Lemma gu_ChunkState_finalize_eq p c is_root :
  gu_ChunkState_finalize m_Output_chaining_value m_Output_root_hash (lib_of_cs p c) is_root = guts_finalize p c is_root.
Proof.
  unfold gu_ChunkState_finalize, guts_finalize. rewrite output_eq. cbn [bind]. cbv zeta.
  destruct is_root; cbn [bind]; [rewrite m_rh_of_out, !bind_ret|rewrite m_cv_of_out]; reflexivity.
Qed.

Lemma gu_parent_cv_eq p l r is_root :
  gu_parent_cv m_parent_node_output m_Output_chaining_value m_Output_root_hash l r is_root p = guts_parent_cv p l r is_root.
Proof.
  unfold gu_parent_cv, guts_parent_cv. cbv zeta. cbn [bind]. unfold m_parent_node_output.
  destruct is_root; cbn [bind]; [rewrite m_rh_of_out, !bind_ret|rewrite m_cv_of_out]; reflexivity.
Qed.
