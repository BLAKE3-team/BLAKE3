(* The wide / all-at-once core of src/lib.rs as TRANSLATED from the source text (gen/GenLibWide.v) equals the
   hand-written models of Model/RsWide.v / Model/RsHasher.v.

   Representation.  The source writes chaining values through `out: &mut [u8]`; the models return the list of CVs and
   take the capacity of `out` in CVs.  For a buffer `out` and the CVs `cvs` a model returns, the translated function
   returns (arr_store out 0 (concat cvs), number of CVs): the CVs back to back from offset 0, the rest of the buffer
   untouched; the model's capacity is (length out) / 32.  Child CVs are passed as their concatenation.
   Platform::hash_many (a parameter of the translation) is m_hash_many: p_hash_many of the model's platform record
   with the capacity of `out`, its CVs stored at offset 0.

   Method.  As in GenLibLoopsP.v.  A function that returns CVs through `out` is stated as a simulation under CvR out
   (the buffer and the count as above, the CVs 32 bytes each and within the capacity): callers take the equation by
   CvR_eq and read the CVs back by CvR_front / CvR_join / CvR_take; the condensing loop, whose scratch arrays keep
   stale bytes, under Holds; the subtree loop of update under img with what it keeps of the hasher.

   Fuel.  The translation threads ONE fuel through every loop / recursion / callee (predecessor inside a loop body or
   below the `match fuel` of the recursion); the models give each loop its own fuel.  The *_with functions below are
   the models with the translation's fuel discipline (Props/C01.v and C02.v state their defining equations);
   each translated function EQUALS its *_with model at every fuel and every argument, Panic and OutOfFuel results
   included; the *_with models agree with the models themselves whenever the fuel suffices (refines / *_enough). *)
From Coq Require Import NArith List Bool Lia Arith.
From V Require Import Base.Res Base.Word Base.MachInt Base.Arr Base.ArrayVec Base.Slice gen.GenConsts gen.GenFormulas
  gen.GenLibSmall gen.GenLibLoops gen.GenLibWide Spec.Tree Model.Portable Model.Platform Model.RsChunk Model.RsWide
  Model.RsHasher Proofs.ListP Proofs.ResP Proofs.GenLibSmallP Proofs.GenLibLoopsP.
Import ListNotations.
Open Scope N_scope.

Definition m_hash_many (p : platform) (inputs : list (list N)) (key : list N) (counter : N) (incr : bool)
    (flags flags_start flags_end : N) (out : list N) : res (list N) :=
  cvs <- p_hash_many p inputs key counter incr flags flags_start flags_end (nlen out / 32) ;;
  Ok (arr_store out 0 (concat cvs)).

Definition cvs32 (cvs : list (list N)) : Prop := Forall (fun cv => length cv = 32%nat) cvs.

(* what the proofs need of a platform: shapes only.  Proved for the platforms whose kernels are the portable ones
   (plat_wf_portable, sim_platform_wf at the end of the file) and for no other: the theorems under plat_wf are
   instantiated on those. *)
Record plat_wf (p : platform) : Prop := {
  wf_hm : forall inputs key ctr incr fl fs fe cap cvs, length key = 8%nat ->
      p_hash_many p inputs key ctr incr fl fs fe cap = Ok cvs ->
      length cvs = length inputs /\ cvs32 cvs /\ N.of_nat (length inputs) <= cap;
  wf_cip : forall cv block bl ctr fl, length cv = 8%nat -> length (p_compress_in_place p cv block bl ctr fl) = 8%nat;
  wf_deg : p_degree p < 2 ^ 32;
  wf_max : p_max_degree p < 2 ^ 32 }.

(* r1 ran on less fuel than r2: it has given up, or it is r2.  (GenRefImplLoopsP.fuel_approx is the same relation, for
   the reference implementation; hasher_refines, c_update_refines, ref_refines are about something else: an
   implementation model against the specification.) *)
Definition refines {A} (r1 r2 : res A) : Prop := r1 = OutOfFuel \/ r1 = r2.

Lemma refines_refl {A} (r : res A) : refines r r.
Proof. right. reflexivity. Qed.

Lemma refines_trans {A} (a b c : res A) : refines a b -> refines b c -> refines a c.
Proof. intros [H|H] [H'|H']; subst; unfold refines; auto. Qed.

Lemma refines_bind {A B} (m1 m2 : res A) (k1 k2 : A -> res B) :
  refines m1 m2 -> (forall a, refines (k1 a) (k2 a)) -> refines (bind m1 k1) (bind m2 k2).
Proof.
  intros [H|H] Hk; subst; [left; reflexivity|]. destruct m2; cbn [bind]; [apply Hk|right; reflexivity|left; reflexivity].
Qed.

Lemma refines_eq {A} (r1 r2 : res A) : refines r1 r2 -> r1 <> OutOfFuel -> r1 = r2.
Proof. intros [H|H] N; [contradiction|exact H]. Qed.

Lemma refines_bind_r {A B} (m : res A) (k1 k2 : A -> res B) :
  (forall a, m = Ok a -> refines (k1 a) (k2 a)) -> refines (bind m k1) (bind m k2).
Proof. intros H. destruct m; cbn [bind]; [apply H; reflexivity|apply refines_refl..]. Qed.

Lemma refines_check {A} b c (k1 k2 : unit -> res A) : (forall u, refines (k1 u) (k2 u)) ->
  refines (bind (check b c) k1) (bind (check b c) k2).
Proof. intros H. apply refines_bind_r. intros u _. apply H. Qed.

Lemma refines_eq_r {A} (r1 r2 : res A) : r1 = r2 -> refines r1 r2.
Proof. intros ->. apply refines_refl. Qed.

Lemma res_map_bind {A B C} (f : B -> C) (m : res A) (k : A -> res B) :
  res_map f (bind m k) = bind m (fun a => res_map f (k a)).
Proof. exact (ResP.res_map_bind f m k). Qed.

Lemma concat_length32 cvs : cvs32 cvs -> length (concat cvs) = (32 * length cvs)%nat.
Proof.
  induction 1 as [|cv cvs Hcv _ IH]; [reflexivity|]. cbn [concat length]. rewrite app_length, IH, Hcv. lia.
Qed.

Lemma cvs32_app a b : cvs32 a -> cvs32 b -> cvs32 (a ++ b).
Proof. intros Ha Hb. apply Forall_app. split; assumption. Qed.

Lemma cvs32_app_inv a b : cvs32 (a ++ b) -> cvs32 a /\ cvs32 b.
Proof. intros H. apply Forall_app in H. exact H. Qed.

Lemma sl_go_eq : forall f n l, sl_chunks_exact_go f n l = chunks_exact f n l.
Proof.
  induction f as [|f IH]; intros n l; [reflexivity|]. cbn [sl_chunks_exact_go chunks_exact]. rewrite IH. reflexivity.
Qed.

Lemma sl_chunks_exact_eq n l : sl_chunks_exact n l = chunks_exact_of n l.
Proof. apply sl_go_eq. Qed.

Lemma chunks_exact_pieces : forall f n l cs r, chunks_exact f n l = (cs, r) -> Forall (fun c => length c = n) cs.
Proof.
  induction f as [|f IH]; intros n l cs r H; cbn [chunks_exact] in H.
  - inversion H. constructor.
  - destruct (Nat.ltb (length l) n) eqn:E; [inversion H; constructor|].
    destruct (chunks_exact f n (skipn n l)) as [cs' r'] eqn:E'. inversion H; subst.
    constructor; [|exact (IH _ _ _ _ E')]. apply Nat.ltb_ge in E. rewrite firstn_length. lia.
Qed.

Lemma chunks_exact_concat : forall f n l cs r, chunks_exact f n l = (cs, r) -> l = concat cs ++ r.
Proof.
  induction f as [|f IH]; intros n l cs r H; cbn [chunks_exact] in H.
  - inversion H. reflexivity.
  - destruct (Nat.ltb (length l) n) eqn:E; [inversion H; reflexivity|].
    destruct (chunks_exact f n (skipn n l)) as [cs' r'] eqn:E'. inversion H; subst.
    cbn [concat]. rewrite <- app_assoc, <- (IH _ _ _ _ E'). symmetry. apply firstn_skipn.
Qed.

Lemma chunks_exact_rem : forall f n l cs r, (0 < n)%nat -> (length l < n * f)%nat ->
  chunks_exact f n l = (cs, r) -> (length r < n)%nat.
Proof.
  induction f as [|f IH]; intros n l cs r Hn Hf H; [lia|]. cbn [chunks_exact] in H.
  destruct (Nat.ltb (length l) n) eqn:E; [inversion H; subst; apply Nat.ltb_lt in E; exact E|].
  destruct (chunks_exact f n (skipn n l)) as [cs' r'] eqn:E'. inversion H; subst.
  apply Nat.ltb_ge in E. apply (IH n (skipn n l) cs' r Hn); [rewrite skipn_length; lia|exact E'].
Qed.

Lemma chunks_exact_of_rem n l cs r : 0 < n -> chunks_exact_of n l = (cs, r) -> (length r < N.to_nat n)%nat.
Proof.
  intros Hn H. unfold chunks_exact_of in H. eapply chunks_exact_rem; [| |exact H]; [lia|]. apply Nat.mul_succ_div_gt. lia.
Qed.

Definition compress_chunks_parallel_with (fuel : nat) (p : platform) (input key : list N) (chunk_counter flags cap : N)
  : res (list (list N)) :=
  assert! (negb (nlen input =? 0)) code 1200 ;;
  assert! (nlen input <=? p_max_degree p * rs_CHUNK_LEN) code 1201 ;;
  let '(chunks, rem) := chunks_exact_of rs_CHUNK_LEN input in
  assert! (nlen_l chunks <=? p_max_degree p) code 30 ;;
  cvs <- p_hash_many p chunks key chunk_counter true flags rs_flag_CHUNK_START rs_flag_CHUNK_END cap ;;
  let chunks_so_far := nlen_l chunks in
  if negb (nlen rem =? 0) then
    counter <- mi_add 64 chunk_counter chunks_so_far ;;
    cs <- cs_update_with fuel p (cs_new key counter flags) rem ;;
    assert! (chunks_so_far + 1 <=? cap) code 31 ;;
    Ok (cvs ++ [out_chaining_value p (cs_output cs)])
  else Ok cvs.

Fixpoint compress_subtree_wide_with (fuel : nat) (p : platform) (input key : list N) (chunk_counter flags cap : N)
  : res (list (list N)) :=
  if nlen input <=? p_degree p * rs_CHUNK_LEN then
    compress_chunks_parallel_with fuel p input key chunk_counter flags cap
  else match fuel with
  | O => OutOfFuel
  | S fuel' =>
      assert! (MachInt.popcount (p_degree p) =? 1) code 1204 ;;
      assert! (rs_CHUNK_LEN <? nlen input) code 1205 ;;
      left_len <- rs_left_subtree_len (nlen input) ;;
      assert! (left_len <=? nlen input) code 34 ;;
      let left := firstn (N.to_nat left_len) input in
      let right := skipn (N.to_nat left_len) input in
      right_counter <- rs_right_chunk_counter chunk_counter left_len ;;
      let array_cap := 2 * max_degree_or_2 p in
      degree <- (if left_len =? rs_CHUNK_LEN then
                   assert! (p_degree p =? 1) code 1206 ;; Ok 1
                 else Ok (N.max (p_degree p) 2)) ;;
      assert! (degree <=? array_cap) code 35 ;;
      lcvs <- compress_subtree_wide_with fuel' p left key chunk_counter flags degree ;;
      rcvs <- compress_subtree_wide_with fuel' p right key right_counter flags (array_cap - degree) ;;
      let left_n := N.of_nat (length lcvs) in
      let right_n := N.of_nat (length rcvs) in
      assert! (left_n =? degree) code 1207 ;;
      assert! ((1 <=? right_n) && (right_n <=? left_n)) code 1208 ;;
      if left_n =? 1 then
        assert! (2 <=? cap) code 36 ;;
        Ok (firstn 2 (lcvs ++ rcvs))
      else
        compress_parents_parallel p (lcvs ++ rcvs) key flags cap
  end.

Definition compress_subtree_to_parent_node_with (fuel : nat) (p : platform) (input key : list N) (chunk_counter flags : N)
  : res (list N) :=
  assert! (rs_CHUNK_LEN <? nlen input) code 1209 ;;
  cvs <- compress_subtree_wide_with fuel p input key chunk_counter flags (max_degree_or_2 p) ;;
  assert! (2 <=? N.of_nat (length cvs)) code 1210 ;;
  cvs <- condense_loop fuel p cvs key flags ;;
  match cvs with
  | [a; b] => Ok (a ++ b)
  | _ => Panic 1211
  end.

Definition hash_all_at_once_with (fuel : nat) (p : platform) (input key : list N) (flags : N) : res output :=
  if nlen input <=? rs_CHUNK_LEN then
    cs <- cs_update_with fuel p (cs_new key 0 flags) input ;;
    Ok (cs_output cs)
  else
    block <- compress_subtree_to_parent_node_with fuel p input key 0 flags ;;
    Ok (mkOutput key block rs_BLOCK_LEN 0 (N.lor flags rs_flag_PARENT)).

Definition rs_hash_with (fuel : nat) (p : platform) (input : list N) : res (list N) :=
  o <- hash_all_at_once_with fuel p input rs_IV 0 ;; out_root_hash p o.

Definition rs_keyed_hash_with (fuel : nat) (p : platform) (key input : list N) : res (list N) :=
  o <- hash_all_at_once_with fuel p input (words_of_bytes key) rs_flag_KEYED_HASH ;; out_root_hash p o.

(* hazmat::hash_derive_key_context is a parameter of the translated derive_key: the model's runs on its own fuel *)
Definition rs_derive_key_with (fuel : nat) (p : platform) (context material : list N) : res (list N) :=
  context_key <- rs_hash_derive_key_context p context ;;
  o <- hash_all_at_once_with fuel p material (words_of_bytes context_key) rs_flag_DERIVE_KEY_MATERIAL ;;
  out_root_hash p o.

Lemma pow32_64 : 2 ^ 32 * 2 ^ 32 = 2 ^ 64.
Proof. reflexivity. Qed.

Lemma lib_largest_power_of_two_leq_eq n : lib_largest_power_of_two_leq n = rs_largest_power_of_two_leq n.
Proof. unfold lib_largest_power_of_two_leq, rs_largest_power_of_two_leq. apply bind_ret. Qed.

Lemma lib_hazmat_left_subtree_len_eq n :
  lib_hazmat_left_subtree_len n = (assert! (rs_CHUNK_LEN <? n) code 1205 ;; rs_left_subtree_len n).
Proof.
  unfold lib_hazmat_left_subtree_len, rs_left_subtree_len. mstep. unfold mi_cast. cbn [bind].
  change (N.land rs_CHUNK_LEN (N.ones 64)) with rs_CHUNK_LEN.
  destruct (rs_CHUNK_LEN <? n); cbn [check bind]; [|reflexivity]. apply bind_ret.
Qed.

(* the copies `for x in exact_chunks { array.push(array_ref!(x, 0, L)) }` of compress_chunks_parallel and
   compress_parents_parallel: F is the translated loop, given by its two equations *)
Lemma push_all_eq L site cap (F : list (list N) -> list (list N) -> res (list (list N))) :
  (forall acc, F [] acc = Ok acc) ->
  (forall x items acc, F (x :: items) acc =
     (assert! (0 + L <=? N.of_nat (length x)) code 54 ;;
      t <- at_code site (av_push cap acc (arr_slice x (N.to_nat 0) (N.to_nat L))) ;; F items t)) ->
  forall items acc, Forall (fun c => length c = N.to_nat L) items -> N.of_nat (length acc) <= cap ->
  F items acc = if N.of_nat (length acc + length items) <=? cap then Ok (acc ++ items) else Panic site.
Proof.
  intros Hnil Hcons. induction items as [|c items IH]; intros acc HF Hacc.
  - rewrite Hnil, Nat.add_0_r, app_nil_r. apply N.leb_le in Hacc. rewrite Hacc. reflexivity.
  - inversion HF as [|? ? Hc HF']; subst. rewrite Hcons, check_leb by lia.
    replace (arr_slice c (N.to_nat 0) (N.to_nat L)) with c by (symmetry; rewrite <- Hc; apply firstn_all).
    unfold av_push, av_len. cbn [length]. destruct (N.of_nat (length acc) <? cap) eqn:E; cbn [check bind at_code].
    + apply N.ltb_lt in E. rewrite IH, app_length, <- app_assoc; [|exact HF'|rewrite app_length; cbn [length]; lia].
      cbn [length app]. replace (length acc + 1 + length items)%nat with (length acc + S (length items))%nat by lia. reflexivity.
    + apply N.ltb_ge in E. replace (N.of_nat (length acc + S (length items)) <=? cap) with false by (symmetry; apply N.leb_gt; lia).
      reflexivity.
Qed.

Lemma chunks_for1_eq ecv hm cap input key cc fl p out items acc :
  Forall (fun c => length c = 1024%nat) items -> N.of_nat (length acc) <= cap ->
  lib_compress_chunks_parallel_for1 ecv cap hm items input key cc fl p out acc
  = if N.of_nat (length acc + length items) <=? cap then Ok (acc ++ items) else Panic 30.
Proof.
  exact (push_all_eq rs_CHUNK_LEN 30 cap (fun items acc => lib_compress_chunks_parallel_for1 ecv cap hm items input key cc fl p out acc)
           (fun _ => eq_refl) (fun _ _ _ => eq_refl) items acc).
Qed.

Lemma out_cv_len p (WF : plat_wf p) o : length (o_cv o) = 8%nat -> length (out_chaining_value p o) = 32%nat.
Proof. exact (out_chaining_value_length p (wf_cip p WF) o). Qed.

Lemma fits_cv n L : (n * 32 + 32 <=? L) = (n + 1 <=? L / 32).
Proof.
  destruct (n + 1 <=? L / 32) eqn:E.
  - apply N.leb_le in E. apply N.leb_le. pose proof (N.mul_div_le L 32 ltac:(discriminate)). nia.
  - apply N.leb_gt in E. apply N.leb_gt.
    pose proof (N.div_mod L 32 ltac:(discriminate)). pose proof (N.mod_lt L 32 ltac:(discriminate)). nia.
Qed.

Lemma cap_fits n L : n <= L / 32 -> n * 32 <= L.
Proof.
  intros H. apply N.le_trans with (L / 32 * 32); [apply N.mul_le_mono_r, H|]. rewrite N.mul_comm. apply N.mul_div_le. discriminate.
Qed.

Lemma mul32_small n m : n <= m -> m < 2 ^ 32 -> n * 32 < 2 ^ 64.
Proof. intros H1 H2. word_lia. Qed.

Lemma cv_store_snoc out cvs cv : cvs32 cvs ->
  arr_store (arr_store out 0 (concat cvs)) (N.to_nat (nlen_l cvs * 32)) cv = arr_store out 0 (concat (cvs ++ [cv])).
Proof.
  intros H32. rewrite concat_app. cbn [concat]. rewrite app_nil_r.
  replace (N.to_nat (nlen_l cvs * 32)) with (length (concat cvs)) by (rewrite (concat_length32 _ H32); unfold nlen_l; lia).
  apply arr_store_snoc.
Qed.

Lemma nlen_l_snoc {A} (l : list A) x : nlen_l (l ++ [x]) = nlen_l l + 1.
Proof. unfold nlen_l. rewrite app_length. cbn [length]. lia. Qed.

(* the remainder of chunks_exact(BLOCK_LEN) over the concatenated child CVs: the odd CV, or nothing *)
Definition odd_bytes (o : option (list N)) : list N := match o with Some cv => cv | None => [] end.

Lemma pairs_ind {A} (P : list A -> Prop) :
  P [] -> (forall a, P [a]) -> (forall a b tl, P tl -> P (a :: b :: tl)) -> forall l, P l.
Proof. intros H0 H1 H2. fix IH 1. intros [|a [|b tl]]; [exact H0|apply H1|apply H2, IH]. Qed.

Lemma pair_blocks_chunks cvs : cvs32 cvs -> forall f, (length cvs / 2 < f)%nat ->
  chunks_exact f 64 (concat cvs) = (fst (pair_blocks cvs), odd_bytes (snd (pair_blocks cvs))).
Proof.
  induction cvs as [|a|a b tl IH] using pairs_ind; intros H32 f Hf.
  - destruct f; reflexivity.
  - inversion H32 as [|? ? Ha _]; subst. destruct f as [|f]; [lia|]. cbn [concat chunks_exact pair_blocks fst snd odd_bytes].
    rewrite app_nil_r, Ha. reflexivity.
  - inversion H32 as [|? ? Ha H32']; subst. inversion H32' as [|? ? Hb H32'']; subst.
    destruct f as [|f]; [lia|]. cbn [concat chunks_exact pair_blocks length] in *.
    rewrite !app_length, Ha, Hb. cbn [Nat.ltb Nat.leb].
    replace (Nat.ltb (32 + (32 + length (concat tl))) 64) with false by (symmetry; apply Nat.ltb_ge; lia).
    rewrite app_assoc. rewrite skipn_app, firstn_app. rewrite app_length, Ha, Hb. cbn [Nat.add Nat.sub].
    rewrite skipn_all2 by (rewrite app_length; lia). rewrite firstn_all2 by (rewrite app_length; lia).
    cbn [skipn firstn app]. rewrite app_nil_r, (IH H32'' f) by lia.
    destruct (pair_blocks tl) as [ps r]. reflexivity.
Qed.

Lemma pair_blocks_chunks_of cvs : cvs32 cvs ->
  chunks_exact_of rs_BLOCK_LEN (concat cvs) = (fst (pair_blocks cvs), odd_bytes (snd (pair_blocks cvs))).
Proof.
  intros H32. unfold chunks_exact_of. change (N.to_nat rs_BLOCK_LEN) with 64%nat.
  apply (pair_blocks_chunks cvs H32). rewrite (concat_length32 _ H32). lia.
Qed.

Lemma pair_blocks_length cvs :
  length cvs = (2 * length (fst (pair_blocks cvs)) + match snd (pair_blocks cvs) with Some _ => 1 | None => 0 end)%nat.
Proof.
  induction cvs as [|a|a b tl IH] using pairs_ind; [reflexivity..|].
  cbn [pair_blocks]. destruct (pair_blocks tl). cbn [fst snd length] in *. lia.
Qed.

Lemma pair_blocks_div2 cvs :
  (length (fst (pair_blocks cvs)) = length cvs / 2)%nat /\
  (match snd (pair_blocks cvs) with Some _ => length cvs mod 2 = 1 | None => length cvs mod 2 = 0 end)%nat.
Proof. pose proof (pair_blocks_length cvs). destruct (snd (pair_blocks cvs)); lia. Qed.

Lemma pair_blocks_32 cvs : cvs32 cvs ->
  Forall (fun c => length c = 64%nat) (fst (pair_blocks cvs)) /\
  (forall cv, snd (pair_blocks cvs) = Some cv -> length cv = 32%nat).
Proof.
  induction cvs as [|a|a b tl IH] using pairs_ind; intros H32.
  - split; [constructor|discriminate].
  - inversion H32; subst. split; [constructor|]. cbn. intros cv E. inversion E; subst. assumption.
  - inversion H32 as [|? ? Ha H32']; subst. inversion H32' as [|? ? Hb H32'']; subst.
    cbn [pair_blocks]. destruct (IH H32'') as [H1 H2].
    destruct (pair_blocks tl) as [ps r]. cbn [fst snd] in *. split; [|exact H2].
    constructor; [rewrite app_length; lia|exact H1].
Qed.

Lemma parents_for1_eq hm cap ccv key fl p out nc items acc :
  Forall (fun c => length c = 64%nat) items -> N.of_nat (length acc) <= cap ->
  lib_compress_parents_parallel_for1 cap hm items ccv key fl p out nc acc
  = if N.of_nat (length acc + length items) <=? cap then Ok (acc ++ items) else Panic 32.
Proof.
  exact (push_all_eq rs_BLOCK_LEN 32 cap (fun items acc => lib_compress_parents_parallel_for1 cap hm items ccv key fl p out nc acc)
           (fun _ => eq_refl) (fun _ _ _ => eq_refl) items acc).
Qed.

Lemma or2_small p (WF : plat_wf p) : max_degree_or_2 p < 2 ^ 32 /\ 2 <= max_degree_or_2 p.
Proof.
  pose proof (wf_max p WF). unfold max_degree_or_2. split; word_lia.
Qed.

Lemma cvs32_firstn n cvs : cvs32 cvs -> cvs32 (firstn n cvs).
Proof. apply Forall_firstn. Qed.

Lemma npot_lt x v : mu (mi_npot 64) x = Ok v -> v < 2 ^ 64.
Proof.
  destruct x as [a| |]; cbn [mu bind]; try discriminate. unfold mi_npot, fits.
  destruct (npot a <? 2 ^ 64) eqn:E; intros H; [|discriminate]. inversion H; subst. apply N.ltb_lt. exact E.
Qed.

Lemma rs_left_subtree_len_lt n v : rs_left_subtree_len n = Ok v -> v < 2 ^ 64.
Proof. apply npot_lt. Qed.

Lemma leb_mul32 a b : (a * 32 <=? b * 32) = (a <=? b).
Proof. destruct (a <=? b) eqn:E; [apply N.leb_le in E; apply N.leb_le|apply N.leb_gt in E; apply N.leb_gt]; lia. Qed.

Lemma nlen_div32 (l : list N) n : length l = N.to_nat (n * 32) -> nlen l / 32 = n.
Proof. intros H. unfold nlen. rewrite H, N2Nat.id. apply N.div_mul. discriminate. Qed.

(* compress_subtree_wide's cv_array after the two recursive calls: the left CVs fill the left part exactly, the right
   CVs follow them *)
Lemma cv_array_join lo ro lcvs rcvs : cvs32 lcvs -> cvs32 rcvs ->
  length lo = (32 * length lcvs)%nat -> (32 * length rcvs <= length ro)%nat ->
  length (arr_store lo 0 (concat lcvs) ++ arr_store ro 0 (concat rcvs)) = (length lo + length ro)%nat /\
  firstn (32 * length (lcvs ++ rcvs)) (arr_store lo 0 (concat lcvs) ++ arr_store ro 0 (concat rcvs)) = concat (lcvs ++ rcvs).
Proof.
  intros Hl32 Hr32 Hlo Hro. pose proof (concat_length32 _ Hl32) as Hl. pose proof (concat_length32 _ Hr32) as Hr.
  rewrite (arr_store_0 lo), skipn_all2, app_nil_r by lia. split.
  - rewrite app_length, arr_store_length by lia. lia.
  - rewrite arr_store_0, app_assoc, <- concat_app, <- (concat_length32 _ (cvs32_app _ _ Hl32 Hr32)).
    apply firstn_app_exact. reflexivity.
Qed.

Definition CvR (out : list N) : list (list N) -> list N * N -> Prop :=
  img (fun cvs => (arr_store out 0 (concat cvs), nlen_l cvs)) (fun cvs => cvs32 cvs /\ nlen_l cvs <= nlen out / 32).

Lemma CvR_eq out m s : rsim (CvR out) m s -> s = res_map (fun cvs => (arr_store out 0 (concat cvs), nlen_l cvs)) m.
Proof. exact (rsim_eq _ _ m s). Qed.

Lemma CvR_fits out cvs : cvs32 cvs -> nlen_l cvs <= nlen out / 32 -> (length (concat cvs) <= length out)%nat.
Proof. intros H32 Hcap. rewrite (concat_length32 _ H32). apply cap_fits in Hcap. unfold nlen_l, nlen in Hcap. lia. Qed.

Lemma CvR_front out cvs o n : CvR out cvs (o, n) ->
  length o = length out /\ n = nlen_l cvs /\ firstn (32 * length cvs) o = concat cvs.
Proof.
  intros (E & H32 & Hcap). injection E as -> ->. pose proof (CvR_fits out cvs H32 Hcap) as Hf.
  split; [apply arr_store_length; exact Hf|]. split; [reflexivity|].
  rewrite <- (concat_length32 _ H32). apply firstn_arr_store_0.
Qed.

Lemma CvR_join lo ro lcvs rcvs l r ln rn : CvR lo lcvs (l, ln) -> CvR ro rcvs (r, rn) -> length lo = (32 * length lcvs)%nat ->
  firstn (32 * length (lcvs ++ rcvs)) (l ++ r) = concat (lcvs ++ rcvs) /\ cvs32 (lcvs ++ rcvs).
Proof.
  intros (E1 & Hl32 & _) (E2 & Hr32 & Hrcap) Hlo. injection E1 as -> _. injection E2 as -> _.
  split; [|exact (cvs32_app _ _ Hl32 Hr32)]. pose proof (CvR_fits ro rcvs Hr32 Hrcap) as Hf. rewrite (concat_length32 _ Hr32) in Hf.
  exact (proj2 (cv_array_join lo ro lcvs rcvs Hl32 Hr32 Hlo Hf)).
Qed.

Lemma concat_firstn32 cvs : cvs32 cvs -> forall k, firstn (32 * k) (concat cvs) = concat (firstn k cvs).
Proof.
  induction 1 as [|cv cvs Hcv _ IH]; intros [|k]; [reflexivity|rewrite firstn_nil; reflexivity|reflexivity|].
  cbn [concat firstn]. replace (32 * S k)%nat with (length cv + 32 * k)%nat by lia. rewrite firstn_app_2, IH. reflexivity.
Qed.

Lemma CvR_take out buf cvs k : cvs32 cvs -> firstn (32 * length cvs) buf = concat cvs -> (k <= length cvs)%nat ->
  N.of_nat k <= nlen out / 32 -> CvR out (firstn k cvs) (arr_store out 0 (firstn (32 * k) buf), N.of_nat k).
Proof.
  intros H32 Hb Hk Hcap. replace (firstn (32 * k) buf) with (firstn (32 * k) (firstn (32 * length cvs) buf))
    by (rewrite firstn_firstn; f_equal; lia).
  rewrite Hb, (concat_firstn32 _ H32). unfold CvR, img, nlen_l. rewrite firstn_length, Nat.min_l by exact Hk.
  split; [reflexivity|]. split; [apply cvs32_firstn, H32|exact Hcap].
Qed.

Lemma hash_many_sim p (WF : plat_wf p) X key ctr incr fl fs fe out : length key = 8%nat ->
  rsim (fun cvs o => CvR out cvs (o, nlen_l X))
    (p_hash_many p X key ctr incr fl fs fe (nlen out / 32)) (m_hash_many p X key ctr incr fl fs fe out).
Proof.
  intros Hkey. unfold m_hash_many. destruct (p_hash_many p X key ctr incr fl fs fe (nlen out / 32)) as [cvs| |] eqn:E;
    cbn [bind rsim]; [|reflexivity..].
  destruct (wf_hm p WF _ _ _ _ _ _ _ _ _ Hkey E) as (Hlen & H32 & Hcap). exists cvs. split; [reflexivity|].
  unfold CvR, img, nlen_l. rewrite Hlen. repeat split; assumption.
Qed.

(* One more CV behind those a buffer holds: the bounds check of the source against the capacity check of the model.
   What is stored (cv') has to be the model's cv only where the check has passed. *)
Lemma CvR_push_eq out cvs o n cv cv' c : CvR out cvs (o, n) -> n * 32 + 32 < 2 ^ 64 ->
  (n + 1 <= nlen out / 32 -> cv' = cv /\ length cv = 32%nat) ->
  rsim (fun outs r => CvR out outs r /\ outs = cvs ++ [cv]) (assert! (n + 1 <=? nlen out / 32) code c ;; Ok (cvs ++ [cv]))
    (assert! (n * 32 + 32 <=? N.of_nat (length o)) code c ;; t <- mi_add 64 n 1 ;; Ok (arr_store o (N.to_nat (n * 32)) cv', t)).
Proof.
  intros HC Hn Hcv'. destruct (CvR_front _ _ _ _ HC) as (Hlo & -> & _). destruct HC as (E & H32 & Hcap). injection E as ->.
  rewrite Hlo, fits_cv. fold (nlen out). destruct (nlen_l cvs + 1 <=? nlen out / 32) eqn:Ec; cbn [check bind rsim]; [|reflexivity].
  apply N.leb_le in Ec. destruct (Hcv' Ec) as [-> Hcv].
  rewrite (add_small 64) by (clear -Hn; word_lia). cbn [bind]. exists (cvs ++ [cv]). split; [reflexivity|]. split; [|reflexivity].
  unfold CvR, img. rewrite (cv_store_snoc out cvs cv H32), nlen_l_snoc. split; [reflexivity|].
  split; [apply cvs32_app; [exact H32|repeat constructor; exact Hcv]|exact Ec].
Qed.

Lemma CvR_push out cvs o n cv cv' c : CvR out cvs (o, n) -> n * 32 + 32 < 2 ^ 64 ->
  (n + 1 <= nlen out / 32 -> cv' = cv /\ length cv = 32%nat) ->
  rsim (CvR out) (assert! (n + 1 <=? nlen out / 32) code c ;; Ok (cvs ++ [cv]))
    (assert! (n * 32 + 32 <=? N.of_nat (length o)) code c ;; t <- mi_add 64 n 1 ;; Ok (arr_store o (N.to_nat (n * 32)) cv', t)).
Proof. intros HC Hn Hcv. exact (rsim_impl _ _ _ _ (fun _ _ H => proj1 H) (CvR_push_eq out cvs o n cv cv' c HC Hn Hcv)). Qed.

Definition Holds (len : nat) (cvs : list (list N)) (ca : list N) (k : N) : Prop :=
  k = nlen_l cvs /\ length ca = len /\ firstn (32 * length cvs) ca = concat cvs /\ cvs32 cvs.

Lemma Holds_copy len ca out cvs o k : CvR out cvs (o, k) -> length ca = len -> (32 * length cvs <= len)%nat ->
  Holds len cvs (arr_store ca 0 (firstn (N.to_nat (k * 32)) o)) k.
Proof.
  intros HC Hca Hlen. destruct (CvR_front _ _ _ _ HC) as (_ & -> & Hf). destruct HC as (_ & H32 & _).
  replace (N.to_nat (nlen_l cvs * 32)) with (32 * length cvs)%nat by (unfold nlen_l; lia). rewrite Hf.
  pose proof (concat_length32 _ H32) as Hc. split; [reflexivity|]. split; [rewrite arr_store_length; lia|].
  split; [|exact H32]. rewrite <- Hc. apply firstn_arr_store_0.
Qed.

Theorem lib_compress_chunks_parallel_sim p (WF : plat_wf p) fuel input key cc fl out : length key = 8%nat ->
  rsim (CvR out) (compress_chunks_parallel_with fuel p input key cc fl (nlen out / 32))
    (lib_compress_chunks_parallel m_Output_chaining_value (p_max_degree p) m_hash_many fuel input key cc fl p out).
Proof.
  intros Hkey. pose proof (wf_max p WF) as Hmax.
  unfold lib_compress_chunks_parallel, compress_chunks_parallel_with. mstep. fold (nlen input).
  apply rsim_check. intros _.
  rewrite (mul_small 64) by (clear -Hmax; change rs_CHUNK_LEN with 1024; word_lia).
  cbn [bind]. apply rsim_check. intros _.
  rewrite (sl_chunks_exact_eq rs_CHUNK_LEN input). destruct (chunks_exact_of rs_CHUNK_LEN input) as [chunks rem] eqn:Ece. cbn [fst snd].
  rewrite chunks_for1_eq; [|exact (chunks_exact_pieces _ _ _ _ _ Ece)|apply N.le_0_l]. cbn [length app Nat.add].
  fold (nlen_l chunks). destruct (nlen_l chunks <=? p_max_degree p) eqn:E30; cbn [check bind rsim]; [|reflexivity].
  apply N.leb_le in E30.
  apply (rsim_bind _ _ _ _ _ _ (hash_many_sim p WF chunks key cc true fl _ _ out Hkey)). intros cvs o HC.
  unfold av_len. fold (nlen_l chunks) (nlen rem). destruct (negb (nlen rem =? 0)); [|apply rsim_ret; exact HC].
  rewrite (cast_small 64) by (clear -E30 Hmax; word_lia). cbn [bind]. apply rsim_same. intros counter _.
  change (lib_ChunkState_new key counter fl p) with (lib_of_cs p (cs_new key counter fl)).
  eapply rsim_bind; [exact (update_sim p (fun cv => length cv = 8%nat) (wf_cip p WF) fuel (cs_new key counter fl) rem eq_refl)|].
  intros cs ? [-> [_ Hcs]]. rewrite output_eq. cbn [bind]. rewrite m_cv_of_out.
  change rs_OUT_LEN with 32. rewrite (mul_small 64 _ _ (mul32_small _ _ E30 Hmax)). cbn [bind].
  apply (CvR_push out cvs o _ _ _ 31 HC); [clear -E30 Hmax; word_lia|]. intros _.
  split; [reflexivity|exact (out_cv_len p WF (cs_output cs) (Hcs Hkey))].
Qed.

(* with the number of CVs that come out: what the condensing loop counts on *)
Theorem lib_compress_parents_parallel_sim p (WF : plat_wf p) child_cvs key fl out : length key = 8%nat -> cvs32 child_cvs ->
  rsim (fun outs r => CvR out outs r /\ length outs = ((length child_cvs + 1) / 2)%nat)
    (compress_parents_parallel p child_cvs key fl (nlen out / 32))
    (lib_compress_parents_parallel (max_degree_or_2 p) m_hash_many (concat child_cvs) key fl p out).
Proof.
  intros Hkey H32. destruct (or2_small p WF) as [Hor Hor2].
  unfold lib_compress_parents_parallel, compress_parents_parallel. mstep.
  rewrite (concat_length32 _ H32). unfold mi_rem, mi_div. change (rs_OUT_LEN =? 0) with false. cbn [bind].
  replace (N.of_nat (32 * length child_cvs)) with (N.of_nat (length child_cvs) * 32) by (clear; lia).
  change rs_OUT_LEN with 32. rewrite N.mod_mul, N.div_mul by discriminate. change (0 =? 0) with true. cbn [check bind].
  apply rsim_check. intros _. rewrite (mul_small 64) by (clear -Hor; word_lia). cbn [bind]. apply rsim_check. intros _.
  rewrite sl_chunks_exact_eq, (pair_blocks_chunks_of _ H32).
  destruct (pair_blocks_32 child_cvs H32) as [Hp64 Hodd32].
  destruct (pair_blocks_div2 child_cvs) as [Hplen Hpodd].
  destruct (pair_blocks child_cvs) as [parents odd]. cbn [fst snd] in *.
  rewrite parents_for1_eq; [|exact Hp64|apply N.le_0_l]. cbn [length app Nat.add]. fold (nlen_l parents).
  destruct (nlen_l parents <=? max_degree_or_2 p) eqn:E32; cbn [check bind rsim]; [|reflexivity].
  apply N.leb_le in E32. unfold mi_or. cbn [bind]. fold (nlen_l parents).
  apply (rsim_bind _ _ _ _ _ _ (hash_many_sim p WF parents key 0 false _ 0 0 out Hkey)). intros cvs o HC.
  unfold av_len. fold (nlen_l parents).
  assert (Hlen : length cvs = length parents) by (destruct (CvR_front _ _ _ _ HC) as (_ & E & _); unfold nlen_l in E; lia).
  destruct odd as [cv|]; cbn [odd_bytes].
  - pose proof (Hodd32 cv eq_refl) as Hcv. rewrite Hcv. change (N.of_nat 32) with 32. change (32 =? 0) with false. change (32 =? 32) with true.
    cbn [negb check bind]. rewrite (mul_small 64 _ _ (mul32_small _ _ E32 Hor)). cbn [bind]. rewrite check_slice.
    refine (rsim_impl _ _ _ _ _ (CvR_push_eq out cvs o _ cv cv 33 HC ltac:(clear -E32 Hor; word_lia) (fun _ => conj eq_refl Hcv))).
    intros outs r [HR ->]. split; [exact HR|]. rewrite app_length, Hlen, Hplen. cbn [length]. clear -Hpodd. lia.
  - apply rsim_ret. split; [exact HC|]. rewrite Hlen, Hplen. clear -Hpodd. lia.
Qed.

Theorem lib_compress_subtree_wide_sim p (WF : plat_wf p) key fl : length key = 8%nat -> forall fuel input cc out, nlen input < 2 ^ 64 ->
  rsim (CvR out) (compress_subtree_wide_with fuel p input key cc fl (nlen out / 32))
    (lib_compress_subtree_wide m_Output_chaining_value (p_max_degree p) (max_degree_or_2 p) m_hash_many fuel input key cc fl p out).
Proof.
  intros Hkey. pose proof (wf_deg p WF) as Hdeg. destruct (or2_small p WF) as [Hor Hor2].
  induction fuel as [|fuel IH]; intros input cc out Hin; cbn [lib_compress_subtree_wide compress_subtree_wide_with]; mstep;
    rewrite (mul_small 64) by (clear -Hdeg; change rs_CHUNK_LEN with 1024; word_lia);
    cbn [bind]; fold (nlen input);
    (destruct (nlen input <=? p_degree p * rs_CHUNK_LEN);
     [rewrite bind_ret_pair; apply lib_compress_chunks_parallel_sim; assumption|]); [reflexivity|].
  unfold mi_popcount, mi_max. cbn [bind]. apply rsim_check. intros _.
  rewrite (cast_small 64 _ Hin). cbn [bind]. rewrite lib_hazmat_left_subtree_len_eq, bind_assoc. apply rsim_check. intros _.
  apply rsim_same. intros left_len Ell. pose proof (rs_left_subtree_len_lt _ _ Ell) as Hll. rewrite (cast_small 64 _ Hll). cbn [bind].
  apply rsim_check. intros E34. apply N.leb_le in E34.
  assert (Hleft : nlen (firstn (N.to_nat left_len) input) = left_len) by (clear -E34; unfold nlen in *; rewrite firstn_length; lia).
  assert (Hright : nlen (skipn (N.to_nat left_len) input) < 2 ^ 64) by (clear -Hin; unfold nlen in *; rewrite skipn_length; lia).
  fold (nlen (firstn (N.to_nat left_len) input)). rewrite Hleft.
  apply rsim_same. intros right_counter _.
  assert (Hcap : 2 * max_degree_or_2 p < 2 ^ 64 /\ 2 * max_degree_or_2 p * 32 < 2 ^ 64) by (clear -Hor; word_lia).
  rewrite (mul_small 64 2 _ (proj1 Hcap)). cbn [bind]. change rs_OUT_LEN with 32. rewrite (mul_small 64 _ _ (proj2 Hcap)). cbn [bind].
  apply rsim_same. intros degree Hd.
  assert (Hdm : degree * 32 < 2 ^ 64).
  { clear -Hd Hdeg. destruct (left_len =? rs_CHUNK_LEN); [apply bind_Ok in Hd; destruct Hd as (_ & _ & Hd)|]; inversion Hd; word_lia. }
  rewrite (mul_small 64 _ _ Hdm). cbn [bind].
  rewrite repeat_length, N2Nat.id, leb_mul32. apply rsim_check. intros E35. apply N.leb_le in E35.
  set (cv0 := repeat 0 (N.to_nat (2 * max_degree_or_2 p * 32))).
  assert (Hcv0 : length cv0 = N.to_nat (2 * max_degree_or_2 p * 32)) by apply repeat_length.
  (* cv_array.split_at_mut(degree * OUT_LEN): the two recursive calls write into lo and ro *)
  set (lo := firstn (N.to_nat (degree * 32)) cv0). set (ro := skipn (N.to_nat (degree * 32)) cv0).
  assert (Hlo : length lo = N.to_nat (degree * 32)) by (unfold lo; clear -Hcv0 E35; rewrite firstn_length; lia).
  assert (Hro : length ro = N.to_nat ((2 * max_degree_or_2 p - degree) * 32)) by (unfold ro; clear -Hcv0 E35; rewrite skipn_length; lia).
  pose proof (IH (firstn (N.to_nat left_len) input) cc lo ltac:(rewrite Hleft; exact Hll)) as HLs. rewrite (nlen_div32 lo degree Hlo) in HLs.
  apply (rsim_bind _ _ _ _ _ _ HLs). intros lcvs [l ln] HL.
  pose proof (IH _ right_counter ro Hright) as HRs. rewrite (nlen_div32 ro _ Hro) in HRs.
  apply (rsim_bind _ _ _ _ _ _ HRs). intros rcvs [r rn] HR. clear IH HLs HRs Ell Hd.
  destruct (CvR_front _ _ _ _ HL) as (Hll' & -> & _). destruct (CvR_front _ _ _ _ HR) as (Hrl' & -> & _). cbv zeta.
  pose proof HR as (_ & _ & Hrcap). rewrite (nlen_div32 ro _ Hro) in Hrcap. unfold nlen_l in *.
  apply rsim_check. intros E1207. apply N.eqb_eq in E1207.
  rewrite if_andb. cbn [bind]. apply rsim_check. intros E1208. apply andb_true_iff in E1208. destruct E1208 as [Hr1 Hr2].
  apply N.leb_le in Hr1. apply N.leb_le in Hr2.
  destruct (CvR_join lo ro lcvs rcvs l r _ _ HL HR ltac:(clear -Hlo E1207; lia)) as [Hjoin H32].
  rewrite app_length, Hll', Hrl'. replace (N.of_nat (length lo + length ro)) with (2 * max_degree_or_2 p * 32) by (clear -Hlo Hro E35; lia).
  destruct (N.of_nat (length lcvs) =? 1) eqn:E1.
  - apply N.eqb_eq in E1. change (mi_mul 64 2 32) with (Ok 64 : res N). cbn [bind].
    change (64 <=? N.of_nat (length out)) with (1 * 32 + 32 <=? N.of_nat (length out)). rewrite fits_cv.
    apply rsim_check. intros E36. apply N.leb_le in E36. rewrite check_leb by (clear -Hor2; lia).
    rewrite firstn_length, app_length, Hll', Hrl', Nat.min_l by (clear -Hlo Hro E35 Hor2; lia). cbn [check bind N.eqb Pos.eqb].
    apply rsim_ret. apply (CvR_take out (l ++ r) (lcvs ++ rcvs) 2 H32 Hjoin); [rewrite app_length; clear -E1 Hr1; lia|exact E36].
  - assert (Hnc : N.of_nat (length lcvs) + N.of_nat (length rcvs) <= 2 * max_degree_or_2 p) by (clear -E1207 E35 Hrcap; lia).
    rewrite (add_small 64) by (clear -Hnc Hcap; lia). cbn [bind].
    rewrite (mul_small 64) by (clear -Hnc Hcap; lia). cbn [bind].
    rewrite check_leb by (clear -Hnc; lia).
    replace (N.to_nat ((N.of_nat (length lcvs) + N.of_nat (length rcvs)) * 32)) with (32 * length (lcvs ++ rcvs))%nat by (rewrite app_length; clear; lia).
    rewrite Hjoin, bind_ret_pair.
    exact (rsim_impl _ _ _ _ (fun _ _ H => proj1 H) (lib_compress_parents_parallel_sim p WF _ key fl out Hkey H32)).
Qed.

Lemma half_cap (m : N) : m * 32 / 2 / 32 = m / 2.
Proof.
  replace (m * 32 / 2) with (m * 16) by (replace (m * 32) with (m * 16 * 2) by lia; rewrite N.div_mul by discriminate; reflexivity).
  replace 32 with (2 * 16) by reflexivity. rewrite N.div_mul_cancel_r by discriminate. reflexivity.
Qed.

(* the `while num_cvs > 2` loop: cv_array holds the CVs in front and stale bytes behind them; what out_array holds does not matter *)
Lemma tpn_loop_sim p (WF : plat_wf p) key fl input cc : length key = 8%nat -> forall fuel cvs ca oa k,
  Holds (N.to_nat (max_degree_or_2 p * 32)) cvs ca k -> nlen_l cvs <= max_degree_or_2 p ->
  length oa = N.to_nat (max_degree_or_2 p * 32 / 2) ->
  rsim (fun cvs' '(ca', k', _) => Holds (N.to_nat (max_degree_or_2 p * 32)) cvs' ca' k' /\ ((2 <= length cvs)%nat -> length cvs' = 2%nat))
    (condense_loop fuel p cvs key fl)
    (lib_compress_subtree_to_parent_node_loop1 m_Output_chaining_value (p_max_degree p) (max_degree_or_2 p) m_hash_many
       fuel input key cc fl p ca k oa).
Proof.
  intros Hkey. destruct (or2_small p WF) as [Hor Hor2].
  induction fuel as [|fuel IH]; intros cvs ca oa k HH Hn Hoa; pose proof HH as (-> & Hca & Hfirst & H32);
    cbn [condense_loop lib_compress_subtree_to_parent_node_loop1]; mstep; unfold nlen_l in *; rewrite N.ltb_antisym;
    (destruct (N.of_nat (length cvs) <=? 2) eqn:E2; cbn [negb];
     [apply N.leb_le in E2; apply rsim_ret; split; [exact HH|clear -E2; lia]|]); [reflexivity|].
  apply N.leb_gt in E2. change rs_OUT_LEN with 32. rewrite (mul_small 64 _ _ (mul32_small _ _ Hn Hor)). cbn [bind].
  assert (Hcapo : nlen oa / 32 = max_degree_or_2 p / 2) by (unfold nlen; rewrite Hoa, N2Nat.id; apply half_cap).
  rewrite check_leb by (rewrite Hca; clear -Hn; lia).
  replace (N.to_nat (N.of_nat (length cvs) * 32)) with (32 * length cvs)%nat by (clear; lia). rewrite Hfirst.
  pose proof (lib_compress_parents_parallel_sim p WF cvs key fl oa Hkey H32) as HP. rewrite Hcapo in HP.
  apply (rsim_bind _ _ _ _ _ _ HP). intros outs [o n] [HC Hl]. destruct (CvR_front _ _ _ _ HC) as (Hlo & -> & Hfo). pose proof HC as (_ & Ho32 & Hocap).
  rewrite Hcapo in Hocap. assert (Hhalf : max_degree_or_2 p / 2 <= max_degree_or_2 p) by (apply N.div_le_upper_bound; [discriminate|clear -Hor2; lia]).
  assert (Hocap' : nlen_l outs <= max_degree_or_2 p) by exact (N.le_trans _ _ _ Hocap Hhalf). unfold nlen_l in *.
  rewrite (mul_small 64 _ _ (mul32_small _ _ Hocap' Hor)). cbn [bind].
  rewrite !check_leb by (rewrite ?Hlo, ?Hoa, ?Hca; clear -Hocap Hocap' Hor2; nia).
  rewrite firstn_length, Nat.min_l, check_eqb by (try apply N2Nat.id; rewrite Hlo, Hoa; clear -Hocap Hor2; nia). change (N.to_nat 0) with 0%nat.
  refine (rsim_impl _ _ _ _ _ (IH outs _ o _ (Holds_copy _ ca oa outs o _ HC Hca ltac:(clear -Hocap'; lia)) Hocap' ltac:(rewrite Hlo; exact Hoa))).
  intros cvs' [[ca' k'] oa'] [HH' H2'] . split; [exact HH'|]. intros _. apply H2'. rewrite Hl.
  assert (H4 : (4 <= length cvs + 1)%nat) by (clear -E2; lia). apply (Nat.div_le_mono _ _ 2) in H4; [exact H4|lia].
Qed.

Theorem lib_compress_subtree_to_parent_node_eq p (WF : plat_wf p) fuel input key cc fl : length key = 8%nat ->
  nlen input < 2 ^ 64 ->
  lib_compress_subtree_to_parent_node m_Output_chaining_value (p_max_degree p) (max_degree_or_2 p) m_hash_many
    fuel input key cc fl p
  = compress_subtree_to_parent_node_with fuel p input key cc fl.
Proof.
  intros Hkey Hin. destruct (or2_small p WF) as [Hor Hor2].
  unfold lib_compress_subtree_to_parent_node, compress_subtree_to_parent_node_with. mstep. fold (nlen input).
  apply check_ext. intros _.
  rewrite (mul_small 64) by (change rs_OUT_LEN with 32; word_lia). cbn [bind].
  change rs_OUT_LEN with 32. set (cv0 := repeat 0 (N.to_nat (max_degree_or_2 p * 32))).
  assert (Hcv0 : length cv0 = N.to_nat (max_degree_or_2 p * 32)) by apply repeat_length.
  pose proof (rsim_flip _ _ _ (lib_compress_subtree_wide_sim p WF key fl Hkey fuel input cc cv0 Hin)) as HW.
  rewrite (nlen_div32 cv0 _ Hcv0) in HW.
  destruct (compress_subtree_wide_with fuel p input key cc fl (max_degree_or_2 p)) as [cvs| |]; [|rewrite HW; reflexivity..].
  destruct HW as ([ca n] & -> & HC). cbn [bind]. destruct (CvR_front _ _ _ _ HC) as (Hlca & -> & Hf).
  pose proof HC as (_ & H32 & Hcap). rewrite (nlen_div32 cv0 _ Hcv0) in Hcap.
  apply check_ext. intros E1210. apply N.leb_le in E1210. unfold mi_div. change (2 =? 0) with false. cbn [bind].
  pose proof (rsim_flip _ _ _ (tpn_loop_sim p WF key fl input cc Hkey fuel cvs ca (repeat 0 (N.to_nat (max_degree_or_2 p * 32 / 2))) _
                                 (conj eq_refl (conj (eq_trans Hlca Hcv0) (conj Hf H32))) Hcap (repeat_length _ _))) as HL.
  destruct (condense_loop fuel p cvs key fl) as [cvs'| |]; [|rewrite HL; reflexivity..].
  destruct HL as ([[ca' k'] oa'] & -> & (-> & Hca' & Hf' & _) & Hl2). cbn [bind]. change (mi_mul 64 2 32) with (Ok 64 : res N). cbn [bind].
  rewrite check_leb by (rewrite Hca'; clear -Hor2; lia).
  specialize (Hl2 ltac:(unfold nlen_l in E1210; clear -E1210; lia)). destruct cvs' as [|a [|b [|c tl]]]; try discriminate Hl2.
  unfold arr_slice. change (N.to_nat 0) with 0%nat. change (N.to_nat 64) with (32 * 2)%nat. cbn [skipn length] in *.
  rewrite Hf'. cbn [concat]. rewrite app_nil_r. reflexivity.
Qed.

Theorem lib_hash_all_at_once_eq p (WF : plat_wf p) fuel input key fl : length key = 8%nat -> nlen input < 2 ^ 64 ->
  lib_hash_all_at_once m_Output_chaining_value (p_max_degree p) (max_degree_or_2 p) m_hash_many p fuel input key fl
  = res_map (lib_of_out p) (hash_all_at_once_with fuel p input key fl).
Proof.
  intros Hkey Hin. unfold lib_hash_all_at_once, hash_all_at_once_with. cbv zeta. mstep. fold (nlen input).
  apply if_same; intros _.
  - change (lib_ChunkState_new key 0 fl p) with (lib_of_cs p (cs_new key 0 fl)).
    apply (bind_sim (lib_of_cs p)); [apply lib_ChunkState_update_eq; reflexivity|]. intros cs _.
    rewrite output_eq. reflexivity.
  - rewrite (lib_compress_subtree_to_parent_node_eq p WF fuel input key 0 fl Hkey Hin). apply bind_same. reflexivity.
Qed.

Theorem lib_hash_eq p (WF : plat_wf p) fuel input : nlen input < 2 ^ 64 ->
  lib_hash m_Output_chaining_value m_Output_root_hash (p_max_degree p) (max_degree_or_2 p) m_hash_many p fuel input
  = rs_hash_with fuel p input.
Proof.
  intros Hin. unfold lib_hash. rewrite (lib_hash_all_at_once_eq p WF fuel input rs_IV 0 eq_refl Hin). apply root_hash_bind.
Qed.

Theorem lib_keyed_hash_eq p (WF : plat_wf p) fuel key input : length key = 32%nat -> nlen input < 2 ^ 64 ->
  lib_keyed_hash m_Output_chaining_value m_Output_root_hash (p_max_degree p) (max_degree_or_2 p) m_hash_many p
    words_of_bytes fuel key input
  = rs_keyed_hash_with fuel p key input.
Proof.
  intros Hk Hin. unfold lib_keyed_hash. cbv zeta.
  rewrite (lib_hash_all_at_once_eq p WF fuel input _ _ (WordP.words_of_bytes_length 8 key Hk) Hin). apply root_hash_bind.
Qed.

Lemma out_root_hash_len p (WF : plat_wf p) o h : length (o_cv o) = 8%nat -> out_root_hash p o = Ok h -> length h = 32%nat.
Proof. exact (out_root_hash_length p (wf_cip p WF) o h). Qed.

Lemma hash_all_at_once_cv p (WF : plat_wf p) input key fl o : length key = 8%nat ->
  hash_all_at_once p input key fl = Ok o -> length (o_cv o) = 8%nat.
Proof.
  intros Hkey H. unfold hash_all_at_once in H. destruct (nlen input <=? rs_CHUNK_LEN).
  - rewrite <- (cs_update_with_enough p (S (length input / 64)) _ _ (Nat.mul_succ_div_gt _ 64 ltac:(discriminate))) in H.
    destruct (cs_update_with (S (length input / 64)) p (cs_new key 0 fl) input) as [cs| |] eqn:E; cbn [bind] in H;
      try discriminate.
    inversion H; subst. unfold cs_output. cbn [o_cv]. 
    exact (proj2 (rsim_post _ _ _ _ _ (update_sim p (fun cv => length cv = 8%nat) (wf_cip p WF) _ (cs_new key 0 fl) input eq_refl) E) Hkey).
  - destruct (compress_subtree_to_parent_node p input key 0 fl); cbn [bind] in H; try discriminate.
    inversion H; subst. exact Hkey.
Qed.

Lemma rs_hash_derive_key_context_len p (WF : plat_wf p) context ck : rs_hash_derive_key_context p context = Ok ck -> length ck = 32%nat.
Proof.
  unfold rs_hash_derive_key_context. intros H. apply bind_Ok in H. destruct H as (o & Eo & H).
  exact (out_root_hash_len p WF o ck (hash_all_at_once_cv p WF context rs_IV _ o eq_refl Eo) H).
Qed.

Theorem lib_derive_key_eq p (WF : plat_wf p) fuel context material : nlen material < 2 ^ 64 ->
  lib_derive_key m_Output_chaining_value m_Output_root_hash (p_max_degree p) (max_degree_or_2 p) m_hash_many p
    words_of_bytes (rs_hash_derive_key_context p) fuel context material
  = rs_derive_key_with fuel p context material.
Proof.
  intros Hin. unfold lib_derive_key, rs_derive_key_with. cbv zeta. apply bind_ext. intros ck Eck.
  pose proof (rs_hash_derive_key_context_len p WF context ck Eck) as Hck.
  rewrite (lib_hash_all_at_once_eq p WF fuel material _ _ (WordP.words_of_bytes_length 8 ck Hck) Hin). apply root_hash_bind.
Qed.

Fixpoint update_loop_with (fuel : nat) (p : platform) (h : hasher) (input : list N) : res (hasher * list N) :=
  if nlen input <=? rs_CHUNK_LEN then Ok (h, input)
  else match fuel with
  | O => OutOfFuel
  | S fuel' =>
      let cs := h_cs h in
      c <- cs_count cs ;;
      assert! (c =? 0) code 1401 ;;
      subtree_len <- rs_largest_power_of_two_leq (nlen input) ;;
      count_so_far <- rs_count_so_far (cs_ctr cs) ;;
      subtree_len <- shrink_loop fuel' subtree_len count_so_far ;;
      subtree_chunks <- rs_subtree_chunks subtree_len ;;
      assert! (subtree_len <=? nlen input) code 52 ;;
      h <- (if subtree_len <=? rs_CHUNK_LEN then
              assert! (subtree_len =? rs_CHUNK_LEN) code 1402 ;;
              cs1 <- cs_update_with fuel' p (cs_new (h_key h) (cs_ctr cs) (cs_flags cs)) (firstn (N.to_nat subtree_len) input) ;;
              push_cv_with fuel' p h (out_chaining_value p (cs_output cs1)) (cs_ctr cs)
            else
              cv_pair <- compress_subtree_to_parent_node_with fuel' p (firstn (N.to_nat subtree_len) input) (h_key h)
                           (cs_ctr cs) (cs_flags cs) ;;
              assert! (64 <=? nlen cv_pair) code 54 ;;
              h <- push_cv_with fuel' p h (firstn 32 cv_pair) (cs_ctr cs) ;;
              rc <- rs_right_cv_counter (cs_ctr cs) subtree_chunks ;;
              push_cv_with fuel' p h (firstn 32 (skipn 32 cv_pair)) rc) ;;
      ctr' <- mi_add 64 (cs_ctr cs) subtree_chunks ;;
      let cs' := mkCS (cs_cv cs) ctr' (cs_buf cs) (cs_buf_len cs) (cs_blocks cs) (cs_flags cs) in
      update_loop_with fuel' p (with_cs h cs') (skipn (N.to_nat subtree_len) input)
  end.

Definition hasher_update_tail_with (fuel : nat) (p : platform) (h : hasher) (input : list N) : res hasher :=
  '(h, input) <- update_loop_with fuel p h input ;;
  assert! (nlen input <=? rs_CHUNK_LEN) code 1403 ;;
  if negb (nlen input =? 0) then
    cs <- cs_update_with fuel p (h_cs h) input ;;
    merge_cv_stack_with fuel p (with_cs h cs) (cs_ctr cs)
  else Ok h.

Definition hasher_update_with (fuel : nat) (p : platform) (h : hasher) (input : list N) : res hasher :=
  input_offset <- rs_input_offset (h_init h) ;;
  msl <- rs_max_subtree_len input_offset ;;
  _ <- (match msl with
        | Some max =>
            cnt <- hasher_count h ;;
            remaining <- mi_sub 64 max cnt ;;
            assert! (nlen input <=? remaining) code 21 ;;
            Ok tt
        | None => Ok tt
        end) ;;
  c <- cs_count (h_cs h) ;;
  r <- (if 0 <? c then
          want <- mi_sub 64 rs_CHUNK_LEN c ;;
          let take := N.min want (nlen input) in
          cs <- cs_update_with fuel p (h_cs h) (firstn (N.to_nat take) input) ;;
          let input := skipn (N.to_nat take) input in
          if negb (nlen input =? 0) then
            c' <- cs_count cs ;;
            assert! (c' =? rs_CHUNK_LEN) code 1400 ;;
            let chunk_cv := out_chaining_value p (cs_output cs) in
            h <- push_cv_with fuel p (with_cs h cs) chunk_cv (cs_ctr cs) ;;
            ctr' <- mi_add 64 (cs_ctr cs) 1 ;;
            Ok (with_cs h (cs_new (h_key h) ctr' (cs_flags cs)), input, false)
          else Ok (with_cs h cs, input, true)
        else Ok (h, input, false)) ;;
  let '(h, input, done) := r in
  if done then Ok h else hasher_update_tail_with fuel p h input.

Lemma shrink_loop_eq pno cvf mx mo hm self input io : forall fuel sl csf,
  lib_Hasher_update_with_join_loop1 pno cvf mx mo hm fuel self input io sl csf = shrink_loop fuel sl csf.
Proof.
  induction fuel as [|fuel IH]; intros sl csf; cbn [lib_Hasher_update_with_join_loop1 shrink_loop];
    change (mcmp nneb (mb (mi_and 64) (mu (mi_cast 64) (mb (mi_sub 64) (Ok sl) (Ok 1))) (Ok csf)) (Ok 0))
      with (rs_shrink_cond sl csf);
    destruct (rs_shrink_cond sl csf) as [[|]| |]; cbn [bind]; try reflexivity.
  unfold mb, mi_div. cbn [bind]. change (2 =? 0) with false. cbn [bind]. apply IH.
Qed.

Lemma merge_loop_fields p h : forall fuel st target st', merge_loop fuel p h st target = Ok st' -> (length st' <= length st)%nat.
Proof. exact (merge_loop_length p h). Qed.

Lemma lib_of_hasher_with_cs p h cs :
  lib_Hasher_set_chunk_state (lib_of_hasher p h) (lib_of_cs p cs) = lib_of_hasher p (with_cs h cs).
Proof. reflexivity. Qed.

Definition looped (h : hasher) (r : hasher * list N) : Prop :=
  N.of_nat (length (h_stack (fst r))) <= rs_cv_stack_cap /\ cs_buf_len (h_cs (fst r)) = cs_buf_len (h_cs h).

Lemma update_loop_with_sim p (WF : plat_wf p) io : forall fuel h input,
  length (h_key h) = 8%nat -> nlen input < 2 ^ 64 -> N.of_nat (length (h_stack h)) <= rs_cv_stack_cap ->
  rsim (img (fun r => (lib_of_hasher p (fst r), snd r)) (looped h)) (update_loop_with fuel p h input)
    (lib_Hasher_update_with_join_loop2 m_parent_node_output m_Output_chaining_value (p_max_degree p) (max_degree_or_2 p)
       m_hash_many fuel (lib_of_hasher p h) input io).
Proof.
  induction fuel as [|fuel IH]; intros h input Hkey Hin Hst; cbn [lib_Hasher_update_with_join_loop2 update_loop_with]; mstep;
    fold (nlen input); rewrite N.ltb_antisym; destruct (nlen input <=? rs_CHUNK_LEN) eqn:Elen; cbn [negb];
    try exact (rsim_ret _ _ _ (conj eq_refl (conj Hst eq_refl))); try reflexivity.
  apply N.leb_gt in Elen.
  change (lib_Hasher_chunk_state (lib_of_hasher p h)) with (lib_of_cs p (h_cs h)).
  change (lib_Hasher_key (lib_of_hasher p h)) with (h_key h).
  change (lib_ChunkState_chunk_counter (lib_of_cs p (h_cs h))) with (cs_ctr (h_cs h)).
  change (lib_ChunkState_flags (lib_of_cs p (h_cs h))) with (cs_flags (h_cs h)).
  change (lib_ChunkState_platform (lib_of_cs p (h_cs h))) with p.
  rewrite lib_ChunkState_count_eq, bind_assoc. apply rsim_same. intros c _. cbn [bind]. apply rsim_check. intros _.
  unfold mi_popcount. cbn [bind]. rewrite check_eqb by reflexivity.
  rewrite lib_largest_power_of_two_leq_eq. apply rsim_same. intros sl0 _. apply rsim_same. intros csf _.
  rewrite shrink_loop_eq. apply rsim_same. intros sl _. apply rsim_same. intros sc _.
  destruct (sl <=? nlen input) eqn:E52; cbn [check bind].
  2:{ apply N.leb_gt in E52. destruct (sl <=? rs_CHUNK_LEN) eqn:Esl; [apply N.leb_le in Esl; clear -Esl E52 Elen; lia|reflexivity]. }
  apply N.leb_le in E52. apply (rsim_bind (img (lib_of_hasher p) (pushed h))).
  - apply rsim_if; intros Esl.
    + apply rsim_check. intros _.
      change (lib_ChunkState_new (h_key h) (cs_ctr (h_cs h)) (cs_flags (h_cs h)) p)
        with (lib_of_cs p (cs_new (h_key h) (cs_ctr (h_cs h)) (cs_flags (h_cs h)))).
      eapply rsim_bind; [exact (update_sim p (fun _ => True) (fun _ _ _ _ _ _ => I) fuel (cs_new _ _ _) _ eq_refl)|]. intros cs1 ? [-> _].
      rewrite output_eq. cbn [bind]. rewrite m_cv_of_out, bind_ret. apply lib_Hasher_push_cv_sim, Hst.
    + rewrite (lib_compress_subtree_to_parent_node_eq p WF fuel _ _ _ _ Hkey) by (clear -Hin; unfold nlen in *; rewrite firstn_length; lia).
      apply rsim_same. intros cv_pair _. rewrite check_leb_leb by (clear; lia). apply rsim_check. intros _.
      eapply rsim_bind; [apply lib_Hasher_push_cv_sim, Hst|]. intros h1 ? [-> ((A & B & C) & D)].
      change (lib_ChunkState_chunk_counter (lib_Hasher_chunk_state (lib_of_hasher p h1))) with (cs_ctr (h_cs h1)).
      rewrite B. apply rsim_same. intros rc _. rewrite bind_ret.
      refine (rsim_impl _ _ _ _ _ (lib_Hasher_push_cv_sim p fuel h1 _ rc D)).
      intros h2 ? [-> ((A' & B' & C') & D')]. split; [reflexivity|]. repeat split; [congruence..|exact D'].
  - intros h0 ? [-> ((A & B & C) & D)].
    change (lib_ChunkState_chunk_counter (lib_Hasher_chunk_state (lib_of_hasher p h0))) with (cs_ctr (h_cs h0)).
    rewrite B. apply rsim_same. intros ctr' _. rewrite <- B.
    refine (rsim_impl _ _ _ _ _ (IH (with_cs h0 _) _ _ _ D)).
    + intros r t [E [H1 H2]]. split; [exact E|]. split; [exact H1|]. rewrite H2, <- B. reflexivity.
    + cbn [with_cs h_key]. rewrite A. exact Hkey.
    + clear -Hin. unfold nlen in *. rewrite skipn_length. lia.
Qed.

Lemma cs_update_with_buf_len p fuel c input c' : cs_update_with fuel p c input = Ok c' -> cs_buf_len c' < 2 ^ 64.
Proof.
  rewrite cs_update_with_head. unfold cs_update_tail_with. intros H. apply bind_Ok in H. destruct H as ([c0 in0] & _ & H).
  apply bind_Ok in H. destruct H as ([c1 in1] & _ & H). apply bind_Ok in H. destruct H as ([c2 in2] & Hf & H).
  apply bind_Ok in H. destruct H as ([] & _ & H). apply bind_Ok in H. destruct H as (n & _ & H).
  apply bind_Ok in H. destruct H as ([] & _ & H). inversion H; subst.
  pose proof (proj1 (proj2 (cs_fill_buf_Ok _ _ _ _ Hf))). word_lia.
Qed.

Theorem lib_Hasher_update_with_join_eq p (WF : plat_wf p) fuel h input :
  length (h_key h) = 8%nat -> nlen input < 2 ^ 64 -> N.of_nat (length (h_stack h)) <= rs_cv_stack_cap ->
  cs_blocks (h_cs h) < 2 ^ 8 -> cs_buf_len (h_cs h) < 2 ^ 8 ->
  lib_Hasher_update_with_join m_parent_node_output m_Output_chaining_value (p_max_degree p) (max_degree_or_2 p)
    m_hash_many fuel (lib_of_hasher p h) input
  = res_map (lib_of_hasher p) (hasher_update_with fuel p h input).
Proof.
  intros Hkey Hin Hst Hb Hbl.
  assert (Hbl64 : cs_buf_len (h_cs h) < 2 ^ 64) by word_lia.
  apply (rsim_eq _ (fun _ => True)). unfold lib_Hasher_update_with_join, hasher_update_with.
  change (lib_Hasher_initial_chunk_counter (lib_of_hasher p h)) with (h_init h).
  change (lib_Hasher_chunk_state (lib_of_hasher p h)) with (lib_of_cs p (h_cs h)).
  rewrite (lib_Hasher_count_eq p h Hb Hbl), lib_ChunkState_count_eq.
  apply rsim_same. intros io _. apply rsim_same. intros msl _.
  apply (rsim_bind eq).
  { destruct msl as [mx|]; [|apply rsim_ret; reflexivity]. mstep. rewrite (cast_small 64 (N.of_nat (length input)) Hin). cbn [bind].
    rewrite bind_assoc. apply rsim_same. intros cnt _. apply rsim_same. intros remaining _. apply rsim_check. intros _.
    apply rsim_ret. reflexivity. }
  intros [] ? <-. mstep. rewrite bind_assoc. apply rsim_same. intros c Ec. cbn [bind]. rewrite Ec. cbn [bind].
  (* the first, partial chunk; unless it takes all the input, the hasher goes on to the subtree loop in its domain *)
  apply (rsim_bind (img (fun r : hasher * list N * bool =>
                           (lib_of_hasher p (fst (fst r)), snd (fst r), if snd r then Some (lib_of_hasher p (fst (fst r))) else None))
                        (fun r => snd r = false ->
                           length (h_key (fst (fst r))) = 8%nat /\ nlen (snd (fst r)) <= nlen input /\
                           N.of_nat (length (h_stack (fst (fst r)))) <= rs_cv_stack_cap /\ cs_buf_len (h_cs (fst (fst r))) < 2 ^ 64))).
  - apply rsim_if; intros _; [|apply rsim_ret; split; [reflexivity|]; intros _; repeat split; auto; apply N.le_refl].
    apply rsim_same. intros want _. unfold mi_min. cbn [bind]. fold (nlen input).
    set (take := N.min want (nlen input)). assert (Htake : take <= nlen input) by apply N.le_min_r. clearbody take.
    rewrite (check_leb take) by exact Htake.
    eapply rsim_bind; [exact (update_sim p (fun _ => True) (fun _ _ _ _ _ _ => I) fuel _ _ Hbl64)|]. intros cs ? [-> _].
    rewrite (check_leb take), lib_of_hasher_with_cs by exact Htake. change (lib_Hasher_chunk_state (lib_of_hasher p (with_cs h cs))) with (lib_of_cs p cs).
    fold (nlen (skipn (N.to_nat take) input)).
    destruct (negb (nlen (skipn (N.to_nat take) input) =? 0)); [|apply rsim_ret; split; [reflexivity|discriminate]].
    rewrite lib_ChunkState_count_eq, !bind_assoc. apply rsim_same. intros c' _. cbn [bind]. rewrite bind_assoc.
    apply rsim_check. intros _. rewrite output_eq. cbn [bind]. rewrite m_cv_of_out, bind_assoc.
    change (lib_ChunkState_chunk_counter (lib_of_cs p cs)) with (cs_ctr cs).
    eapply rsim_bind; [apply lib_Hasher_push_cv_sim, Hst|]. intros h1 ? [-> ((A & B & _) & D)]. cbn [with_cs h_cs h_key] in A, B.
    change (lib_Hasher_chunk_state (lib_of_hasher p h1)) with (lib_of_cs p (h_cs h1)). rewrite B, bind_assoc.
    apply rsim_same. intros ctr' _. apply rsim_ret. split; [reflexivity|]. intros _. cbn [fst snd with_cs h_key h_cs h_stack cs_new cs_buf_len].
    rewrite A. unfold nlen. rewrite skipn_length. repeat split; auto; lia.
  - intros [[h1 in1] [|]] ? [-> H1]; cbn [fst snd]; [apply rsim_ret; split; [reflexivity|exact I]|].
    destruct (H1 eq_refl) as (Hk1 & Hin1 & Hst1 & Hbl1). unfold hasher_update_tail_with.
    eapply rsim_bind; [exact (update_loop_with_sim p WF io fuel h1 in1 Hk1 (N.le_lt_trans _ _ _ Hin1 Hin) Hst1)|].
    intros [h2 in2] ? [-> [Hst2 Hbl2]]. cbn [fst snd] in *.
    fold (nlen in2). apply rsim_check. intros _. destruct (negb (nlen in2 =? 0)); [|apply rsim_ret; split; [reflexivity|exact I]]. rewrite bind_ret.
    change (lib_Hasher_chunk_state (lib_of_hasher p h2)) with (lib_of_cs p (h_cs h2)).
    eapply rsim_bind; [exact (update_sim p (fun _ => True) (fun _ _ _ _ _ _ => I) fuel _ _ ltac:(rewrite Hbl2; exact Hbl1))|]. intros cs ? [-> _].
    rewrite bind_ret, lib_of_hasher_with_cs.
    exact (rsim_of_eq _ (fun _ => True) (merge_cv_stack_with fuel p (with_cs h2 cs) (cs_ctr cs)) _
             (lib_Hasher_merge_cv_stack_eq p fuel (with_cs h2 cs) (cs_ctr cs) Hst2) (fun _ _ => I)).
Qed.

Theorem lib_Hasher_update_eq p (WF : plat_wf p) fuel h input :
  length (h_key h) = 8%nat -> nlen input < 2 ^ 64 -> N.of_nat (length (h_stack h)) <= rs_cv_stack_cap ->
  cs_blocks (h_cs h) < 2 ^ 8 -> cs_buf_len (h_cs h) < 2 ^ 8 ->
  lib_Hasher_update m_parent_node_output m_Output_chaining_value (p_max_degree p) (max_degree_or_2 p)
    m_hash_many fuel (lib_of_hasher p h) input
  = res_map (lib_of_hasher p) (hasher_update_with fuel p h input).
Proof.
  intros. unfold lib_Hasher_update. rewrite lib_Hasher_update_with_join_eq by assumption. apply bind_ret.
Qed.

(* at most a chunk of input: 17 rounds of the block loop are enough *)
Lemma cs_update_with_small p F c input : nlen input <= rs_CHUNK_LEN -> (17 <= F)%nat ->
  cs_update_with F p c input = cs_update p c input.
Proof. intros Hl HF. apply cs_update_with_enough. unfold nlen in Hl. change rs_CHUNK_LEN with 1024 in Hl. lia. Qed.

Lemma nlen_firstn_bound n (l : list N) : nlen (firstn (N.to_nat n) l) <= n.
Proof. unfold nlen. rewrite firstn_length. lia. Qed.

Lemma compress_chunks_parallel_with_enough p F input key cc fl cap : (17 <= F)%nat ->
  compress_chunks_parallel_with F p input key cc fl cap = compress_chunks_parallel p input key cc fl cap.
Proof.
  intros HF. unfold compress_chunks_parallel_with, compress_chunks_parallel.
  destruct (chunks_exact_of rs_CHUNK_LEN input) as [chunks rem] eqn:E.
  pose proof (chunks_exact_of_rem rs_CHUNK_LEN _ _ _ eq_refl E) as Hrem.
  apply bind_ext. intros _ _. apply bind_ext. intros _ _. apply bind_ext. intros _ _. apply bind_ext. intros cvs _.
  destruct (negb (nlen rem =? 0)); [|reflexivity]. apply bind_ext. intros counter _.
  rewrite cs_update_with_small by (unfold nlen; lia). reflexivity.
Qed.

Lemma wide_with_refines p key fl : forall f F input cc cap, (f + 17 <= F)%nat ->
  refines (compress_subtree_wide f p input key cc fl cap) (compress_subtree_wide_with F p input key cc fl cap).
Proof.
  induction f as [|f IH]; intros F input cc cap HF.
  - destruct F as [|F]; [lia|]. cbn [compress_subtree_wide compress_subtree_wide_with].
    destruct (nlen input <=? p_degree p * rs_CHUNK_LEN); [|left; reflexivity].
    rewrite compress_chunks_parallel_with_enough by lia. apply refines_refl.
  - destruct F as [|F]; [lia|]. cbn [compress_subtree_wide compress_subtree_wide_with].
    destruct (nlen input <=? p_degree p * rs_CHUNK_LEN).
    { rewrite compress_chunks_parallel_with_enough by lia. apply refines_refl. }
    apply refines_check; intros _. apply refines_check; intros _.
    apply refines_bind_r; intros left_len _. apply refines_check; intros _.
    apply refines_bind_r; intros rc _. apply refines_bind_r; intros degree _.
    apply refines_check; intros _.
    apply refines_bind; [apply IH; lia|intros lcvs]. apply refines_bind; [apply IH; lia|intros rcvs].
    apply refines_refl.
Qed.

Lemma condense_loop_mono p key fl : forall f F cvs, (f <= F)%nat ->
  refines (condense_loop f p cvs key fl) (condense_loop F p cvs key fl).
Proof.
  induction f as [|f IH]; intros F cvs HF.
  - cbn [condense_loop]. destruct F; cbn [condense_loop]; destruct (N.of_nat (length cvs) <=? 2);
      first [apply refines_refl | left; reflexivity].
  - destruct F as [|F]; [lia|]. cbn [condense_loop]. destruct (N.of_nat (length cvs) <=? 2); [apply refines_refl|].
    apply refines_bind_r; intros outs _. apply IH. lia.
Qed.

(* 81 = wide_fuel (64, the model's fuel for the recursion of compress_subtree_wide) + 17 (what the chunk-state loop at a
   leaf needs: cs_update_with_small); the condensing loop (8 in the model), the merge and shrink loops (64) fit below it *)
Lemma tpn_with_refines p F input key cc fl : (81 <= F)%nat ->
  refines (compress_subtree_to_parent_node p input key cc fl) (compress_subtree_to_parent_node_with F p input key cc fl).
Proof.
  intros HF. unfold compress_subtree_to_parent_node, compress_subtree_to_parent_node_with.
  apply refines_check; intros _. apply refines_bind; [apply wide_with_refines; unfold wide_fuel; lia|intros cvs].
  apply refines_check; intros _. apply refines_bind; [apply condense_loop_mono; lia|intros cvs']. apply refines_refl.
Qed.

Lemma hash_all_at_once_with_refines p F input key fl : (81 <= F)%nat ->
  refines (hash_all_at_once p input key fl) (hash_all_at_once_with F p input key fl).
Proof.
  intros HF. unfold hash_all_at_once, hash_all_at_once_with. destruct (nlen input <=? rs_CHUNK_LEN) eqn:E.
  - apply N.leb_le in E. rewrite cs_update_with_small by (assumption || lia). apply refines_refl.
  - apply refines_bind; [apply tpn_with_refines; exact HF|intros b; apply refines_refl].
Qed.

Lemma rs_hash_with_refines p F input : (81 <= F)%nat -> refines (rs_hash p input) (rs_hash_with F p input).
Proof. intros HF. apply refines_bind; [apply hash_all_at_once_with_refines; exact HF|intros o; apply refines_refl]. Qed.

Lemma rs_keyed_hash_with_refines p F key input : (81 <= F)%nat ->
  refines (rs_keyed_hash p key input) (rs_keyed_hash_with F p key input).
Proof. intros HF. apply refines_bind; [apply hash_all_at_once_with_refines; exact HF|intros o; apply refines_refl]. Qed.

Lemma rs_derive_key_with_refines p F context material : (81 <= F)%nat ->
  refines (rs_derive_key p context material) (rs_derive_key_with F p context material).
Proof.
  intros HF. apply refines_bind_r; intros ck _.
  apply refines_bind; [apply hash_all_at_once_with_refines; exact HF|intros o; apply refines_refl].
Qed.

Lemma shrink_loop_mono : forall f F sl csf, (f <= F)%nat -> refines (shrink_loop f sl csf) (shrink_loop F sl csf).
Proof.
  induction f as [|f IH]; intros F sl csf HF.
  - cbn [shrink_loop]. destruct F; cbn [shrink_loop]; destruct (rs_shrink_cond sl csf) as [[|]| |]; cbn [bind];
      first [apply refines_refl | left; reflexivity].
  - destruct F as [|F]; [lia|]. cbn [shrink_loop]. destruct (rs_shrink_cond sl csf) as [[|]| |]; cbn [bind];
      try apply refines_refl. apply IH. lia.
Qed.

Lemma merge_loop_mono p h : forall f F st target, (f <= F)%nat ->
  refines (merge_loop f p h st target) (merge_loop F p h st target).
Proof.
  induction f as [|f IH]; intros F st target HF.
  - cbn [merge_loop]. destruct F; cbn [merge_loop]; destruct (N.of_nat (length st) <=? target);
      first [apply refines_refl | left; reflexivity].
  - destruct F as [|F]; [lia|]. cbn [merge_loop]. destruct (N.of_nat (length st) <=? target); [apply refines_refl|].
    destruct st as [|r [|l rest]]; try apply refines_refl. apply IH. lia.
Qed.

Lemma merge_cv_stack_with_refines p F h cc : (64 <= F)%nat ->
  refines (merge_cv_stack p h cc) (merge_cv_stack_with F p h cc).
Proof.
  intros HF. unfold merge_cv_stack, merge_cv_stack_with. apply refines_bind_r; intros t _.
  apply refines_bind; [apply merge_loop_mono; exact HF|intros st; apply refines_refl].
Qed.

Lemma push_cv_with_refines p F h cv cc : (64 <= F)%nat -> refines (push_cv p h cv cc) (push_cv_with F p h cv cc).
Proof.
  intros HF. unfold push_cv, push_cv_with. apply refines_bind; [apply merge_cv_stack_with_refines; exact HF|intros h'].
  apply refines_refl.
Qed.

Lemma update_loop_with_refines p : forall f F h input, (f + 81 <= F)%nat ->
  refines (update_loop f p h input) (update_loop_with F p h input).
Proof.
  induction f as [|f IH]; intros F h input HF.
  - destruct F as [|F]; [lia|]. cbn [update_loop update_loop_with].
    destruct (nlen input <=? rs_CHUNK_LEN); [apply refines_refl|left; reflexivity].
  - destruct F as [|F]; [lia|]. cbn [update_loop update_loop_with].
    destruct (nlen input <=? rs_CHUNK_LEN); [apply refines_refl|].
    apply refines_bind_r; intros c _. apply refines_check; intros _.
    apply refines_bind_r; intros sl0 _. apply refines_bind_r; intros csf _.
    apply refines_bind; [apply shrink_loop_mono; lia|intros sl]. apply refines_bind_r; intros sc _.
    apply refines_check; intros _.
    apply refines_bind.
    + destruct (sl <=? rs_CHUNK_LEN) eqn:Esl.
      * apply refines_check; intros _. apply N.leb_le in Esl.
        rewrite cs_update_with_small by (try exact (N.le_trans _ _ _ (nlen_firstn_bound _ _) Esl); lia).
        apply refines_bind_r; intros cs1 _. apply push_cv_with_refines. lia.
      * apply refines_bind; [apply tpn_with_refines; lia|intros cv_pair]. apply refines_check; intros _.
        apply refines_bind; [apply push_cv_with_refines; lia|intros h1].
        apply refines_bind_r; intros rc _. apply push_cv_with_refines. lia.
    + intros h1. apply refines_bind_r; intros ctr' _. apply IH. lia.
Qed.

Lemma hasher_update_with_refines p F h input : (S (length input / 1024) + 81 <= F)%nat ->
  refines (hasher_update p h input) (hasher_update_with F p h input).
Proof.
  intros HF. assert (HF81 : (81 <= F)%nat) by (clear -HF; lia). assert (HF17 : (17 <= F)%nat) by (clear -HF81; lia).
  assert (HF64 : (64 <= F)%nat) by (clear -HF81; lia).
  unfold hasher_update, hasher_update_with.
  apply refines_bind_r; intros io _. apply refines_bind_r; intros msl _.
  apply refines_bind_r; intros _ _. apply refines_bind_r; intros c _.
  assert (Htail : forall h1 in1, (length in1 <= length input)%nat ->
            refines (hasher_update_tail p h1 in1) (hasher_update_tail_with F p h1 in1)).
  { intros h1 in1 Hlen. unfold hasher_update_tail, hasher_update_tail_with.
    apply refines_bind.
    - apply update_loop_with_refines. apply Nat.le_trans with (2 := HF).
      apply Nat.add_le_mono_r, le_n_S, Nat.div_le_mono; [discriminate|exact Hlen].
    - intros [h2 in2]. destruct (nlen in2 <=? rs_CHUNK_LEN) eqn:E; cbn [check bind]; [|apply refines_refl].
      apply N.leb_le in E. destruct (negb (nlen in2 =? 0)); [|apply refines_refl].
      rewrite (cs_update_with_small p F _ _ E HF17). apply refines_bind_r; intros cs _.
      apply merge_cv_stack_with_refines, HF64. }
  destruct (0 <? c); [|cbn [bind]; apply Htail, le_n].
  rewrite !bind_assoc. apply refines_bind_r; intros want Ew. apply mi_sub_Ok in Ew.
  rewrite cs_update_with_small, !bind_assoc by (try apply (N.le_trans _ _ _ (nlen_firstn_bound _ _)); (exact HF17 || (clear -Ew; lia))).
  apply refines_bind_r; intros cs _.
  destruct (negb (nlen (skipn (N.to_nat (N.min want (nlen input))) input) =? 0)); [|apply refines_refl].
  rewrite !bind_assoc. apply refines_bind_r; intros c' _. rewrite ?bind_assoc. apply refines_check; intros _.
  rewrite ?bind_assoc. apply refines_bind; [apply push_cv_with_refines, HF64|intros h1].
  rewrite ?bind_assoc. apply refines_bind_r; intros ctr' _. apply Htail. rewrite skipn_length. apply Nat.le_sub_l.
Qed.

Lemma hash_many_go_32 : forall inputs key ctr incr fl fs fe outs, length key = 8%nat ->
  hash_many_go inputs key ctr incr fl fs fe = Ok outs -> length outs = length inputs /\ cvs32 outs.
Proof.
  induction inputs as [|x tl IH]; intros key ctr incr fl fs fe outs Hk H.
  - cbn in H. inversion H. split; [reflexivity|constructor].
  - cbn [hash_many_go] in H.
    destruct (hash1 x key ctr fl fs fe) as [cv| |] eqn:E1; cbn [bind] in H; try discriminate.
    destruct (if incr then mi_add 64 ctr 1 else Ok ctr) as [c'| |]; cbn [bind] in H; try discriminate.
    destruct (hash_many_go tl key c' incr fl fs fe) as [rest| |] eqn:E; cbn [bind] in H; try discriminate.
    inversion H; subst. destruct (IH _ _ _ _ _ _ _ Hk E) as [Hl H32]. split; [cbn [length]; rewrite Hl; reflexivity|].
    constructor; [|exact H32]. unfold hash1 in E1.
    destruct (N.of_nat (length x) mod rs_BLOCK_LEN =? 0); cbn [check bind] in E1; [|discriminate].
    set (g := hash1_go _ _ _ _ _ _ _) in E1. assert (Hg : length g = 8%nat) by (apply PortableP.hash1_go_length; exact Hk).
    clearbody g. inversion E1; subst. rewrite bytes_of_words_length, Hg. reflexivity.
Qed.

Lemma plat_wf_portable p : p_degree p < 2 ^ 32 -> p_max_degree p < 2 ^ 32 ->
  (forall cv block bl ctr fl, p_compress_in_place p cv block bl ctr fl = compress_in_place cv block bl ctr fl) ->
  (forall inputs key ctr incr fl fs fe cap, p_hash_many p inputs key ctr incr fl fs fe cap = hash_many inputs key ctr incr fl fs fe cap) ->
  plat_wf p.
Proof.
  intros Hd Hm Hc Hh. constructor; [| |exact Hd|exact Hm].
  - intros inputs key ctr incr fl fs fe cap cvs Hk H. rewrite Hh in H. unfold hash_many in H.
    destruct (N.of_nat (length inputs) <=? cap) eqn:E; cbn [check bind] in H; [|discriminate]. apply N.leb_le in E.
    destruct (hash_many_go_32 _ _ _ _ _ _ _ _ Hk H) as [A B]. repeat split; assumption.
  - intros cv block bl ctr fl H. rewrite Hc. apply PortableP.compress_in_place_length. exact H.
Qed.

Lemma sim_platform_wf d m : d < 2 ^ 32 -> m < 2 ^ 32 -> plat_wf (sim_platform d m).
Proof. intros Hd Hm. apply plat_wf_portable; [exact Hd|exact Hm|reflexivity|reflexivity]. Qed.
