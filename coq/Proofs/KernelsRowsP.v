(* C05: the row-vectorised single-block compression of Model/Kernels.v equals the portable compression. *)
From Coq Require Import NArith ZArith List Bool Arith Lia.
From V Require Import Base.Res Base.Word Base.MachInt gen.GenConsts gen.GenFormulas
  Spec.Compress Model.Portable Model.Platform Model.Kernels Proofs.PortableP Proofs.ListP Proofs.WordP Proofs.RoundHomP
  Proofs.TransposeP Proofs.KernelsP.
Import ListNotations.
Open Scope N_scope.

Definition sel (r : nat) (w : list N) : list N := map (fun k => nth (sched r k) w 0) (seq 0 16).
Definition to_rows (s : list N) : rows :=
  (firstn 4 s, firstn 4 (skipn 4 s), firstn 4 (skipn 8 s), firstn 4 (skipn 12 s)).

Lemma sel_length r w : length (sel r w) = 16%nat.
Proof. unfold sel. rewrite map_length. reflexivity. Qed.

(* the shuffles between rounds implement MSG_PERMUTATION in the diagonal layout *)
Lemma msg_next_layout x : length x = 16%nat -> msg_next (layout x) = layout (permute x).
Proof.
  intros L. destruct (length16_inv x L) as (x0&x1&x2&x3&x4&x5&x6&x7&x8&x9&x10&x11&x12&x13&x14&x15&->).
  reflexivity.
Qed.

Lemma sel_S r w : (r < 6)%nat -> sel (S r) w = permute (sel r w).
Proof. intros H. do 6 (destruct r as [|r]; [reflexivity|]). lia. Qed.

(* one row round = one G-by-G round (same association of the additions) *)
Lemma rows_round_ok r s w : (r < 7)%nat -> length s = 16%nat ->
  rows_round (to_rows s) (layout (sel r w)) = to_rows (roundS add32 xor32 rotr32 0 s w r).
Proof.
  intros Hr L. destruct (length16_inv s L) as (s0&s1&s2&s3&s4&s5&s6&s7&s8&s9&s10&s11&s12&s13&s14&s15&->).
  do 7 (destruct r as [|r]; [reflexivity|]). lia.
Qed.

Lemma wob_skipn k l : words_of_bytes (skipn (4 * k) l) = skipn k (words_of_bytes l).
Proof.
  revert l. induction k as [|k IH]; intros l; [reflexivity|].
  replace (4 * S k)%nat with (S (S (S (S (4 * k))))) by lia.
  destruct l as [|b0 [|b1 [|b2 [|b3 l]]]]; try (cbn [skipn words_of_bytes]; destruct (4 * k)%nat; reflexivity).
  cbn [skipn words_of_bytes]. apply IH.
Qed.

Lemma wob_firstn k l : words_of_bytes (firstn (4 * k) l) = firstn k (words_of_bytes l).
Proof.
  revert l. induction k as [|k IH]; intros l; [reflexivity|].
  replace (4 * S k)%nat with (S (S (S (S (4 * k))))) by lia.
  destruct l as [|b0 [|b1 [|b2 [|b3 l]]]]; try (cbn [firstn words_of_bytes]; destruct (4 * k)%nat; reflexivity).
  cbn [firstn words_of_bytes]. f_equal. apply IH.
Qed.

Lemma loadu_word block q j : (j < 4)%nat ->
  nth j (loadu 4 block (4 * q)) 0 = nth (q + j) (words_of_bytes block) 0.
Proof.
  intros H. unfold loadu. rewrite wob_firstn, wob_skipn, nth_firstn_lt by exact H. apply nth_skipn_add.
Qed.

Lemma msg_round1_ok block :
  msg_round1 (loadu 4 block 0, loadu 4 block 16, loadu 4 block 32, loadu 4 block 48) =
  layout (sel 0 (words_of_bytes block)).
Proof.
  pose proof (fun j H => loadu_word block 0 j H : nth j (loadu 4 block 0) 0 = nth (0 + j) (words_of_bytes block) 0) as E0.
  pose proof (fun j H => loadu_word block 4 j H : nth j (loadu 4 block 16) 0 = nth (4 + j) (words_of_bytes block) 0) as E1.
  pose proof (fun j H => loadu_word block 8 j H : nth j (loadu 4 block 32) 0 = nth (8 + j) (words_of_bytes block) 0) as E2.
  pose proof (fun j H => loadu_word block 12 j H : nth j (loadu 4 block 48) 0 = nth (12 + j) (words_of_bytes block) 0) as E3.
  unfold msg_round1, shuffle2, shuffle_epi32, ln. cbn [nth].
  rewrite !E0, !E1, !E2, !E3 by lia. reflexivity.
Qed.

Theorem compress_pre_rows_ok cv block bl ctr fl : length cv = 8%nat ->
  compress_pre_rows cv block bl ctr fl = to_rows (compress_pre cv block bl ctr fl).
Proof.
  intros L.
  do 8 (destruct cv as [|? cv]; [discriminate L|]). destruct cv; [|discriminate L].
  unfold compress_pre_rows. cbv zeta. rewrite msg_round1_ok.
  set (W := words_of_bytes block).
  set (s0 := [n; n0; n1; n2; n3; n4; n5; n6] ++ firstn 4 rs_IV ++ [ctr_lo ctr; ctr_hi ctr; bl; fl]).
  change (firstn 4 [n; n0; n1; n2; n3; n4; n5; n6], firstn 4 (skipn 4 [n; n0; n1; n2; n3; n4; n5; n6]),
          [nth 0 rs_IV 0; nth 1 rs_IV 0; nth 2 rs_IV 0; nth 3 rs_IV 0], [ctr_lo ctr; ctr_hi ctr; bl; fl])
    with (to_rows s0).
  assert (L0 : length s0 = 16%nat) by reflexivity.
  rewrite (rows_round_ok 0 s0 W) by (lia || exact L0). rewrite roundS_scalar.
  set (s1 := Portable.round s0 W 0). assert (L1 : length s1 = 16%nat) by (unfold s1; rewrite round_len; exact L0).
  rewrite msg_next_layout, <- sel_S by (lia || apply sel_length).
  rewrite (rows_round_ok 1 s1 W) by (lia || exact L1). rewrite roundS_scalar.
  set (s2 := Portable.round s1 W 1). assert (L2 : length s2 = 16%nat) by (unfold s2; rewrite round_len; exact L1).
  rewrite msg_next_layout, <- sel_S by (lia || apply sel_length).
  rewrite (rows_round_ok 2 s2 W) by (lia || exact L2). rewrite roundS_scalar.
  set (s3 := Portable.round s2 W 2). assert (L3 : length s3 = 16%nat) by (unfold s3; rewrite round_len; exact L2).
  rewrite msg_next_layout, <- sel_S by (lia || apply sel_length).
  rewrite (rows_round_ok 3 s3 W) by (lia || exact L3). rewrite roundS_scalar.
  set (s4 := Portable.round s3 W 3). assert (L4 : length s4 = 16%nat) by (unfold s4; rewrite round_len; exact L3).
  rewrite msg_next_layout, <- sel_S by (lia || apply sel_length).
  rewrite (rows_round_ok 4 s4 W) by (lia || exact L4). rewrite roundS_scalar.
  set (s5 := Portable.round s4 W 4). assert (L5 : length s5 = 16%nat) by (unfold s5; rewrite round_len; exact L4).
  rewrite msg_next_layout, <- sel_S by (lia || apply sel_length).
  rewrite (rows_round_ok 5 s5 W) by (lia || exact L5). rewrite roundS_scalar.
  set (s6 := Portable.round s5 W 5). assert (L6 : length s6 = 16%nat) by (unfold s6; rewrite round_len; exact L5).
  rewrite msg_next_layout, <- sel_S by (lia || apply sel_length).
  rewrite (rows_round_ok 6 s6 W) by (lia || exact L6). rewrite roundS_scalar.
  unfold compress_pre. cbv zeta. subst s6 s5 s4 s3 s2 s1 s0 W. reflexivity.
Qed.

Theorem compress_in_place_rows_ok cv block bl ctr fl : length cv = 8%nat ->
  compress_in_place_rows cv block bl ctr fl = compress_in_place cv block bl ctr fl.
Proof.
  intros L. unfold compress_in_place_rows, compress_in_place. rewrite compress_pre_rows_ok by exact L.
  cbv zeta. pose proof (compress_pre_length cv block bl ctr fl L) as Ls.
  destruct (length16_inv _ Ls) as (s0&s1&s2&s3&s4&s5&s6&s7&s8&s9&s10&s11&s12&s13&s14&s15&->).
  reflexivity.
Qed.

Theorem compress_xof_rows_ok cv block bl ctr fl : length cv = 8%nat ->
  compress_xof_rows cv block bl ctr fl = compress_xof cv block bl ctr fl.
Proof.
  intros L. unfold compress_xof_rows, compress_xof. rewrite compress_pre_rows_ok by exact L.
  cbv zeta. pose proof (compress_pre_length cv block bl ctr fl L) as Ls.
  destruct (length16_inv _ Ls) as (s0&s1&s2&s3&s4&s5&s6&s7&s8&s9&s10&s11&s12&s13&s14&s15&->).
  do 8 (destruct cv as [|? cv]; [discriminate L|]). destruct cv; [|discriminate L].
  reflexivity.
Qed.

Lemma cip_ok_rows : cip_ok compress_in_place_rows.
Proof. intros cv block bl ctr fl L. apply compress_in_place_rows_ok. exact L. Qed.
Lemma cx_ok_rows : cx_ok compress_xof_rows.
Proof. intros cv block bl ctr fl L. apply compress_xof_rows_ok. exact L. Qed.

Lemma cip_rows_total cv block bl ctr fl : cip_rows cv block bl ctr fl = compress_in_place cv block bl ctr fl.
Proof.
  unfold cip_rows, guard_cip, cv_ok. destruct (Nat.eqb_spec (length cv) 8) as [E|E]; [|reflexivity].
  apply compress_in_place_rows_ok. exact E.
Qed.
Lemma cx_rows_total cv block bl ctr fl : cx_rows cv block bl ctr fl = compress_xof cv block bl ctr fl.
Proof.
  unfold cx_rows, guard_cip, cv_ok. destruct (Nat.eqb_spec (length cv) 8) as [E|E]; [|reflexivity].
  apply compress_xof_rows_ok. exact E.
Qed.
