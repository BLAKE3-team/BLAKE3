(* The load_counters* functions as TRANSLATED from the sources (gen/GenCounters.v, terms over
   Model/Intrinsics.v) equal the hand-written models of Model/Kernels.v, hence satisfy the
   counter specification `lc_ok` of Proofs/KernelsP.v:
     lane i = (low 32 bits, high 32 bits) of counter + (if incr then i else 0),
   for every counter with counter + lanes <= 2^64 and both values of incr.
   The counter is a variable throughout; only the lane count (4, 8 or 16, fixed by the register width) is
   concrete, and the masked lane deltas of the 64-bit-lane variant, which do not depend on the counter, are evaluated. *)
From Coq Require Import NArith ZArith List Bool Arith Lia.
From V Require Import Base.Res Base.Word Base.MachInt gen.GenConsts gen.GenFormulas Model.Portable Model.Platform
  Model.Kernels Model.Intrinsics gen.GenCounters Proofs.KernelsP Proofs.WordP.
Import ListNotations.
Open Scope N_scope.

Lemma bits32_cast_s32 z : bits32 (cast_s 32 z) = bits32 z.
Proof.
  unfold bits32, cast_s. f_equal.
  change (2 ^ (32 - 1))%Z with 2147483648%Z. change (2 ^ 32)%Z with 4294967296%Z.
  rewrite Zminus_mod_idemp_l. f_equal. lia.
Qed.
Lemma bits32_of_N n : bits32 (Z.of_N n) = w32 n.
Proof.
  unfold bits32. rewrite w32_mod. change 4294967296%Z with (Z.of_N 4294967296).
  rewrite <- N2Z.inj_mod by discriminate. apply N2Z.id.
Qed.
(* (int32_t)counter, `x as i32` *)
Lemma bits32_counter c : bits32 (cast_s 32 (Z.of_N c)) = w32 c.
Proof. rewrite bits32_cast_s32. apply bits32_of_N. Qed.
(* (int32_t)(counter >> 32) *)
Lemma bits32_counter_hi c : bits32 (cast_s 32 (Z.shiftr (Z.of_N c) 32)) = w32 (N.shiftr c 32).
Proof.
  rewrite bits32_cast_s32, Z.shiftr_div_pow2, N.shiftr_div_pow2 by discriminate.
  change (2 ^ 32)%Z with (Z.of_N (2 ^ 32)). rewrite <- N2Z.inj_div. apply bits32_of_N.
Qed.
(* -(int32_t)increment_counter *)
Lemma bits32_neg_bool b : bits32 (Z.opp (Z.b2z b)) = if b then mask32 else 0.
Proof. destruct b; reflexivity. Qed.
Lemma bits64_lt z : bits64 z < 18446744073709551616.
Proof.
  unfold bits64. pose proof (Z.mod_pos_bound z 18446744073709551616 eq_refl). lia.
Qed.
(* (int64_t)counter *)
Lemma bits64_counter c : c < 18446744073709551616 -> bits64 (cast_s 64 (Z.of_N c)) = c.
Proof.
  intros H. unfold bits64, cast_s.
  change (2 ^ (64 - 1))%Z with 9223372036854775808%Z. change (2 ^ 64)%Z with 18446744073709551616%Z.
  rewrite Zminus_mod_idemp_l.
  replace (Z.of_N c + 9223372036854775808 - 9223372036854775808)%Z with (Z.of_N c) by lia.
  rewrite Z.mod_small by lia. apply N2Z.id.
Qed.

Definition lanes64 (l : list N) : Prop := Forall (fun x => x < 18446744073709551616) l.

Lemma join_split x : x < 18446744073709551616 -> w32 x + 4294967296 * w32 (N.shiftr x 32) = x.
Proof.
  intros H. rewrite !w32_mod, N.shiftr_div_pow2. change (2 ^ 32) with 4294967296.
  rewrite (N.mod_small (x / 4294967296)) by (apply N.div_lt_upper_bound; [discriminate|exact H]).
  symmetry. rewrite N.add_comm. apply N.div_mod. discriminate.
Qed.
Lemma to64_of64 l : lanes64 l -> to64 (of64 l) = l.
Proof.
  induction 1 as [|x l Hx _ IH]; [reflexivity|].
  unfold of64. cbn [flat_map app to64]. fold (of64 l). rewrite IH, join_split by exact Hx. reflexivity.
Qed.
Lemma add64_lt a b : add64 a b < 18446744073709551616.
Proof. unfold add64. rewrite N.land_ones. apply N.mod_lt. discriminate. Qed.
Lemma lanes64_add64 a b : lanes64 (vmap2 add64 a b).
Proof.
  unfold lanes64, vmap2. apply Forall_forall. intros x Hx. apply in_map_iff in Hx.
  destruct Hx as (p & <- & _). apply add64_lt.
Qed.
Lemma srl64_le k x : srl64 k x <= x.
Proof.
  unfold srl64. destruct (63 <? k); [apply N.le_0_l|].
  rewrite N.shiftr_div_pow2. apply N.div_le_upper_bound; [apply N.pow_nonzero; discriminate|].
  rewrite <- (N.mul_1_l x) at 1. apply N.mul_le_mono_r.
  assert (0 < 2 ^ k) by (apply N.neq_0_lt_0, N.pow_nonzero; discriminate). lia.
Qed.
Lemma lanes64_srl64 k l : lanes64 l -> lanes64 (map (srl64 k) l).
Proof.
  unfold lanes64. rewrite !Forall_forall. intros H x Hx. apply in_map_iff in Hx. destruct Hx as (y & <- & Hy).
  eapply N.le_lt_trans; [apply srl64_le|apply H, Hy].
Qed.
Lemma lanes64_repeat x n : x < 18446744073709551616 -> lanes64 (repeat x n).
Proof. intros H. apply Forall_forall. intros y Hy. apply repeat_spec in Hy. subst y. exact H. Qed.

Ltac solve_lanes64 :=
  first [ apply lanes64_add64 | apply lanes64_srl64; solve_lanes64 | apply lanes64_repeat; apply bits64_lt ].

Theorem c_sse2_load_counters_model counter incr :
  Ok (c_sse2_load_counters counter incr) = load_counters_cmp 4 counter incr.
Proof.
  unfold c_sse2_load_counters, load_counters_cmp. cbv zeta.
  unfold mm_set1_epi32, mm_set_epi32, mm_and_si128, mm_add_epi32, mm_cmpgt_epi32, mm_xor_si128, mm_sub_epi32.
  rewrite bits32_counter, bits32_counter_hi, bits32_neg_bool. reflexivity.
Qed.
(* load_counters of blake3_sse41.c has the text of blake3_sse2.c's: the two translations are the same term *)
Theorem c_sse41_load_counters_model counter incr :
  Ok (c_sse41_load_counters counter incr) = load_counters_cmp 4 counter incr.
Proof. exact (c_sse2_load_counters_model counter incr). Qed.
Theorem c_avx2_load_counters_model counter incr :
  Ok (c_avx2_load_counters counter incr) = load_counters_cmp 8 counter incr.
Proof.
  unfold c_avx2_load_counters, load_counters_cmp. cbv zeta.
  unfold mm256_set1_epi32, mm256_set_epi32, mm256_and_si256, mm256_add_epi32, mm256_cmpgt_epi32,
    mm256_xor_si256, mm256_sub_epi32.
  rewrite bits32_counter, bits32_counter_hi, bits32_neg_bool. reflexivity.
Qed.

Theorem c_avx512_load_counters16_model counter incr :
  Ok (c_avx512_load_counters16 counter incr) = load_counters_andnot 16 counter incr.
Proof.
  unfold c_avx512_load_counters16, load_counters_andnot. cbv zeta.
  unfold mm512_set1_epi32, mm512_set_epi32, mm512_and_si512, mm512_add_epi32, mm512_andnot_si512, mm512_srli_epi32.
  rewrite bits32_counter, bits32_counter_hi, bits32_neg_bool. reflexivity.
Qed.

(* load_counters4 / load_counters8 after their intrinsics are unfolded (those of 256 and of 512 bits are the same functions
   of the lane list); d: the masked deltas, which do not depend on the counter *)
Lemma lc64_model (n : nat) (counter : N) (incr : bool) (d : vec) : counter < 2 ^ 64 ->
  lanes64 (map (fun i => N.land (if incr then N.ones 64 else 0) i) (lane_ids n)) ->
  d = of64 (map (fun i => N.land (if incr then N.ones 64 else 0) i) (lane_ids n)) ->
  let counters := of64 (vmap2 add64 (to64 (of64 (repeat (bits64 (cast_s 64 (Z.of_N counter))) n))) (to64 d)) in
  Ok (map w32 (to64 counters), map w32 (to64 (of64 (map (srl64 (imm8 32)) (to64 counters))))) =
  load_counters_64 n counter incr.
Proof.
  intros Hc Hd ->. change (2 ^ 64) with 18446744073709551616 in Hc. cbv zeta.
  rewrite (to64_of64 (repeat _ _)) by solve_lanes64.
  rewrite (to64_of64 (map _ (lane_ids n))) by exact Hd.
  rewrite (to64_of64 (vmap2 _ _ _)) by solve_lanes64.
  rewrite (to64_of64 (map _ (vmap2 _ _ _))) by solve_lanes64.
  rewrite bits64_counter by exact Hc. change (repeat counter n) with (vset1 n counter).
  unfold load_counters_64, lane_ids. cbv zeta. rewrite vset1_seq, !map_map, vmap2_maps, !map_map. reflexivity.
Qed.

Theorem c_avx512_load_counters4_model counter incr : counter < 2 ^ 64 ->
  Ok (c_avx512_load_counters4 counter incr) = load_counters_64 4 counter incr.
Proof.
  intros Hc. apply (lc64_model 4 counter incr); [exact Hc|destruct incr; repeat constructor|destruct incr; vm_compute; reflexivity].
Qed.
Theorem c_avx512_load_counters8_model counter incr : counter < 2 ^ 64 ->
  Ok (c_avx512_load_counters8 counter incr) = load_counters_64 8 counter incr.
Proof.
  intros Hc. apply (lc64_model 8 counter incr); [exact Hc|destruct incr; repeat constructor|destruct incr; vm_compute; reflexivity].
Qed.

Lemma rs_counter_low_ok c : rs_counter_low c = Ok (ctr_lo c).
Proof. reflexivity. Qed.
Lemma rs_counter_high_ok c : rs_counter_high c = Ok (ctr_hi c).
Proof. reflexivity. Qed.
Lemma w32_ctr_lo c : w32 (ctr_lo c) = ctr_lo c.
Proof. rewrite ctr_lo_mod, w32_mod. apply N.mod_mod. discriminate. Qed.
Lemma w32_ctr_hi c : w32 (ctr_hi c) = ctr_hi c.
Proof. rewrite ctr_hi_mod, w32_mod. apply N.mod_mod. discriminate. Qed.

(* one lane: whatever `counter + (mask & i)` evaluates to, both sides continue alike *)
Ltac rs_lane :=
  match goal with
  | |- context [bind (mi_add 64 ?c ?d) _] =>
      destruct (mi_add 64 c d); cbn [bind]; [ | reflexivity | reflexivity ]
  end.

Theorem rs_sse2_load_counters_model counter incr :
  rs_sse2_load_counters counter incr = load_counters_rs 4 counter incr.
Proof.
  unfold rs_sse2_load_counters, load_counters_rs, rs_sse2_set4, mm_setr_epi32. cbv zeta.
  change (N.lnot 0 64) with (N.ones 64). change (lane_ids 4) with [0; 1; 2; 3].
  set (mask := if incr then N.ones 64 else 0).
  cbn [res_map mb mu bind mi_and].
  repeat rs_lane. unfold mu. cbn [bind].
  rewrite !rs_counter_low_ok, !rs_counter_high_ok. cbn [bind map].
  rewrite !bits32_counter, !w32_ctr_lo, !w32_ctr_hi. reflexivity.
Qed.
(* likewise rust_sse41.rs and rust_sse2.rs *)
Theorem rs_sse41_load_counters_model counter incr :
  rs_sse41_load_counters counter incr = load_counters_rs 4 counter incr.
Proof. exact (rs_sse2_load_counters_model counter incr). Qed.
Theorem rs_avx2_load_counters_model counter incr :
  rs_avx2_load_counters counter incr = load_counters_rs 8 counter incr.
Proof.
  unfold rs_avx2_load_counters, load_counters_rs, rs_avx2_set8, mm256_setr_epi32. cbv zeta.
  change (N.lnot 0 64) with (N.ones 64). change (lane_ids 8) with [0; 1; 2; 3; 4; 5; 6; 7].
  set (mask := if incr then N.ones 64 else 0).
  cbn [res_map mb mu bind mi_and].
  repeat rs_lane. unfold mu. cbn [bind].
  rewrite !rs_counter_low_ok, !rs_counter_high_ok. cbn [bind map].
  rewrite !bits32_counter, !w32_ctr_lo, !w32_ctr_hi. reflexivity.
Qed.

Lemma lc_ok_ext n (f g : N -> bool -> res (vec * vec)) : (0 < n)%nat ->
  (forall counter incr, counter < 2 ^ 64 -> f counter incr = g counter incr) -> lc_ok n g -> lc_ok n f.
Proof.
  intros Hn E H counter incr Hc. rewrite E; [exact (H counter incr Hc)|].
  change (2 ^ 64) with 18446744073709551616 in *. lia.
Qed.

Theorem c_sse2_load_counters_ok : lc_ok 4 (fun c i => Ok (c_sse2_load_counters c i)).
Proof.
  apply (lc_ok_ext 4 _ (load_counters_cmp 4)); [lia|intros; apply c_sse2_load_counters_model|].
  apply load_counters_cmp_ok. cbn. lia.
Qed.
Theorem c_sse41_load_counters_ok : lc_ok 4 (fun c i => Ok (c_sse41_load_counters c i)).
Proof.
  apply (lc_ok_ext 4 _ (load_counters_cmp 4)); [lia|intros; apply c_sse41_load_counters_model|].
  apply load_counters_cmp_ok. cbn. lia.
Qed.
Theorem c_avx2_load_counters_ok : lc_ok 8 (fun c i => Ok (c_avx2_load_counters c i)).
Proof.
  apply (lc_ok_ext 8 _ (load_counters_cmp 8)); [lia|intros; apply c_avx2_load_counters_model|].
  apply load_counters_cmp_ok. cbn. lia.
Qed.
Theorem c_avx512_load_counters4_ok : lc_ok 4 (fun c i => Ok (c_avx512_load_counters4 c i)).
Proof.
  apply (lc_ok_ext 4 _ (load_counters_64 4)); [lia|intros; apply c_avx512_load_counters4_model; assumption|].
  apply load_counters_64_ok.
Qed.
Theorem c_avx512_load_counters8_ok : lc_ok 8 (fun c i => Ok (c_avx512_load_counters8 c i)).
Proof.
  apply (lc_ok_ext 8 _ (load_counters_64 8)); [lia|intros; apply c_avx512_load_counters8_model; assumption|].
  apply load_counters_64_ok.
Qed.
Theorem c_avx512_load_counters16_ok : lc_ok 16 (fun c i => Ok (c_avx512_load_counters16 c i)).
Proof.
  apply (lc_ok_ext 16 _ (load_counters_andnot 16)); [lia|intros; apply c_avx512_load_counters16_model|].
  apply load_counters_andnot_ok. cbn. lia.
Qed.
Theorem rs_sse2_load_counters_ok : lc_ok 4 rs_sse2_load_counters.
Proof.
  apply (lc_ok_ext 4 _ (load_counters_rs 4)); [lia|intros; apply rs_sse2_load_counters_model|].
  apply load_counters_rs_ok.
Qed.
Theorem rs_sse41_load_counters_ok : lc_ok 4 rs_sse41_load_counters.
Proof.
  apply (lc_ok_ext 4 _ (load_counters_rs 4)); [lia|intros; apply rs_sse41_load_counters_model|].
  apply load_counters_rs_ok.
Qed.
Theorem rs_avx2_load_counters_ok : lc_ok 8 rs_avx2_load_counters.
Proof.
  apply (lc_ok_ext 8 _ (load_counters_rs 8)); [lia|intros; apply rs_avx2_load_counters_model|].
  apply load_counters_rs_ok.
Qed.
