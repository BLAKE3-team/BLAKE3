(* C05: rust_sse2.rs emulates _mm_blend_epi16 with (mask & b) | (andnot mask a), mask = cmpeq16(set1(imm) & bits, bits).
   For the two immediates the code uses (0xCC, 0xC0; both select whole 32-bit lanes) and registers whose lanes are
   32-bit words (what an __m128i of four u32 lanes is), the emulation IS the lane selection that Model/Kernels.v uses
   for the SSE4.1 instruction. *)
From Coq Require Import NArith List Bool Arith Lia.
From V Require Import Base.Word Model.Kernels Proofs.ListP Proofs.WordP.
Import ListNotations.
Open Scope N_scope.

Definition lanes32 (v : vec) : Prop := length v = 4%nat /\ Forall (fun w => w < 2 ^ 32) v.

Lemma ln_lt (v : vec) k : lanes32 v -> ln 0 v k < 2 ^ 32.
Proof. intros [_ Hf]. unfold ln. apply nth_Forall; [exact Hf|reflexivity]. Qed.

Lemma blend_lane (m a b : N) (sel : bool) : a < 2 ^ 32 -> b < 2 ^ 32 ->
  m = (if sel then mask32 else 0) ->
  N.lor (N.land m b) (N.land (N.lxor m mask32) a) = if sel then b else a.
Proof.
  intros Ha Hb ->. destruct sel.
  - rewrite land_mask32_id by exact Hb. rewrite N.lxor_nilpotent, N.land_0_l, N.lor_0_r. reflexivity.
  - rewrite N.land_0_l, N.lxor_0_l, land_mask32_id by exact Ha. reflexivity.
Qed.

Theorem blend_sse2_is_lane_select : forall a b imm, (imm = 0xCC \/ imm = 0xC0) -> lanes32 a -> lanes32 b ->
  blend_epi16_sse2 a b imm = blend_epi16 0 a b imm.
Proof.
  intros a b imm Himm Ha Hb. unfold blend_epi16_sse2, blend_epi16.
  apply map_ext_in. intros k Hk.
  apply blend_lane; [apply ln_lt; exact Ha|apply ln_lt; exact Hb|].
  cbn [In] in Hk. destruct Himm as [-> | ->];
    (destruct Hk as [<-|[<-|[<-|[<-|[]]]]]; vm_compute; reflexivity).
Qed.

Lemma blend_lanes32 a b imm : lanes32 a -> lanes32 b -> lanes32 (blend_epi16 0 a b imm).
Proof.
  intros Ha Hb. unfold blend_epi16. split; [reflexivity|].
  repeat constructor; (destruct (N.testbit imm _); apply ln_lt; assumption).
Qed.
