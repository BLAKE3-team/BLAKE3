(* transpose_vecs_128 / 256 / 512 of Model/Kernels.v are transposes, whatever the registers hold. *)
From Coq Require Import NArith List Arith Lia.
From V Require Import Model.Kernels.
Import ListNotations.

Definition tr_spec {A} (d : A) (k : nat) (M : list (list A)) : list (list A) :=
  map (fun j => map (fun row => nth j row d) M) (seq 0 k).

Ltac expl r H :=
  repeat (destruct r as [|? r]; [discriminate H|]); (destruct r; [|discriminate H]).
Ltac expl_rows :=
  repeat match goal with H : Forall _ (_ :: _) |- _ => inversion H; clear H; subst end;
  repeat match goal with H : Forall _ [] |- _ => clear H end;
  repeat match goal with H : length ?r = _ |- _ => is_var r; expl r H; clear H end.

Theorem transpose_vecs_128_ok {A} (d : A) (M : list (list A)) :
  length M = 4%nat -> Forall (fun r => length r = 4%nat) M ->
  transpose_vecs_128 d M = tr_spec d 4 M.
Proof. intros L F. expl M L. expl_rows. reflexivity. Qed.

Theorem transpose_vecs_256_ok {A} (d : A) (M : list (list A)) :
  length M = 8%nat -> Forall (fun r => length r = 8%nat) M ->
  transpose_vecs_256 d M = tr_spec d 8 M.
Proof. intros L F. expl M L. expl_rows. reflexivity. Qed.

Theorem transpose_vecs_512_ok {A} (d : A) (M : list (list A)) :
  length M = 16%nat -> Forall (fun r => length r = 16%nat) M ->
  transpose_vecs_512 d M = tr_spec d 16 M.
Proof. intros L F. expl M L. expl_rows. reflexivity. Qed.

Lemma map_nth_seq {A} (d : A) (l : list A) : map (fun j => nth j l d) (seq 0 (length l)) = l.
Proof.
  induction l as [|x l IH]; [reflexivity|].
  cbn [length seq map nth]. f_equal. rewrite <- seq_shift, map_map. exact IH.
Qed.

