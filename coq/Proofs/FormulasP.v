(* Facts about the integer formulas that tools/gen_coq.py translates from the
   repository's source text (gen/GenFormulas.v).  These obligations look at
   generated text only, so an edit to a formula breaks them directly. *)
From V Require Import Proofs.ListP Proofs.ResP.
From V Require Import Base.Res Base.Word Base.MachInt gen.GenConsts gen.GenFormulas Spec.Tree Proofs.TreeP.
Open Scope N_scope.

Lemma two64 : 2 ^ 64 = 18446744073709551616.
Proof. reflexivity. Qed.

Lemma two54 : 2 ^ 54 = 18014398509481984.
Proof. reflexivity. Qed.

Lemma cast64_small x : x < 2 ^ 64 -> N.land x (N.ones 64) = x.
Proof. apply land_ones_small. Qed.

Lemma pow2_unique e1 e2 n : 2 ^ e1 < n <= 2 ^ (e1 + 1) -> 2 ^ e2 < n <= 2 ^ (e2 + 1) -> e1 = e2.
Proof.
  intros [A1 A2] [B1 B2].
  assert (H1 : 2 ^ e1 < 2 ^ (e2 + 1)) by lia.
  assert (H2 : 2 ^ e2 < 2 ^ (e1 + 1)) by lia.
  apply N.pow_lt_mono_r_iff in H1; [|lia]. apply N.pow_lt_mono_r_iff in H2; [|lia]. lia.
Qed.

Lemma npot_spec m : 1 < m -> exists e, npot m = 2 ^ e /\ 2 ^ e < 2 * m /\ m <= 2 ^ e.
Proof.
  intros H. unfold npot. destruct m as [|pm] eqn:E; [lia|]. rewrite <- E in *.
  exists (N.log2_up m). split; [reflexivity|].
  pose proof (N.log2_up_spec m H) as [H1 H2].
  split; [|exact H2].
  assert (Hpos : 0 < N.log2_up m) by (apply N.log2_up_pos; exact H).
  replace (N.log2_up m) with (N.succ (N.pred (N.log2_up m))) at 1 by lia.
  rewrite N.pow_succ_r'. lia.
Qed.

(* both power-of-two formulas of the source are next_power_of_two(x / 2 + 1) *)
Lemma npot_half x : 1 <= x -> npot (x / 2 + 1) = 2 ^ N.log2 x.
Proof.
  intros Hx. destruct (N.eq_dec x 1) as [->|Hx1]; [reflexivity|].
  pose proof (N.log2_spec x ltac:(lia)) as [L1 L2]. rewrite N.pow_succ_r' in L2.
  destruct (npot_spec (x / 2 + 1) ltac:(lia)) as (e & -> & He1 & He2).
  f_equal. apply (pow2_unique e (N.log2 x) (x + 1)).
  - rewrite (N.add_1_r e), N.pow_succ_r'.
    destruct (N.eq_dec e 0) as [->|He0]; [change (2 ^ 0) with 1 in *; lia|].
    replace e with (N.succ (N.pred e)) in * by lia. rewrite ?N.pow_succ_r' in *. lia.
  - rewrite (N.add_1_r (N.log2 x)), N.pow_succ_r'. lia.
Qed.

Lemma npot_half_fits x : 1 <= x -> x < 2 ^ 64 -> mi_npot 64 (x / 2 + 1) = Ok (2 ^ N.log2 x).
Proof.
  intros H1 H2. unfold mi_npot, fits. rewrite npot_half by exact H1.
  pose proof (N.log2_spec x ltac:(lia)) as [L _].
  replace (2 ^ N.log2 x <? 2 ^ 64) with true by lia. reflexivity.
Qed.

(* largest_power_of_two_leq of src/lib.rs *)
Theorem rs_largest_power_of_two_leq_spec n :
  1 <= n -> n < 2 ^ 64 -> rs_largest_power_of_two_leq n = Ok (2 ^ N.log2 n).
Proof.
  intros Hlo Hhi. unfold rs_largest_power_of_two_leq, mu, mb, mi_div. cbn [bind].
  change (2 =? 0) with false. cbn iota. cbn [bind].
  rewrite add_small by (rewrite two64 in *; lia). cbn [bind]. apply npot_half_fits; assumption.
Qed.

(* hazmat::left_subtree_len, as written in the source, on all of u64 above CHUNK_LEN *)
Theorem rs_left_subtree_len_spec n :
  1024 < n -> n < 2 ^ 64 -> rs_left_subtree_len n = Ok (left_len n).
Proof.
  intros Hlo Hhi. unfold rs_left_subtree_len, mu, mb, mi_div. cbn [bind].
  rewrite sub_small by lia. cbn [bind]. change (2 =? 0) with false. cbn iota. cbn [bind].
  rewrite add_small by (rewrite two64 in *; lia). cbn [bind]. rewrite npot_half_fits by lia.
  (* 2^log2 x = 1024 * 2^log2 (x / 1024) from 1024 on *)
  unfold left_len. change 1024 with (2 ^ 10).
  rewrite <- N.shiftr_div_pow2, N.log2_shiftr, <- N.pow_add_r. do 2 f_equal.
  assert (N.log2 (2 ^ 10) <= N.log2 (n - 1)) by (apply N.log2_le_mono; change (2 ^ 10) with 1024; lia).
  rewrite N.log2_pow2 in H by lia. lia.
Qed.

Lemma rs_right_chunk_counter_spec ctr l :
  l < 2 ^ 64 -> ctr + l / 1024 < 2 ^ 64 -> rs_right_chunk_counter ctr l = Ok (ctr + l / 1024).
Proof.
  intros H1 H2. unfold rs_right_chunk_counter, mu, mb, mi_div. cbn [bind].
  change rs_CHUNK_LEN with 1024. change (1024 =? 0) with false. cbn iota. cbn [bind].
  rewrite cast_small by lia. cbn [bind]. apply add_small, H2.
Qed.

Lemma rs_input_offset_spec c : c * 1024 < 2 ^ 64 -> rs_input_offset c = Ok (c * 1024).
Proof. intros H. unfold rs_input_offset, mb, mu. cbn [bind]. apply mul_small, H. Qed.

Lemma rs_count_so_far_spec c : c * 1024 < 2 ^ 64 -> rs_count_so_far c = Ok (c * 1024).
Proof. exact (rs_input_offset_spec c). Qed.

(* the shrink-loop condition on a power-of-two subtree_len: count_so_far mod subtree_len <> 0 *)
Lemma rs_shrink_cond_spec e q : e < 64 ->
  rs_shrink_cond (2 ^ e) q = Ok (negb (q mod 2 ^ e =? 0)).
Proof.
  intros He. unfold rs_shrink_cond, mcmp, mb, mu, mi_and, nneb. cbn [bind].
  pose proof (pow2_pos e) as Hp. rewrite sub_small by lia. cbn [bind].
  assert (H64 : 2 ^ e < 2 ^ 64) by (apply N.pow_lt_mono_r; lia).
  rewrite cast_small by lia. cbn [bind]. rewrite <- N.pred_sub, <- N.ones_equiv, N.land_comm, N.land_ones. reflexivity.
Qed.

Lemma rs_subtree_chunks_spec s : s < 2 ^ 64 -> rs_subtree_chunks s = Ok (s / 1024).
Proof.
  intros H. unfold rs_subtree_chunks, mu, mb, mi_div. cbn [bind].
  change rs_CHUNK_LEN with 1024. change (1024 =? 0) with false. cbn iota. cbn [bind].
  apply cast_small. rewrite two64 in *. lia.
Qed.

Lemma rs_right_cv_counter_spec ctr sc : ctr + sc / 2 < 2 ^ 64 -> rs_right_cv_counter ctr sc = Ok (ctr + sc / 2).
Proof.
  intros H. unfold rs_right_cv_counter, mb, mi_div. cbn [bind].
  change (2 =? 0) with false. cbn iota. cbn [bind]. apply add_small, H.
Qed.

Lemma rs_count_spec ctr init c : init <= ctr -> (ctr - init) * 1024 + c < 2 ^ 64 ->
  rs_count ctr init c = Ok ((ctr - init) * 1024 + c).
Proof.
  intros Hi H. unfold rs_count, mb, mu. cbn [bind].
  rewrite sub_small by exact Hi. cbn [bind]. change (mi_cast 64 rs_CHUNK_LEN) with (Ok 1024 : res N). cbn [bind].
  rewrite mul_small by lia. cbn [bind]. rewrite cast_small by lia. cbn [bind]. apply add_small, H.
Qed.

Lemma popcount_le x : popcount x <= x.
Proof.
  destruct x as [|q]; [cbn; lia|]. cbn [popcount].
  induction q as [q IH|q IH|]; cbn [popcount_pos]; lia.
Qed.

(* total_chunks - initial_chunk_counter of merge_cv_stack and final_output: C chunks of a subtree that starts at c0 *)
Lemma rs_post_merge_len_spec c0 C : c0 + C < 2 ^ 64 -> rs_post_merge_len (c0 + C) c0 = Ok (popcount C).
Proof.
  intros H. unfold rs_post_merge_len, mu, mb, mi_popcount. cbn [bind].
  rewrite sub_small by lia. cbn [bind]. replace (c0 + C - c0) with C by lia.
  apply cast_small. pose proof (popcount_le C). lia.
Qed.

Lemma tz_pos_spec q : exists odd, N.pos q = 2 ^ tz_pos q * (2 * odd + 1).
Proof.
  induction q as [q IH|q IH|].
  - exists (N.pos q). cbn [tz_pos]. change (2 ^ 0) with 1. lia.
  - destruct IH as [o Ho]. exists o. cbn [tz_pos]. rewrite N.add_1_l, N.pow_succ_r'.
    change (N.pos q~0) with (2 * N.pos q). rewrite Ho. lia.
  - exists 0. reflexivity.
Qed.

Lemma tz_divides W c : 0 < c -> (2 ^ tz W c | c) /\ 2 ^ tz W c <= c.
Proof.
  intros H. destruct c as [|q]; [lia|]. cbn [tz].
  destruct (tz_pos_spec q) as [o Ho]. split.
  - exists (2 * o + 1). rewrite Ho. lia.
  - pose proof (pow2_pos (tz_pos q)). nia.
Qed.

(* hazmat::max_subtree_len, as written in the source *)
Theorem rs_max_subtree_len_spec c : 0 < c -> c < 2 ^ 54 ->
  rs_max_subtree_len (c * 1024) = Ok (Some (1024 * 2 ^ tz 64 c)).
Proof.
  intros Hc Hlt. rewrite two54 in Hlt.
  unfold rs_max_subtree_len. replace (c * 1024 =? 0) with false by lia.
  unfold mb, mu, mi_rem, mi_div, mi_shl, mi_mul, mi_tz, mi_cast, fits. cbn [bind].
  change rs_CHUNK_LEN with 1024. change (N.land 1024 (N.ones 64)) with 1024.
  change (1024 =? 0) with false. cbn iota. cbn [bind].
  replace (c * 1024 mod 1024) with 0 by (rewrite N.mod_mul; lia).
  change (0 =? 0) with true. cbn [check bind].
  rewrite N.div_mul by lia.
  destruct (tz_divides 64 c Hc) as [Hd Hle].
  assert (Ht : tz 64 c < 54).
  { apply (N.pow_lt_mono_r_iff 2); lia. }
  replace (tz 64 c <? 64) with true by lia. cbn [bind].
  rewrite N.shiftl_1_l. rewrite cast64_small by (apply N.pow_lt_mono_r; lia).
  replace (2 ^ tz 64 c * 1024 <? 2 ^ 64) with true by (rewrite two64; lia). cbn [bind].
  f_equal. f_equal. lia.
Qed.

Theorem rs_max_subtree_len_zero : rs_max_subtree_len 0 = Ok None.
Proof. reflexivity. Qed.
