(* What the concrete examples of Props/*.v need in order to follow from the theorems they stand next to
   without evaluating a compression. *)
From V Require Import Proofs.ListP.
From V Require Import Base.Res Spec.Tree Spec.Blake3 Model.CHasher Model.CSpecMachine.
Local Open Scope N_scope.

(* A run succeeds, and what is observed of its result: with `lazy` (and in the kernel) the premise is decided by
   evaluating what the observation f needs and nothing else.  For a specification machine and f = length that is
   the machine's domain checks, never a compression. *)
Lemma option_image {A B} (f : A -> B) (r : option A) b : option_map f r = Some b -> {x | r = Some x /\ f x = b}.
Proof. destruct r as [x|]; [|discriminate]. intros [= H]. exists x. auto. Qed.

Lemma res_image {A B} (f : A -> B) (r : res A) b : (x <- r ;; Ok (f x)) = Ok b -> {x | r = Ok x /\ f x = b}.
Proof. destruct r as [x| |]; [|discriminate..]. intros [= H]. exists x. auto. Qed.

Section CSpecRun.
Variable md : c_mode.

Lemma c_srun_silent o st st' tl :
  c_sstep md st o = Some (st', []) -> c_srun md st (o :: tl) = c_srun md st' tl.
Proof. intros H. cbn [c_srun]. rewrite H. destruct (c_srun _ _ tl); reflexivity. Qed.

Lemma c_srun_update x st b tl : len (ci_bytes x) + len b < 2 ^ 64 ->
  c_srun md (x :: st) (COpUpdate 0 b :: tl) =
  c_srun md (mkCI (ci_bytes x ++ b) (c_trace_update (ci_trace x) b) :: st) tl.
Proof.
  intros H. apply c_srun_silent. cbn [c_sstep nth_error upd_nth].
  rewrite (proj2 (N.ltb_lt _ _) H). reflexivity.
Qed.

Lemma c_root_out_xof bs p n :
  stream spec_c64 (c_root_out md bs) p n = b3_xof_mode (c_spec_mode md) bs p n.
Proof. unfold b3_xof_mode, xof_mode, root_output, c_root_out. reflexivity. Qed.

Lemma c_srun_finalize_seek x st seek n tl : seek + n <= 2 ^ 64 - 1 ->
  c_srun md (x :: st) (COpFinalizeSeek 0 seek n :: tl) =
  option_map (cons (CObXof (b3_xof_mode (c_spec_mode md) (ci_bytes x) seek (N.to_nat n))))
             (c_srun md (x :: st) tl).
Proof.
  intros H. cbn [c_srun c_sstep nth_error]. unfold c_max_position.
  rewrite (proj2 (N.leb_le _ _) H), c_root_out_xof. reflexivity.
Qed.

Lemma c_srun_finalize x st n tl : n <= 2 ^ 64 - 1 ->
  c_srun md (x :: st) (COpFinalize 0 n :: tl) =
  option_map (cons (CObXof (b3_xof_mode (c_spec_mode md) (ci_bytes x) 0 (N.to_nat n))))
             (c_srun md (x :: st) tl).
Proof. exact (c_srun_finalize_seek x st 0 n tl). Qed.
End CSpecRun.

(* C06_history / C06_history_expect of Props/C06.v over any message of 5000 bytes: the message stays a variable,
   only its length is used. *)
Lemma c_history_accepted m : length m = 5000%nat ->
  c_spec_run_case CMHash
    [COpUpdate 0 (take 1 m); COpUpdate 0 (take 1023 (drop 1 m)); COpFinalize 0 32;
     COpUpdate 0 (take 2048 (drop 1024 m)); COpFinalizeSeek 0 63 3; COpUpdate0 0; COpUpdate 0 (drop 3072 m);
     COpFinalizeSeek 0 5 70; COpReset 0; COpUpdate 0 (take 1500 m); COpFinalize 0 32] =
  Some [CObXof (b3_xof_mode Hash (take 1024 m) 0 32); CObXof (b3_xof_mode Hash (take 3072 m) 63 3);
        CObXof (b3_xof_mode Hash m 5 70); CObXof (b3_xof_mode Hash (take 1500 m) 0 32)].
Proof.
  intros L. assert (Hl : len m = 5000) by (unfold len; rewrite L; reflexivity).
  unfold c_spec_run_case.
  rewrite c_srun_update; cbn [ci_bytes ci_trace app].
  rewrite c_srun_update; cbn [ci_bytes ci_trace]. rewrite (take_add 1 1023).
  rewrite c_srun_finalize.
  rewrite c_srun_update; cbn [ci_bytes ci_trace]. rewrite (take_add 1024 2048).
  rewrite c_srun_finalize_seek.
  erewrite (c_srun_silent _ (COpUpdate0 0)) by reflexivity.
  rewrite c_srun_update; cbn [ci_bytes ci_trace]. rewrite take_drop.
  rewrite c_srun_finalize_seek.
  erewrite (c_srun_silent _ (COpReset 0)) by reflexivity. cbn [nth_error upd_nth].
  rewrite c_srun_update; cbn [ci_bytes ci_trace app].
  rewrite c_srun_finalize. reflexivity.
  all: rewrite ?len_nil, ?len_take, ?len_drop, ?Hl; lia.
Qed.

