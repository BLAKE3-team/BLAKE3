(* The portable kernel model (with the repository's own IV and MSG_SCHEDULE, read
   from the source by the translator) computes the specification's compression
   function, for all arguments. *)
From Coq Require Import NArith List Bool Lia.
From V Require Import Base.Res Base.Word Base.MachInt gen.GenConsts gen.GenFormulas
  Spec.Compress Model.Portable Proofs.WordP.
Import ListNotations.
Open Scope N_scope.

Lemma rs_IV_is_spec : rs_IV = IV.
Proof. reflexivity. Qed.

Lemma rs_flags_are_spec :
  rs_flag_CHUNK_START = CHUNK_START /\ rs_flag_CHUNK_END = CHUNK_END /\ rs_flag_PARENT = PARENT /\
  rs_flag_ROOT = ROOT /\ rs_flag_KEYED_HASH = KEYED_HASH /\
  rs_flag_DERIVE_KEY_CONTEXT = DERIVE_KEY_CONTEXT /\ rs_flag_DERIVE_KEY_MATERIAL = DERIVE_KEY_MATERIAL.
Proof. repeat split; reflexivity. Qed.

Lemma rs_lens : rs_OUT_LEN = 32 /\ rs_KEY_LEN = 32 /\ rs_BLOCK_LEN = 64 /\ rs_CHUNK_LEN = 1024 /\ rs_MAX_DEPTH = 54.
Proof. repeat split; reflexivity. Qed.

Fixpoint iter_permute (r : nat) (m : list N) : list N :=
  match r with O => m | S r' => iter_permute r' (permute m) end.

Lemma rs_MSG_SCHEDULE_is_iterated_permutation :
  rs_MSG_SCHEDULE = map (fun r => iter_permute r [0;1;2;3;4;5;6;7;8;9;10;11;12;13;14;15]) (seq 0 7).
Proof. reflexivity. Qed.

Lemma g_is_spec a b c d x y : Portable.g a b c d x y = Compress.g a b c d x y.
Proof. reflexivity. Qed.

Lemma length16_inv {A} (l : list A) : length l = 16%nat ->
  exists a0 a1 a2 a3 a4 a5 a6 a7 a8 a9 a10 a11 a12 a13 a14 a15,
    l = [a0;a1;a2;a3;a4;a5;a6;a7;a8;a9;a10;a11;a12;a13;a14;a15].
Proof.
  intros H.
  do 16 (destruct l as [|? l]; [discriminate|]). destruct l; [|discriminate].
  repeat eexists.
Qed.

Lemma round_is_spec r s m : (r < 7)%nat -> length s = 16%nat -> length m = 16%nat ->
  Portable.round s m r = Compress.round s (iter_permute r m).
Proof.
  intros Hr Hs Hm.
  destruct (length16_inv s Hs) as (s0&s1&s2&s3&s4&s5&s6&s7&s8&s9&s10&s11&s12&s13&s14&s15&->).
  destruct (length16_inv m Hm) as (m0&m1&m2&m3&m4&m5&m6&m7&m8&m9&m10&m11&m12&m13&m14&m15&->).
  do 7 (destruct r as [|r]; [reflexivity|]). lia.
Qed.

Lemma round_len s m r : length (Portable.round s m r) = length s.
Proof.
  unfold Portable.round.
  do 16 (destruct s as [|? s]; [reflexivity|]). destruct s; [|reflexivity].
  repeat match goal with |- context [Portable.g ?a ?b ?c ?d ?x ?y] =>
    destruct (Portable.g a b c d x y) as [[[? ?] ?] ?] end.
  reflexivity.
Qed.

Lemma permute_length m : length (permute m) = 16%nat.
Proof. unfold permute. rewrite map_length. reflexivity. Qed.

Lemma iter_permute_S r m : iter_permute (S r) m = permute (iter_permute r m).
Proof. revert m. induction r as [|r IH]; intros m; [reflexivity|]. cbn [iter_permute] in *. rewrite IH. reflexivity. Qed.

Lemma iter_permute_length r m : length m = 16%nat -> length (iter_permute r m) = 16%nat.
Proof. destruct r; intros H; [exact H|]. rewrite iter_permute_S. apply permute_length. Qed.

Lemma round_length s m : length s = 16%nat -> length m = 16%nat -> length (Compress.round s m) = 16%nat.
Proof.
  intros Hs Hm. change (Compress.round s m) with (Compress.round s (iter_permute 0 m)).
  rewrite <- round_is_spec, round_len by (assumption || lia). exact Hs.
Qed.

Definition rounds7w (s w : list N) : list N :=
  Portable.round (Portable.round (Portable.round (Portable.round (Portable.round (Portable.round
    (Portable.round s w 0) w 1) w 2) w 3) w 4) w 5) w 6.

Lemma rounds7w_length s w : length (rounds7w s w) = length s.
Proof. unfold rounds7w. rewrite !round_len. reflexivity. Qed.

Lemma compress_pre_rounds7w cv block bl ctr fl :
  compress_pre cv block bl ctr fl =
  rounds7w (cv ++ firstn 4 rs_IV ++ [ctr_lo ctr; ctr_hi ctr; bl; fl]) (words_of_bytes block).
Proof. unfold compress_pre, rounds7w. reflexivity. Qed.

Lemma compress_pre_length cv block bl ctr fl : length cv = 8%nat ->
  length (compress_pre cv block bl ctr fl) = 16%nat.
Proof. intros H. rewrite compress_pre_rounds7w, rounds7w_length, !app_length, H. reflexivity. Qed.

Lemma rounds7w_spec s m : length s = 16%nat -> length m = 16%nat -> rounds7w s m = rounds 7 s m.
Proof.
  intros Hs Hm. unfold rounds7w.
  rewrite (round_is_spec 0 s m) by (assumption || lia).
  rewrite (round_is_spec 1 _ m), (round_is_spec 2 _ m), (round_is_spec 3 _ m), (round_is_spec 4 _ m),
    (round_is_spec 5 _ m), (round_is_spec 6 _ m)
    by (try lia; repeat (assumption || apply round_length || apply iter_permute_length)).
  cbn [rounds iter_permute]. reflexivity.
Qed.

Lemma rounds7_length s m : length s = 16%nat -> length m = 16%nat -> length (rounds 7 s m) = 16%nat.
Proof. intros Hs Hm. rewrite <- rounds7w_spec, rounds7w_length by assumption. exact Hs. Qed.

Theorem compress_pre_is_spec cv block bl ctr fl :
  length cv = 8%nat -> length block = 64%nat ->
  let st := compress_pre cv block bl ctr fl in
  xor_pairs (firstn 8 st) (skipn 8 st) ++ xor_pairs (skipn 8 st) cv = compress cv block bl ctr fl.
Proof.
  intros Hcv Hb. cbv zeta. rewrite compress_pre_rounds7w, rounds7w_spec.
  - change (ctr_lo ctr) with (counter_lo ctr). change (ctr_hi ctr) with (counter_hi ctr).
    rewrite rs_IV_is_spec. unfold compress, xor_pairs, xor_lists. reflexivity.
  - rewrite !app_length, Hcv. reflexivity.
  - apply words_of_bytes_length. rewrite Hb. reflexivity.
Qed.

Lemma xor_pairs_length a b : length (xor_pairs a b) = Nat.min (length a) (length b).
Proof. unfold xor_pairs. rewrite map_length, combine_length. reflexivity. Qed.

Theorem compress_in_place_is_spec cv block bl ctr fl :
  length cv = 8%nat -> length block = 64%nat ->
  compress_in_place cv block bl ctr fl = firstn 8 (compress cv block bl ctr fl).
Proof.
  intros Hcv Hb. rewrite <- (compress_pre_is_spec cv block bl ctr fl Hcv Hb). cbv zeta.
  pose proof (compress_pre_length cv block bl ctr fl Hcv) as Hst. unfold compress_in_place.
  set (st := compress_pre cv block bl ctr fl) in *.
  rewrite firstn_app, xor_pairs_length, firstn_length, skipn_length, Hst.
  change (8 - Nat.min (Nat.min 8 16) (16 - 8))%nat with 0%nat. rewrite firstn_O, app_nil_r.
  symmetry. apply firstn_all2. rewrite xor_pairs_length, firstn_length, skipn_length, Hst. reflexivity.
Qed.

Theorem compress_xof_is_spec cv block bl ctr fl :
  length cv = 8%nat -> length block = 64%nat ->
  compress_xof cv block bl ctr fl = bytes_of_words (compress cv block bl ctr fl).
Proof.
  intros Hcv Hb. unfold compress_xof. f_equal. apply compress_pre_is_spec; assumption.
Qed.

Lemma compress_length cv block bl ctr fl :
  length cv = 8%nat -> length block = 64%nat -> length (compress cv block bl ctr fl) = 16%nat.
Proof.
  intros Hcv Hb. rewrite <- (compress_pre_is_spec cv block bl ctr fl Hcv Hb). cbv zeta.
  rewrite app_length, !xor_pairs_length, firstn_length, skipn_length, compress_pre_length, Hcv by exact Hcv.
  reflexivity.
Qed.

Lemma compress_in_place_length cv block bl ctr fl : length cv = 8%nat ->
  length (compress_in_place cv block bl ctr fl) = 8%nat.
Proof.
  intros H. unfold compress_in_place. cbv zeta. rewrite compress_pre_rounds7w.
  rewrite xor_pairs_length, firstn_length, skipn_length, rounds7w_length, !app_length, H. reflexivity.
Qed.

Lemma hash1_go_length : forall fuel cv input ctr fl bf fe, length cv = 8%nat ->
  length (hash1_go fuel cv input ctr fl bf fe) = 8%nat.
Proof.
  induction fuel as [|fuel IH]; intros cv input ctr fl bf fe L; [exact L|].
  cbn [hash1_go]. destruct (_ <? _); [exact L|]. apply IH, compress_in_place_length, L.
Qed.
