(* The reference implementation as TRANSLATED from the source text (gen/GenRefImpl.v: fn g, round, permute,
   compress, first_8_words, words_from_little_endian_bytes, Output::chaining_value, ChunkState::len / start_flag,
   parent_output, parent_cv of reference_impl/reference_impl.rs, statement by statement) equals the hand-written
   model Model/RefImpl.v, for all arguments.  Array lengths (the declared types) are the only hypotheses on arrays;
   u8 fields are below 256.  Nothing is evaluated on particular inputs.
   The model's `Ok` results (its no-panic claims: the index m[MSG_PERMUTATION[i]], the debug_assert of
   words_from_little_endian_bytes) are part of the statements. *)
From Coq Require Import NArith List Bool Lia Arith.
From V Require Import Proofs.ListP.
From V Require Import Base.Res Base.Word Base.MachInt Base.Arr gen.GenConsts gen.GenRefImpl
  Spec.Compress Model.RefImpl Proofs.WordP Proofs.PortableP Proofs.FormulasP Proofs.RefCompressP.
Import ListNotations.
Open Scope N_scope.

Lemma upd_arr_set (l : list N) i v : upd l i v = arr_set l i v.
Proof.
  revert i. induction l as [|h tl IH]; intros [|i]; cbn [upd arr_set]; try reflexivity.
  rewrite IH. reflexivity.
Qed.

Lemma idx_arr_get l i : idx l i = arr_get l i.
Proof. reflexivity. Qed.

Lemma fold_left_ext {A B} (f g : A -> B -> A) (l : list B) :
  (forall a b, f a b = g a b) -> forall a, fold_left f l a = fold_left g l a.
Proof.
  intros H. induction l as [|x l IH]; intros a; cbn [fold_left]; [reflexivity|].
  rewrite H. apply IH.
Qed.

Lemma fold_left_inv {A B} (P : A -> Prop) (f : A -> B -> A) (l : list B) :
  (forall a b, P a -> P (f a b)) -> forall a, P a -> P (fold_left f l a).
Proof. intros H. induction l as [|x l IH]; intros a Ha; [exact Ha|]. apply IH, H, Ha. Qed.

Lemma Ok_inj {A} (a b : A) : Ok a = Ok b -> a = b.
Proof. intros H. injection H. auto. Qed.

(* a `let` on each side of an equation: compare the bound values, continue under the binder.  `apply let_congr`
   alone makes the unifier expand the lets to find f; expanding them makes the term exponentially large. *)
Ltac let_step :=
  lazymatch goal with
  | |- (let x := ?a in @?f x) = (let y := ?a' in @?f' y) => apply (let_congr (fun _ => True) a a' f f'); [|exact I|intros ? _; cbv beta]
  end.

Lemma refsrc_g_eq s a b c d mx my : refsrc_g s a b c d mx my = ref_g s a b c d mx my.
Proof.
  cbv beta delta [refsrc_g ref_g].
  do 8 (let_step; [symmetry; apply upd_arr_set|]). reflexivity.
Qed.

Lemma refsrc_round_eq s m : refsrc_round s m = ref_round s m.
Proof.
  unfold refsrc_round, ref_round. cbv zeta. rewrite !refsrc_g_eq. reflexivity.
Qed.

Lemma refsrc_permute_eq m : length m = 16%nat -> ref_permute m = Ok (refsrc_permute m).
Proof. intros H. destruct_list m 16. reflexivity. Qed.

Lemma refsrc_permute_length m : length (refsrc_permute m) = 16%nat.
Proof. reflexivity. Qed.

Lemma refsrc_permute_is_spec m : length m = 16%nat -> refsrc_permute m = Compress.permute m.
Proof. intros H. destruct_list m 16. reflexivity. Qed.

Lemma refsrc_compress_eq cv bw ctr bl fl : length cv = 8%nat -> length bw = 16%nat ->
  ref_compress cv bw ctr bl fl = Ok (refsrc_compress cv bw ctr bl fl).
Proof.
  intros Hcv Hbw. unfold ref_compress. cbv zeta.
  rewrite (refsrc_permute_eq bw) by assumption. cbn [bind].
  do 5 (rewrite refsrc_permute_eq by apply refsrc_permute_length; cbn [bind]).
  apply (f_equal (@Ok (list N))). unfold refsrc_compress, ref_feed_forward. cbv zeta. rewrite !refsrc_round_eq.
  etransitivity; [apply fold_left_ext; intros st i; cbv zeta; rewrite 2 upd_arr_set; reflexivity|].
  (* the sequence of round / permute steps is compared with round and permute abstracted: a source whose steps
     differ from the model's fails at once instead of sending the unifier into the round function *)
  generalize ref_round, refsrc_permute. intros R P. reflexivity.
Qed.

Lemma refsrc_compress_length cv bw ctr bl fl : length (refsrc_compress cv bw ctr bl fl) = 16%nat.
Proof.
  unfold refsrc_compress. cbv zeta. apply (fold_left_inv (fun st => length st = 16%nat)).
  - intros st i H. rewrite !arr_set_length. exact H.
  - rewrite !refsrc_round_eq. repeat apply ref_round_length. reflexivity.
Qed.

Lemma refsrc_compress_is_spec cv block ctr bl fl : length cv = 8%nat -> length block = 64%nat ->
  refsrc_compress cv (words_of_bytes block) ctr bl fl = compress cv block bl ctr fl.
Proof.
  intros Hcv Hb.
  assert (Hw : length (words_of_bytes block) = 16%nat) by (apply words_of_bytes_length; rewrite Hb; reflexivity).
  apply Ok_inj. rewrite <- refsrc_compress_eq by assumption.
  apply ref_compress_words_is_spec; [exact Hcv|exact Hw|reflexivity].
Qed.

Lemma refsrc_first_8_words_eq w : refsrc_first_8_words w = ref_first_8_words w.
Proof. reflexivity. Qed.

Lemma fold_set_spec (v : nat -> N) n : forall w, (n <= length w)%nat ->
  length (fold_left (fun (w : list N) (i : nat) => arr_set w i (v i)) (seq 0 n) w) = length w /\
  forall i, arr_get (fold_left (fun (w : list N) (i : nat) => arr_set w i (v i)) (seq 0 n) w) i =
            if (i <? n)%nat then v i else arr_get w i.
Proof.
  induction n as [|n IH]; intros w H.
  - split; [reflexivity|]. intros i. reflexivity.
  - rewrite seq_S, fold_left_app. cbn [fold_left plus].
    destruct (IH w ltac:(lia)) as [L G]. split.
    + rewrite arr_set_length. exact L.
    + intros i. rewrite arr_get_set by lia. rewrite G.
      destruct (Nat.eqb_spec i n) as [->|Hne].
      * rewrite (proj2 (Nat.ltb_lt n (S n))) by lia. reflexivity.
      * destruct (Nat.ltb_spec i n), (Nat.ltb_spec i (S n)); try lia; reflexivity.
Qed.

Lemma words_of_bytes_get : forall i bytes, (4 * i + 4 <= length bytes)%nat ->
  arr_get (words_of_bytes bytes) i = le_load32 (arr_slice bytes (4 * i) 4).
Proof.
  induction i as [|i IH]; intros bytes H;
    destruct bytes as [|b0 [|b1 [|b2 [|b3 tl]]]]; cbn [length] in H; try lia.
  - reflexivity.
  - replace (4 * S i)%nat with (S (S (S (S (4 * i))))) by lia.
    change (arr_get (words_of_bytes tl) i = le_load32 (arr_slice tl (4 * i) 4)).
    apply IH. lia.
Qed.

Lemma refsrc_words_from_le_bytes_eq bytes words : length bytes = (4 * length words)%nat ->
  refsrc_words_from_little_endian_bytes bytes words = words_of_bytes bytes.
Proof.
  intros H. unfold refsrc_words_from_little_endian_bytes. cbv zeta.
  replace (Nat.min (Nat.div (length bytes) 4) (length words)) with (length words).
  2:{ rewrite H, Nat.mul_comm, Nat.div_mul by lia. lia. }
  destruct (fold_set_spec (fun i => le_load32 (arr_slice bytes (4 * i) 4)) (length words) words (le_n _)) as [L G].
  apply arr_ext.
  - rewrite L. symmetry. apply (words_of_bytes_length (length words)). exact H.
  - intros i Hi. rewrite L in Hi. rewrite G. rewrite (proj2 (Nat.ltb_lt _ _) Hi).
    symmetry. apply words_of_bytes_get. lia.
Qed.

(* the model takes `words` as its length; its assert 1600 is the translated debug_assert_eq! *)
Lemma refsrc_words_from_le_bytes_model bytes words :
  ref_words_from_le_bytes bytes (length words) =
  if refsrc_words_from_little_endian_bytes_debug_assert bytes words
  then Ok (refsrc_words_from_little_endian_bytes bytes words) else Panic 1600.
Proof.
  unfold refsrc_words_from_little_endian_bytes_debug_assert.
  destruct (Nat.eqb_spec (length bytes) (4 * length words)) as [E|E].
  - rewrite (ref_words_from_le_bytes_ok bytes (length words) E).
    rewrite (refsrc_words_from_le_bytes_eq bytes words E). reflexivity.
  - unfold ref_words_from_le_bytes, rlen.
    destruct (N.eqb_spec (N.of_nat (length bytes)) (4 * N.of_nat (length words))) as [E'|E']; [lia|].
    reflexivity.
Qed.

Local Opaque refsrc_compress ref_compress.

Definition ro_of_src (o : refsrc_Output) : ref_output :=
  mkRO (refsrc_Output_input_chaining_value o) (refsrc_Output_block_words o) (refsrc_Output_counter o)
       (refsrc_Output_block_len o) (refsrc_Output_flags o).

Definition rcs_of_src (c : refsrc_ChunkState) : ref_chunk_state :=
  mkRCS (refsrc_ChunkState_chaining_value c) (refsrc_ChunkState_chunk_counter c) (refsrc_ChunkState_block c)
        (refsrc_ChunkState_block_len c) (refsrc_ChunkState_blocks_compressed c) (refsrc_ChunkState_flags c).

Lemma refsrc_Output_chaining_value_eq o :
  length (refsrc_Output_input_chaining_value o) = 8%nat -> length (refsrc_Output_block_words o) = 16%nat ->
  ro_chaining_value (ro_of_src o) = Ok (refsrc_Output_chaining_value o).
Proof.
  intros H1 H2. unfold ro_chaining_value, ro_of_src.
  cbn [ro_input_chaining_value ro_block_words ro_counter ro_block_len ro_flags].
  rewrite (refsrc_compress_eq _ _ _ _ _ H1 H2). cbn [bind].
  unfold refsrc_Output_chaining_value. cbv zeta. reflexivity.
Qed.

Lemma refsrc_ChunkState_len_eq c :
  refsrc_ChunkState_blocks_compressed c < 256 -> refsrc_ChunkState_block_len c < 256 ->
  refsrc_ChunkState_len c = Ok (rcs_len (rcs_of_src c)).
Proof.
  intros H1 H2. unfold refsrc_ChunkState_len, rcs_len, rcs_of_src.
  cbn [rcs_blocks_compressed rcs_block_len]. cbv zeta.
  set (bc := refsrc_ChunkState_blocks_compressed c) in *. set (bl := refsrc_ChunkState_block_len c) in *.
  change ref_BLOCK_LEN with 64.
  pose proof two64 as T.
  unfold mu, mb, mi_cast, mi_mul, mi_add, fits. cbn [bind].
  rewrite !cast64_small by lia.
  replace (64 * bc <? 2 ^ 64) with true by (symmetry; apply N.ltb_lt; lia). cbn [bind].
  replace (64 * bc + bl <? 2 ^ 64) with true by (symmetry; apply N.ltb_lt; lia). reflexivity.
Qed.

Lemma refsrc_ChunkState_start_flag_eq c :
  refsrc_ChunkState_start_flag c = Ok (rcs_start_flag (rcs_of_src c)).
Proof.
  unfold refsrc_ChunkState_start_flag, rcs_start_flag, rcs_of_src, mcmp.
  cbn [rcs_blocks_compressed bind]. destruct (refsrc_ChunkState_blocks_compressed c =? 0); reflexivity.
Qed.

Lemma refsrc_parent_output_eq l r k fl : length l = 8%nat -> length r = 8%nat ->
  ro_of_src (refsrc_parent_output l r k fl) = ref_parent_output l r k fl.
Proof. intros Hl Hr. destruct_list l 8. destruct_list r 8. reflexivity. Qed.

Lemma refsrc_parent_cv_eq l r k fl : length l = 8%nat -> length r = 8%nat -> length k = 8%nat ->
  ref_parent_cv l r k fl = Ok (refsrc_parent_cv l r k fl).
Proof.
  intros Hl Hr Hk. unfold ref_parent_cv, refsrc_parent_cv.
  rewrite <- (refsrc_parent_output_eq l r k fl Hl Hr).
  apply refsrc_Output_chaining_value_eq.
  - exact Hk.
  - destruct_list l 8. destruct_list r 8. reflexivity.
Qed.
