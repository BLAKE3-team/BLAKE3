(* The small, loop-free functions of c/blake3.c as TRANSLATED statement by statement from the
   source text (gen/GenCHasherSmall.v: struct declarations -> records, field stores -> record
   updates, memcpy / memset -> arr_store, calls in source order with the source's arguments)
   equal the hand-written definitions of Model/CHasher.v, for all arguments.

   The hypotheses are the array lengths the C declarations promise (uint32_t cv[8],
   uint8_t buf[64], uint8_t key[32], ...) and `input_len = length of the input`; nothing is
   tested on particular inputs.

   Representation.  cs_of_src / output_of_src / hasher_of_src read a translated record field by
   field (by NAME) into the model's record; blake3_hasher.cv_stack is not interpreted by the
   translation (type parameter S), here S := list (list N), the model's slots.  The functions the
   translation leaves as parameters (named ext_...) are instantiated with the model's own loops:
     blake3_compress_in_place     p_compress_in_place p
     blake3_hasher_update_base    m_update_base p     (c_hasher_update; use_tbb = true is not modelled)
     blake3_hasher_finalize_seek  m_finalize_seek p   (c_hasher_finalize_seek, bytes stored at out[0..))
     strlen                       m_strlen            (c_strlen_prefix) *)
From V Require Import Proofs.ListP.
From V Require Import Base.Res Base.Word Base.MachInt Base.Arr gen.GenConsts gen.GenFormulas
  gen.GenCHasherSmall Spec.Tree Model.Platform Model.RsChunk Model.CHasher Proofs.ResP Proofs.WordP.
Import ListNotations.
Open Scope N_scope.

(* ResP.res_map under a name of this file: see Proofs/GenLibLoopsP.v, at res_map *)
Definition res_map {A B} (f : A -> B) (r : res A) : res B :=
  match r with Ok a => Ok (f a) | Panic c => Panic c | OutOfFuel => OutOfFuel end.

Definition cs_of_src (s : src_blake3_chunk_state) : chunk_state :=
  mkCS (blake3_chunk_state_cv s) (blake3_chunk_state_chunk_counter s) (blake3_chunk_state_buf s)
       (blake3_chunk_state_buf_len s) (blake3_chunk_state_blocks_compressed s) (blake3_chunk_state_flags s).

Definition src_of_cs (c : chunk_state) : src_blake3_chunk_state :=
  mk_blake3_chunk_state (cs_cv c) (cs_ctr c) (cs_buf c) (cs_buf_len c) (cs_blocks c) (cs_flags c).

Definition output_of_src (o : src_output_t) : output :=
  mkOutput (output_t_input_cv o) (output_t_block o) (output_t_block_len o) (output_t_counter o) (output_t_flags o).

Definition src_hasher : Type := src_blake3_hasher (list (list N)).

Definition hasher_of_src (h : src_hasher) : c_hasher :=
  mkCH (blake3_hasher_key h) (cs_of_src (blake3_hasher_chunk h)) (blake3_hasher_cv_stack_len h)
       (blake3_hasher_cv_stack h).

Definition src_of_hasher (h : c_hasher) : src_hasher :=
  mk_blake3_hasher (ch_key h) (src_of_cs (ch_chunk h)) (ch_stack_len h) (ch_stack h).

Lemma cs_of_src_of_cs c : cs_of_src (src_of_cs c) = c.
Proof. destruct c; reflexivity. Qed.
Lemma src_of_cs_of_src s : src_of_cs (cs_of_src s) = s.
Proof. destruct s; reflexivity. Qed.
Lemma hasher_of_src_of_hasher h : hasher_of_src (src_of_hasher h) = h.
Proof. destruct h as [k c l st]; destruct c; reflexivity. Qed.
Lemma src_of_hasher_of_src h : src_of_hasher (hasher_of_src h) = h.
Proof. destruct h as [k c l st]; destruct c; reflexivity. Qed.

Definition cs_shape (s : src_blake3_chunk_state) : Prop :=
  length (blake3_chunk_state_cv s) = 8%nat /\ length (blake3_chunk_state_buf s) = 64%nat.

Definition hasher_shape {S} (h : src_blake3_hasher S) : Prop :=
  length (blake3_hasher_key h) = 8%nat /\ cs_shape (blake3_hasher_chunk h).

Lemma memcpy_whole (dst src : list N) n : length dst = n -> length src = n -> arr_store dst 0 (firstn n src) = src.
Proof.
  intros Hd Hs. rewrite <- Hs at 1. rewrite firstn_all. apply arr_store_whole. congruence.
Qed.

Lemma memset_whole (dst : list N) v n : length dst = n -> arr_store dst 0 (repeat v n) = repeat v n.
Proof. intros H. apply arr_store_whole. rewrite repeat_length. congruence. Qed.

Lemma src_load_key_words_eq key key_words : length key = 32%nat -> length key_words = 8%nat ->
  src_load_key_words key key_words = words_of_bytes key.
Proof. intros Hk Hw. destruct_list key 32. destruct_list key_words 8. reflexivity. Qed.

Lemma src_store_cv_words_eq bytes_out cv_words : length bytes_out = 32%nat -> length cv_words = 8%nat ->
  src_store_cv_words bytes_out cv_words = bytes_of_words cv_words.
Proof. intros Hb Hw. destruct_list bytes_out 32. destruct_list cv_words 8. reflexivity. Qed.

Lemma src_chunk_state_init_eq self key flags : cs_shape self -> length key = 8%nat ->
  cs_of_src (src_chunk_state_init self key flags) = c_cs_init key flags.
Proof.
  intros [Hcv Hbuf] Hk. destruct self as [cv ctr buf bl blocks fl]. cbn in Hcv, Hbuf.
  unfold src_chunk_state_init, cs_of_src, c_cs_init, c_zero_block. cbn -[arr_store firstn repeat].
  rewrite (memcpy_whole cv key 8 Hcv Hk), (memset_whole buf 0 64 Hbuf). reflexivity.
Qed.

Lemma src_chunk_state_reset_eq self key chunk_counter : cs_shape self -> length key = 8%nat ->
  cs_of_src (src_chunk_state_reset self key chunk_counter) = c_cs_reset (cs_of_src self) key chunk_counter.
Proof.
  intros [Hcv Hbuf] Hk. destruct self as [cv ctr buf bl blocks fl]. cbn in Hcv, Hbuf.
  unfold src_chunk_state_reset, cs_of_src, c_cs_reset, c_zero_block. cbn -[arr_store firstn repeat].
  rewrite (memcpy_whole cv key 8 Hcv Hk), (memset_whole buf 0 64 Hbuf). reflexivity.
Qed.

Lemma src_chunk_state_maybe_start_flag_eq self :
  src_chunk_state_maybe_start_flag self = c_cs_start_flag (cs_of_src self).
Proof. reflexivity. Qed.

Lemma src_chunk_state_fill_buf_eq self input input_len :
  length (blake3_chunk_state_buf self) = 64%nat -> input_len = nlen input ->
  res_map (fun r => (cs_of_src (fst r), snd r)) (src_chunk_state_fill_buf self input input_len)
  = c_cs_fill_buf (cs_of_src self) input.
Proof.
  intros Hbuf ->. destruct self as [cv ctr buf bl blocks fl]. cbn in Hbuf.
  unfold src_chunk_state_fill_buf, c_cs_fill_buf, cs_of_src. cbn -[arr_store firstn skipn N.min N.to_nat mi_sub mi_add mi_cast N.ltb N.leb].
  unfold mi_sub. change c_BLOCK_LEN with 64. destruct (bl <=? 64) eqn:Ebl; cbn [bind res_map]; [|reflexivity].
  apply N.leb_le in Ebl.
  replace (if nlen input <? 64 - bl then nlen input else 64 - bl) with (N.min (64 - bl) (nlen input))
    by (destruct (nlen input <? 64 - bl) eqn:E;
        [apply N.ltb_lt in E; rewrite N.min_r; [reflexivity|apply N.lt_le_incl; exact E]
        |apply N.ltb_ge in E; rewrite N.min_l; [reflexivity|exact E]]).
  set (take := N.min (64 - bl) (nlen input)).
  assert (Ht : take <= 64 - bl) by apply N.le_min_l.
  assert (Hti : take <= nlen input) by apply N.le_min_r.
  clearbody take.
  unfold nlen in *. rewrite Hbuf.
  replace (bl + take <=? N.of_nat 64) with true by (symmetry; apply N.leb_le; lia).
  cbn [check bind]. unfold mi_cast. cbn [bind].
  rewrite (land_ones_small take 8) by (change (2 ^ 8) with 256; lia).
  destruct (mi_add 8 bl take) as [bl'| |]; cbn [bind res_map fst snd]; try reflexivity.
  unfold arr_store. rewrite firstn_length, N2Nat.inj_add.
  replace (Init.Nat.min (N.to_nat take) (length input)) with (N.to_nat take) by lia. reflexivity.
Qed.

Lemma src_make_output_eq input_cv block block_len counter flags :
  length input_cv = 8%nat -> length block = 64%nat ->
  output_of_src (src_make_output input_cv block block_len counter flags)
  = mkOutput input_cv block block_len counter flags.
Proof.
  intros Hcv Hb. unfold src_make_output, output_of_src, uninit_output_t. cbn -[arr_store firstn repeat].
  rewrite (memcpy_whole (repeat 0 8%nat) input_cv 8 eq_refl Hcv),
          (memcpy_whole (repeat 0 64%nat) block 64 eq_refl Hb). reflexivity.
Qed.

Lemma src_chunk_state_output_eq self : cs_shape self ->
  output_of_src (src_chunk_state_output self) = c_cs_output (cs_of_src self).
Proof.
  intros [Hcv Hbuf]. unfold src_chunk_state_output. cbv zeta.
  rewrite (src_make_output_eq _ _ _ _ _ Hcv Hbuf). reflexivity.
Qed.

Lemma src_parent_output_eq block key flags : length block = 64%nat -> length key = 8%nat ->
  output_of_src (src_parent_output block key flags) = c_parent_output block key flags.
Proof. intros Hb Hk. unfold src_parent_output. rewrite (src_make_output_eq _ _ _ _ _ Hk Hb). reflexivity. Qed.

Lemma src_output_chaining_value_gen (k : list N -> list N -> N -> N -> N -> list N) self cv :
  length (output_t_input_cv self) = 8%nat -> length cv = 32%nat ->
  length (k (output_t_input_cv self) (output_t_block self) (output_t_block_len self) (output_t_counter self)
            (output_t_flags self)) = 8%nat ->
  src_output_chaining_value k self cv
  = bytes_of_words (k (output_t_input_cv self) (output_t_block self) (output_t_block_len self)
                      (output_t_counter self) (output_t_flags self)).
Proof.
  intros Hcv Hout Hk. unfold src_output_chaining_value. cbv zeta.
  rewrite (memcpy_whole (repeat 0 8%nat) _ 8 eq_refl Hcv). apply src_store_cv_words_eq; assumption.
Qed.

Lemma src_output_chaining_value_eq p self cv :
  length (output_t_input_cv self) = 8%nat -> length cv = 32%nat ->
  length (p_compress_in_place p (output_t_input_cv self) (output_t_block self) (output_t_block_len self)
            (output_t_counter self) (output_t_flags self)) = 8%nat ->
  src_output_chaining_value (p_compress_in_place p) self cv = c_output_chaining_value p (output_of_src self).
Proof. intros H1 H2 H3. rewrite src_output_chaining_value_gen by assumption. reflexivity. Qed.

Lemma src_hasher_init_base_eq (self : src_hasher) key flags : hasher_shape self -> length key = 8%nat ->
  hasher_of_src (src_hasher_init_base self key flags) = c_hasher_init_base (blake3_hasher_cv_stack self) key flags.
Proof.
  intros [Hk Hcs] Hkey. destruct self as [k cs l st]. cbn in Hk, Hcs.
  unfold src_hasher_init_base, hasher_of_src, c_hasher_init_base. cbn -[arr_store firstn src_chunk_state_init].
  rewrite (memcpy_whole k key 8 Hk Hkey), (src_chunk_state_init_eq cs key flags Hcs Hkey). reflexivity.
Qed.

Lemma c_IV_length : length c_IV = 8%nat.
Proof. reflexivity. Qed.

Lemma src_blake3_hasher_init_eq (self : src_hasher) : hasher_shape self ->
  hasher_of_src (src_blake3_hasher_init self) = c_hasher_init (blake3_hasher_cv_stack self).
Proof. intros H. unfold src_blake3_hasher_init. cbv zeta. apply src_hasher_init_base_eq; [exact H|exact c_IV_length]. Qed.

Lemma src_blake3_hasher_init_keyed_eq (self : src_hasher) key : hasher_shape self -> length key = 32%nat ->
  Ok (hasher_of_src (src_blake3_hasher_init_keyed self key)) = c_hasher_init_keyed (blake3_hasher_cv_stack self) key.
Proof.
  intros H Hk. unfold src_blake3_hasher_init_keyed, c_hasher_init_keyed. cbv zeta.
  rewrite (src_load_key_words_eq key (repeat 0 8%nat) Hk eq_refl).
  rewrite (src_hasher_init_base_eq self _ _ H (words_of_bytes_length 8 key Hk)).
  unfold nlen. rewrite Hk. change (c_KEY_LEN <=? N.of_nat 32) with true. cbn [check bind].
  change (N.to_nat c_KEY_LEN) with 32%nat. rewrite <- Hk, firstn_all. reflexivity.
Qed.

Lemma src_blake3_hasher_reset_eq (self : src_hasher) : hasher_shape self ->
  hasher_of_src (src_blake3_hasher_reset self) = c_hasher_reset (hasher_of_src self).
Proof.
  intros [Hk Hcs]. destruct self as [k cs l st]. cbn in Hk, Hcs.
  unfold src_blake3_hasher_reset, hasher_of_src, c_hasher_reset. cbn -[src_chunk_state_reset].
  rewrite (src_chunk_state_reset_eq cs k 0 Hcs Hk). reflexivity.
Qed.

(* blake3_hasher_update_base(self, input, input_len, use_tbb): the model is the use_tbb = false arm; the other arm is
   not modelled and answers Panic 0, a code that no site of Model/CHasher.v or of the translation has *)
Definition m_update_base (p : platform) (self : src_hasher) (input : list N) (input_len : N) (use_tbb : bool)
  : res src_hasher :=
  if use_tbb then Panic 0
  else res_map src_of_hasher (c_hasher_update p (hasher_of_src self) (firstn (N.to_nat input_len) input)).

Definition m_finalize_seek (p : platform) (self : src_hasher) (seek : N) (out : list N) (out_len : N) : res (list N) :=
  res_map (fun bs => arr_store out 0 bs) (c_hasher_finalize_seek p (hasher_of_src self) seek out_len).

Definition m_strlen (s : list N) : res N := res_map nlen (c_strlen_prefix s).

Lemma firstn_nlen (l : list N) : firstn (N.to_nat (nlen l)) l = l.
Proof. unfold nlen. rewrite Nat2N.id. apply firstn_all. Qed.

Lemma src_blake3_hasher_update_eq p (self : src_hasher) input input_len : input_len = nlen input ->
  res_map hasher_of_src (src_blake3_hasher_update (m_update_base p) self input input_len)
  = c_hasher_update p (hasher_of_src self) input.
Proof.
  intros ->. unfold src_blake3_hasher_update, m_update_base. cbv zeta. rewrite firstn_nlen.
  destruct (c_hasher_update p (hasher_of_src self) input) as [h| |]; cbn [res_map bind]; try reflexivity.
  rewrite hasher_of_src_of_hasher. reflexivity.
Qed.

Lemma src_blake3_hasher_finalize_eq p (self : src_hasher) out out_len :
  src_blake3_hasher_finalize (m_finalize_seek p) self out out_len
  = res_map (fun bs => arr_store out 0 bs) (c_hasher_finalize p (hasher_of_src self) out_len).
Proof.
  unfold src_blake3_hasher_finalize, m_finalize_seek, c_hasher_finalize.
  destruct (c_hasher_finalize_seek p (hasher_of_src self) 0 out_len); reflexivity.
Qed.

Lemma nlen_app (a b : list N) : nlen (a ++ b) = nlen a + nlen b.
Proof. unfold nlen. rewrite app_length. lia. Qed.

Lemma nlen_firstn_le (l : list N) k : k <= nlen l -> nlen (firstn (N.to_nat k) l) = k.
Proof. unfold nlen. intros H. rewrite firstn_length. lia. Qed.

Lemma c_output_root_bytes_length p o seek n bs : c_output_root_bytes p o seek n = Ok bs -> nlen bs = n.
Proof.
  unfold c_output_root_bytes. intros H.
  destruct (n =? 0) eqn:En; [apply N.eqb_eq in En; inversion H; subst; reflexivity|].
  inv_bind H counter Ec. inv_bind H offset Eo. inv_bind H r Er. destruct r as [[head ol] ctr].
  assert (Hhead : nlen head + ol = n).
  { destruct (negb (offset =? 0)).
    - inv_bind Er available Ea. inv_check Er Echk. inv_bind Er ol' Es. inv_bind Er ctr' Ect.
      inversion Er; subst. apply mi_sub_Ok in Es. destruct Es as [-> Hle]. apply N.leb_le in Echk.
      rewrite nlen_firstn_le; [lia|]. unfold nlen in *. rewrite skipn_length. lia.
    - inversion Er; subst. reflexivity. }
  clear Er.
  inv_bind H blocks Eb. inv_bind H mid Em. inv_bind H ctr2 Ec2. inv_bind H whole Ew. inv_check H Emid.
  inv_bind H ol2 Es2. apply N.eqb_eq in Emid. apply mi_sub_Ok in Es2. destruct Es2 as [-> Hle].
  destruct (ol - whole =? 0) eqn:Ez; cbn [negb] in H.
  - apply N.eqb_eq in Ez. inversion H; subst. rewrite nlen_app. lia.
  - inv_check H Echk. apply N.leb_le in Echk. inversion H; subst.
    rewrite !nlen_app, nlen_firstn_le by exact Echk. lia.
Qed.

Lemma c_hasher_finalize_seek_length p h seek n bs : c_hasher_finalize_seek p h seek n = Ok bs -> nlen bs = n.
Proof.
  unfold c_hasher_finalize_seek. intros H.
  destruct (n =? 0) eqn:En; [apply N.eqb_eq in En; inversion H; subst; reflexivity|].
  inv_bind H o Eo. exact (c_output_root_bytes_length _ _ _ _ _ H).
Qed.

(* `u` is what the stack slot of the local `blake3_hasher context_hasher;` holds before it is initialised; the model
   (c_hasher_init_derive_key_raw) fixes its cv_stack to c_local_stack, so that is what is assumed of u here. *)
Lemma src_blake3_hasher_init_derive_key_raw_gen p (self u : src_hasher) context context_len :
  hasher_shape self -> hasher_shape u -> blake3_hasher_cv_stack u = c_local_stack ->
  res_map hasher_of_src
    (src_blake3_hasher_init_derive_key_raw (m_update_base p) (m_finalize_seek p) self context context_len u)
  = c_hasher_init_derive_key_raw p (blake3_hasher_cv_stack self) (firstn (N.to_nat context_len) context).
Proof.
  intros Hs Hu Hst. unfold src_blake3_hasher_init_derive_key_raw, c_hasher_init_derive_key_raw. cbv zeta.
  unfold src_blake3_hasher_update, m_update_base. cbv zeta.
  rewrite (src_hasher_init_base_eq u c_IV c_flag_DERIVE_KEY_CONTEXT Hu c_IV_length), Hst.
  destruct (c_hasher_update p (c_hasher_init_base c_local_stack c_IV c_flag_DERIVE_KEY_CONTEXT)
              (firstn (N.to_nat context_len) context)) as [h| |]; cbn [res_map bind]; try reflexivity.
  rewrite src_blake3_hasher_finalize_eq, hasher_of_src_of_hasher.
  destruct (c_hasher_finalize p h c_KEY_LEN) as [bs| |] eqn:Ef; cbn [res_map bind]; try reflexivity.
  assert (Hl : length bs = 32%nat).
  { apply c_hasher_finalize_seek_length in Ef. unfold nlen in Ef. change c_KEY_LEN with 32 in Ef. lia. }
  rewrite (arr_store_whole (repeat 0 32%nat) bs) by (rewrite repeat_length; exact Hl).
  rewrite (src_load_key_words_eq bs (repeat 0 8%nat) Hl eq_refl).
  rewrite (src_hasher_init_base_eq self _ _ Hs (words_of_bytes_length 8 bs Hl)). reflexivity.
Qed.

Lemma src_blake3_hasher_init_derive_key_raw_eq p (self u : src_hasher) context context_len :
  hasher_shape self -> hasher_shape u -> blake3_hasher_cv_stack u = c_local_stack -> context_len = nlen context ->
  res_map hasher_of_src
    (src_blake3_hasher_init_derive_key_raw (m_update_base p) (m_finalize_seek p) self context context_len u)
  = c_hasher_init_derive_key_raw p (blake3_hasher_cv_stack self) context.
Proof.
  intros Hs Hu Hst ->. rewrite (src_blake3_hasher_init_derive_key_raw_gen p self u _ _ Hs Hu Hst), firstn_nlen.
  reflexivity.
Qed.

Lemma c_strlen_prefix_firstn s r : c_strlen_prefix s = Ok r -> firstn (N.to_nat (nlen r)) s = r.
Proof.
  revert r. induction s as [|b tl IH]; intros r H; cbn [c_strlen_prefix] in H; [discriminate|].
  destruct (b =? 0); [inversion H; reflexivity|].
  inv_bind H r' Er. inversion H; subst. specialize (IH r' Er).
  unfold nlen in *. rewrite Nat2N.id in *. cbn [length firstn]. rewrite IH. reflexivity.
Qed.

Lemma src_blake3_hasher_init_derive_key_eq p (self u : src_hasher) context :
  hasher_shape self -> hasher_shape u -> blake3_hasher_cv_stack u = c_local_stack ->
  res_map hasher_of_src
    (src_blake3_hasher_init_derive_key (m_update_base p) (m_finalize_seek p) m_strlen self context u)
  = c_hasher_init_derive_key p (blake3_hasher_cv_stack self) context.
Proof.
  intros Hs Hu Hst. unfold src_blake3_hasher_init_derive_key, c_hasher_init_derive_key, m_strlen.
  destruct (c_strlen_prefix context) as [r| |] eqn:Er; cbn [res_map bind]; try reflexivity.
  rewrite <- (c_strlen_prefix_firstn context r Er) at 2.
  rewrite <- (src_blake3_hasher_init_derive_key_raw_gen p self u context (nlen r) Hs Hu Hst).
  destruct (src_blake3_hasher_init_derive_key_raw _ _ self context (nlen r) u); reflexivity.
Qed.
