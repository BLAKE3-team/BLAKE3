(* gen/GenKern2.v (the WHOLE hash4 / hash8 / hash16 functions of the intrinsics back ends, translated statement by
   statement by tools/gen_coq_kern2.py) equals the kernel models of Model/Kernels.v (hashN_gen ..), for all arguments in
   the documented domain; hence (Proofs/KernelsP.v hN_ok) Portable.hash1 on every input.
   The `for block` loop (fold_left over seq) is hashN_loop for any per-block function that equals vcompress; the
   stores into `out` come in three shapes (hash4: two 4x4 transposes, interleaved; hash8: one 8x8; hash16: padded
   16x16, masked 256-bit stores). *)
From Coq Require Import NArith ZArith List Bool Arith Lia.
From V Require Import Base.Res Base.Word Base.MachInt gen.GenConsts gen.GenFormulas Model.Portable Model.Kernels
  Model.Intrinsics Model.Intrinsics2 gen.GenCounters gen.GenRounds gen.GenRows gen.GenKern2
  Proofs.ListP Proofs.TransposeP Proofs.KernelsP Proofs.KernelsCascadeP Proofs.CountersP Proofs.RoundsP.
Import ListNotations.
Open Scope N_scope.

Section Loop.
  Variables (n : nat) (tmsg : list (list N) -> nat -> list vec)
            (blockf : list vec -> vec -> vec -> N -> list (list N) -> nat -> list vec)
            (P : list vec -> Prop) (inputs : list (list N)) (clo chi : vec) (flags fe : N) (blocks : nat).
  Hypothesis Hflags : W flags.
  Hypothesis Hfe : W fe.
  Hypothesis Hblock : forall h bf block, P h -> W bf -> (block < blocks)%nat ->
    blockf h clo chi bf inputs block = vcompress n h (tmsg inputs (block * 64)%nat) clo chi rs_BLOCK_LEN bf /\
    P (vcompress n h (tmsg inputs (block * 64)%nat) clo chi rs_BLOCK_LEN bf).

  (* the loop body exactly as tools/gen_coq_kern2.py prints it *)
  Definition stepf (st : list vec * N) (block : nat) : list vec * N :=
    let '(h_vecs, block_flags) := st in
    let block_flags := if ((block + 1) =? blocks)%nat then (N.lor block_flags fe) else block_flags in
    let h_vecs := (blockf h_vecs clo chi block_flags inputs block) in
    let block_flags := flags in
    (h_vecs, block_flags).

  (* the translated loop followed by `finish` is the model's loop followed by finish', when the two agree on the
     states the invariant allows *)
  Lemma k2_loop {T} (finish finish' : list vec -> T) h0 bf0 : P h0 -> W bf0 -> (forall h, P h -> finish h = finish' h) ->
    (let '(h, _) := fold_left stepf (seq 0 blocks) (h0, bf0) in finish h) =
    finish' (hashN_loop n tmsg inputs clo chi flags fe blocks 0 blocks bf0 h0).
  Proof.
    intros Ph0 Wb0 Hfin.
    assert (G : forall todo block bf h, P h -> W bf -> (block + todo <= blocks)%nat ->
              (let '(h, _) := fold_left stepf (seq block todo) (h, bf) in finish h) =
              finish' (hashN_loop n tmsg inputs clo chi flags fe todo block blocks bf h)).
    { induction todo as [|todo IH]; intros block bf h Ph Wbf Hb; [exact (Hfin h Ph)|].
      rewrite hashN_loop_S. cbn [seq fold_left]. unfold stepf at 2. cbv zeta.
      set (bf' := if (block + 1 =? blocks)%nat then N.lor bf fe else bf).
      assert (Wbf' : W bf') by (subst bf'; destruct (block + 1 =? blocks)%nat; [apply W_lor; assumption|exact Wbf]).
      destruct (Hblock h bf' block Ph Wbf' ltac:(lia)) as [E Pc]. rewrite E.
      apply IH; [exact Pc|exact Hflags|lia]. }
    apply G; [exact Ph0|exact Wb0|apply Nat.le_refl].
  Qed.
End Loop.

Lemma W_u8 x : x < 256 -> W x.
Proof. unfold W. lia. Qed.

Lemma W_nth key k : Forall W key -> W (nth k key 0).
Proof. intros F. apply nth_Forall; [exact F|reflexivity]. Qed.

Lemma vcompress_wf n tmsg inputs clo chi h bl bf block : (0 < n)%nat -> tmsg_ok n tmsg ->
  (forall j, (j < n)%nat -> (block * 64 + 64 <= length (inp inputs j))%nat) ->
  wf n clo -> wf n chi -> length h = 8%nat -> Forall (wf n) h ->
  length (vcompress n h (tmsg inputs (block * 64)%nat) clo chi bl bf) = 8%nat /\
  Forall (wf n) (vcompress n h (tmsg inputs (block * 64)%nat) clo chi bl bf).
Proof.
  intros Hn Ht Hlen Wlo Whi Lh Fh. destruct (Ht inputs (block * 64)%nat 0%nat Hn Hlen) as (Fm & Lm & _).
  destruct (cols_vcompress n h _ clo chi bl bf _ _ (cols_self n 8 h Fh Lh) (cols_self n 16 _ Fm Lm) Wlo Whi) as (F & L & _).
  split; assumption.
Qed.

Lemma store_step (k : nat) (pre rest : list N) (off : nat) (d : list N) : off = length pre -> length d = k ->
  firstn off (pre ++ rest) ++ d ++ skipn (off + k) (pre ++ rest) = (pre ++ d) ++ skipn k rest.
Proof.
  intros -> Ld. rewrite firstn_app_exact by reflexivity.
  rewrite skipn_app, skipn_all2 by lia. replace (length pre + k - length pre)%nat with k by lia.
  rewrite <- app_assoc. reflexivity.
Qed.

Lemma to8_length n v : wf n v -> length (to8 v) = (4 * n)%nat.
Proof. intros <-. apply bytes_of_words_length. Qed.

Lemma storeu128_step pre rest v : wf 4 v -> mm_storeu_si128 (pre ++ rest) (length pre) v = (pre ++ to8 v) ++ skipn 16 rest.
Proof. intros H. apply store_step; [reflexivity|exact (to8_length 4 v H)]. Qed.
Lemma storeu256_step pre rest v : wf 8 v -> mm256_storeu_si256 (pre ++ rest) (length pre) v = (pre ++ to8 v) ++ skipn 32 rest.
Proof. intros H. apply store_step; [reflexivity|exact (to8_length 8 v H)]. Qed.
Lemma store32_step pre rest off x : off = length pre ->
  store32 (pre ++ rest) off x = (pre ++ bytes_of_word x) ++ skipn 4 rest.
Proof. intros. unfold store32. apply store_step; [assumption|reflexivity]. Qed.

(* _mm256_mask_storeu_epi32 with the full mask (__mmask8)-1 = 255 is a 32-byte store *)
Lemma mask_store_step pre rest (a : vec) : wf 8 a ->
  mm256_mask_storeu_epi32 (pre ++ rest) (length pre) 255 a = (pre ++ to8 a) ++ skipn 32 rest.
Proof.
  intros La. lanes_of a 8%nat La. unfold mm256_mask_storeu_epi32. cbn [seq fold_left].
  repeat match goal with |- context [Z.testbit 255 (Z.of_nat ?k)] => change (Z.testbit 255 (Z.of_nat k)) with true end.
  cbv beta iota. cbn [nth].
  do 8 (rewrite store32_step by (rewrite ?app_length; cbn [length bytes_of_word]; lia)).
  rewrite !skipn_skipn. rewrite <- !app_assoc. reflexivity.
Qed.

(* stores of n-lane vectors at consecutive offsets from `off`; over a buffer they fill exactly, the buffer becomes
   the bytes of the vectors *)
Section Chain.
  Variables (n : nat) (store : list N -> nat -> vec -> list N).
  Hypothesis step : forall pre rest v, wf n v ->
    store (pre ++ rest) (length pre) v = (pre ++ to8 v) ++ skipn (4 * n) rest.

  Fixpoint chain (off : nat) (vs : list vec) (buf : list N) : list N :=
    match vs with
    | [] => buf
    | v :: vs => chain (off + 4 * n) vs (store buf off v)
    end.

  Lemma chain_app : forall vs pre rest, Forall (wf n) vs ->
    chain (length pre) vs (pre ++ rest) = (pre ++ concat (map to8 vs)) ++ skipn (length vs * (4 * n)) rest.
  Proof.
    induction vs as [|v vs IH]; intros pre rest F; cbn [chain map concat length].
    - rewrite app_nil_r. reflexivity.
    - apply Forall_cons_iff in F. destruct F as [Hv F]. rewrite step by exact Hv.
      change (S (length vs) * (4 * n))%nat with (4 * n + length vs * (4 * n))%nat.
      replace (length pre + 4 * n)%nat with (length (pre ++ to8 v)) by (rewrite app_length, (to8_length n v Hv); reflexivity).
      rewrite IH by exact F.
      rewrite skipn_skipn, <- !app_assoc. reflexivity.
  Qed.

  Lemma chain_fill vs out : Forall (wf n) vs -> length out = (length vs * (4 * n))%nat ->
    chain 0 vs out = concat (map to8 vs).
  Proof.
    intros F Lo. pose proof (chain_app vs [] out F) as E. cbn [length app] in E.
    rewrite E, skipn_all2 by (rewrite Lo; apply Nat.le_refl). apply app_nil_r.
  Qed.
End Chain.

Lemma tr_rows n tr M : tr_ok n tr -> length M = n -> Forall (wf n) M -> length (tr M) = n /\ Forall (wf n) (tr M).
Proof.
  intros Htr L F. rewrite (Htr M L F). destruct (tr_spec_wf n M) as [F' L']. rewrite L in F'. split; assumption.
Qed.

Lemma map_vk n (l : list vec) : length l = n -> map (vk l) (seq 0 n) = l.
Proof. intros <-. apply (map_nth_seq [] l). Qed.

(* hash4: transpose_vecs(h[0..4]); transpose_vecs(h[4..8]); storeu(h[0], out + 0); storeu(h[4], out + 16); storeu(h[1], ..) *)
Lemma store4_chain h out : length h = 8%nat -> Forall (wf 4) h -> length out = 128%nat ->
  let a := transpose_vecs_128 0 [vk h 0; vk h 1; vk h 2; vk h 3] in
  let b := transpose_vecs_128 0 [vk h 4; vk h 5; vk h 6; vk h 7] in
  mm_storeu_si128 (mm_storeu_si128 (mm_storeu_si128 (mm_storeu_si128 (mm_storeu_si128 (mm_storeu_si128
    (mm_storeu_si128 (mm_storeu_si128 out 0 (vk a 0)) 16 (vk b 0)) 32 (vk a 1)) 48 (vk b 1)) 64 (vk a 2)) 80 (vk b 2))
    96 (vk a 3)) 112 (vk b 3) = concat (store4 h).
Proof.
  intros L F Lo. lanes_of h 8%nat L. forall_inv. intros a b.
  change (store4 _) with (map (fun i => bytes_of_words (vk a i ++ vk b i)) (seq 0 4)).
  assert (Ha : length a = 4%nat /\ Forall (wf 4) a)
    by (apply tr_rows; [exact tr_ok_128|reflexivity|repeat constructor; assumption]).
  assert (Hb : length b = 4%nat /\ Forall (wf 4) b)
    by (apply tr_rows; [exact tr_ok_128|reflexivity|repeat constructor; assumption]).
  clearbody a b. destruct Ha as [La Fa], Hb as [Lb Fb]. lanes_of a 4%nat La. lanes_of b 4%nat Lb. forall_inv.
  etransitivity.
  - apply (chain_fill 4 _ storeu128_step (flat_map (fun i => [vk _ i; vk _ i]) (seq 0 4))); [|exact Lo].
    repeat constructor; assumption.
  - cbn [seq flat_map map concat app]. unfold to8, bytes_of_words. rewrite !flat_map_app, <- !app_assoc. reflexivity.
Qed.

(* hash8: transpose_vecs(h); storeu(h[k], out + 32 k) *)
Lemma store8_chain h out : length h = 8%nat -> Forall (wf 8) h -> length out = 256%nat ->
  let a := transpose_vecs_256 0 h in
  mm256_storeu_si256 (mm256_storeu_si256 (mm256_storeu_si256 (mm256_storeu_si256 (mm256_storeu_si256 (mm256_storeu_si256
    (mm256_storeu_si256 (mm256_storeu_si256 out 0 (vk a 0)) 32 (vk a 1)) 64 (vk a 2)) 96 (vk a 3)) 128 (vk a 4)) 160 (vk a 5))
    192 (vk a 6)) 224 (vk a 7) = concat (store8 h).
Proof.
  intros L F Lo a. destruct (tr_rows 8 _ h tr_ok_256 L F) as [La Fa]. fold a in La, Fa.
  transitivity (chain 8 mm256_storeu_si256 0 (map (vk a) (seq 0 8)) out); [reflexivity|].
  rewrite (map_vk 8 a La). apply (chain_fill 8 _ storeu256_step); [exact Fa|rewrite La; exact Lo].
Qed.

(* hash16: pad with eight zero vectors, one 16x16 transpose, the low 256 bits of each of the 16 vectors *)
Lemma store16_chain h out : length h = 8%nat -> Forall (wf 16) h -> length out = 512%nat ->
  let z := vset1 16 0 in
  let p := transpose_vecs_512 0 [vk h 0; vk h 1; vk h 2; vk h 3; vk h 4; vk h 5; vk h 6; vk h 7; z; z; z; z; z; z; z; z] in
  let c k := mm512_castsi512_si256 (vk p k) in
  mm256_mask_storeu_epi32 (mm256_mask_storeu_epi32 (mm256_mask_storeu_epi32 (mm256_mask_storeu_epi32
  (mm256_mask_storeu_epi32 (mm256_mask_storeu_epi32 (mm256_mask_storeu_epi32 (mm256_mask_storeu_epi32
  (mm256_mask_storeu_epi32 (mm256_mask_storeu_epi32 (mm256_mask_storeu_epi32 (mm256_mask_storeu_epi32
  (mm256_mask_storeu_epi32 (mm256_mask_storeu_epi32 (mm256_mask_storeu_epi32 (mm256_mask_storeu_epi32 out
    0 255 (c 0%nat)) 32 255 (c 1%nat)) 64 255 (c 2%nat)) 96 255 (c 3%nat)) 128 255 (c 4%nat)) 160 255 (c 5%nat))
    192 255 (c 6%nat)) 224 255 (c 7%nat)) 256 255 (c 8%nat)) 288 255 (c 9%nat)) 320 255 (c 10%nat)) 352 255 (c 11%nat))
    384 255 (c 12%nat)) 416 255 (c 13%nat)) 448 255 (c 14%nat)) 480 255 (c 15%nat) = concat (store16 h).
Proof.
  intros L F Lo z p c. lanes_of h 8%nat L. forall_inv.
  assert (Hp : length p = 16%nat /\ Forall (wf 16) p).
  { apply tr_rows; [exact tr_ok_512|reflexivity|]. repeat (constructor; [first [assumption|apply vset1_length]|]). constructor. }
  change (store16 _) with (map (fun v => to8 (firstn 8 v)) p). subst c. clearbody p. destruct Hp as [Lp Fp].
  set (st := fun b off v => mm256_mask_storeu_epi32 b off 255 v).
  transitivity (chain 8 st 0 (map (firstn 8) (map (vk p) (seq 0 16))) out).
  - (* unfolded here: left to itself, conversion starts by unfolding the masked stores *)
    cbv [chain map seq Nat.add Nat.mul]. reflexivity.
  - rewrite (map_vk 16 p Lp), (chain_fill 8 st mask_store_step), map_map; [reflexivity| |rewrite map_length, Lp; exact Lo].
    apply Forall_map. eapply Forall_impl; [|exact Fp]. intros x Hx. unfold wf in *. rewrite firstn_length, Hx. reflexivity.
Qed.

Definition Pwf (n : nat) (h : list vec) : Prop := length h = 8%nat /\ Forall (wf n) h.

Lemma init_Pwf n (k0 k1 k2 k3 k4 k5 k6 k7 : N) :
  Pwf n [vset1 n k0; vset1 n k1; vset1 n k2; vset1 n k3; vset1 n k4; vset1 n k5; vset1 n k6; vset1 n k7].
Proof. split; [reflexivity|]. repeat (apply Forall_cons; [apply vset1_length|]). constructor. Qed.

(* k2_loop for the back ends whose block theorem is unconditional: the invariant is Pwf *)
Lemma k2_loop_wf {T} n tmsg blockf inputs clo chi flags fs fe blocks (finish finish' : list vec -> T) h0 :
  (0 < n)%nat -> tmsg_ok n tmsg ->
  (forall h clo chi bf inputs block, length h = 8%nat -> bf < 4294967296 ->
     blockf h clo chi bf inputs block = vcompress n h (tmsg inputs (block * 64)%nat) clo chi rs_BLOCK_LEN bf) ->
  (forall j, (j < n)%nat -> length (inp inputs j) = (blocks * 64)%nat) -> wf n clo -> wf n chi ->
  flags < 256 -> fs < 256 -> fe < 256 -> Pwf n h0 -> (forall h, Pwf n h -> finish h = finish' h) ->
  (let '(h, _) := fold_left (stepf blockf inputs clo chi flags fe blocks) (seq 0 blocks) (h0, N.lor flags fs) in finish h) =
  finish' (hashN_loop n tmsg inputs clo chi flags fe blocks 0 blocks (N.lor flags fs) h0).
Proof.
  intros Hn Ht Hb Hlen Wlo Whi Hf Hfs Hfe Ph0 Hfin.
  apply (k2_loop n tmsg blockf (Pwf n)); try assumption; try (apply W_u8; assumption); [|apply W_lor; apply W_u8; assumption].
  intros h bf block [L F] Wbf Hbl. split; [apply Hb; assumption|].
  apply vcompress_wf; try assumption. intros j Hj. rewrite (Hlen j Hj). nia.
Qed.

(* the C files: the pair returned by a translated load_counters is the model's *)
Lemma c_counters_pair (p : vec * vec) (m : res (vec * vec)) clo chi : Ok p = m -> m = Ok (clo, chi) -> p = (clo, chi).
Proof. congruence. Qed.

(* the last step.  `apply` unifies up to conversion (the offsets `(2 * 4) * 4` against 32, the store helpers against
   the intrinsics); on a changed source that unification can run for a very long time, hence the time limit: a store
   chain that is not the lemma's fails within 30 seconds instead of diverging *)
Ltac finish_store lem := timeout 30 (apply lem; assumption).

(* what is proved of a translated hashN `k2` over n inputs: the final contents of `out` are the concatenated CVs of
   the kernel model hN; `okr` makes the C functions, which cannot fail, of the same type as the Rust ones *)
Definition k2_fn := list (list N) -> nat -> list N -> N -> bool -> N -> N -> N -> list N -> res (list N).
Definition okr (f : list (list N) -> nat -> list N -> N -> bool -> N -> N -> N -> list N -> list N) : k2_fn :=
  fun inputs blocks key counter incr flags fs fe out => Ok (f inputs blocks key counter incr flags fs fe out).
Definition k2_ok (n : nat) (k2 : k2_fn) (hN : hashN_fn) : Prop :=
  forall inputs blocks key counter incr flags fs fe out,
  length key = 8%nat -> Forall W key ->
  (forall j, (j < n)%nat -> length (inp inputs j) = (blocks * 64)%nat) ->
  counter + N.of_nat n <= 2 ^ 64 -> flags < 256 -> fs < 256 -> fe < 256 -> length out = (32 * n)%nat ->
  k2 inputs blocks key counter incr flags fs fe out =
  (outs <- hN inputs blocks key counter incr flags fs fe ;; Ok (concat outs)).

Theorem k2_rs_sse41_hash4_ok : k2_ok 4 k2_rs_sse41_hash4 hash4_rs.
Proof.
  intros inputs blocks key counter incr flags fs fe out Lk Wk Hlen Hc Hf Hfs Hfe Lo.
  unfold k2_rs_sse41_hash4, hash4_rs, hashN_gen. cbv zeta.
  rewrite rs_sse41_load_counters_model.
  destruct (load_counters_rs_ok 4 counter incr Hc) as (clo & chi & -> & Wlo & Whi & _). cbn [bind].
  cbn [map seq]. rewrite !rs_sse41_set1_ok by (apply W_nth; exact Wk).
  apply (k2_loop_wf 4 transpose_msg_vecs4 rs_sse41_hash4_block) with (finish' := fun h => Ok (concat (store4 h)));
    try assumption; [lia|exact tmsg_ok_4|exact rs_sse41_hash4_block_ok|apply init_Pwf|].
  intros h [L F]. unfold k2_rs_sse41_storeu. rewrite !rs_sse41_transpose_vecs_ok. f_equal. finish_store store4_chain.
Qed.

Theorem k2_rs_sse2_hash4_ok : k2_ok 4 k2_rs_sse2_hash4 hash4_rs.
Proof.
  intros inputs blocks key counter incr flags fs fe out Lk Wk Hlen Hc Hf Hfs Hfe Lo.
  unfold k2_rs_sse2_hash4, hash4_rs, hashN_gen. cbv zeta.
  rewrite rs_sse2_load_counters_model.
  destruct (load_counters_rs_ok 4 counter incr Hc) as (clo & chi & -> & Wlo & Whi & _). cbn [bind].
  cbn [map seq]. rewrite !rs_sse2_set1_ok by (apply W_nth; exact Wk).
  apply (k2_loop_wf 4 transpose_msg_vecs4 rs_sse2_hash4_block) with (finish' := fun h => Ok (concat (store4 h)));
    try assumption; [lia|exact tmsg_ok_4|exact rs_sse2_hash4_block_ok|apply init_Pwf|].
  intros h [L F]. unfold k2_rs_sse2_storeu. rewrite !rs_sse2_transpose_vecs_ok. f_equal. finish_store store4_chain.
Qed.

Theorem k2_rs_avx2_hash8_ok : k2_ok 8 k2_rs_avx2_hash8 hash8_rs.
Proof.
  intros inputs blocks key counter incr flags fs fe out Lk Wk Hlen Hc Hf Hfs Hfe Lo.
  unfold k2_rs_avx2_hash8, hash8_rs, hashN_gen. cbv zeta.
  rewrite rs_avx2_load_counters_model.
  destruct (load_counters_rs_ok 8 counter incr Hc) as (clo & chi & -> & Wlo & Whi & _). cbn [bind].
  cbn [map seq]. rewrite !rs_avx2_set1_ok by (apply W_nth; exact Wk).
  apply (k2_loop_wf 8 transpose_msg_vecs8 rs_avx2_hash8_block) with (finish' := fun h => Ok (concat (store8 h)));
    try assumption; [lia|exact tmsg_ok_8|exact rs_avx2_hash8_block_ok|apply init_Pwf|].
  intros h [L F]. unfold k2_rs_avx2_storeu. rewrite !rs_avx2_transpose_vecs_ok. f_equal. finish_store store8_chain.
Qed.

Theorem k2_c_avx512_blake3_hash4_avx512_ok : k2_ok 4 (okr k2_c_avx512_blake3_hash4_avx512) hash4_avx512.
Proof.
  intros inputs blocks key counter incr flags fs fe out Lk Wk Hlen Hc Hf Hfs Hfe Lo.
  unfold okr, k2_c_avx512_blake3_hash4_avx512, hash4_avx512, hashN_gen. cbv zeta.
  destruct (load_counters_64_ok 4 counter incr Hc) as (clo & chi & Em & Wlo & Whi & _).
  rewrite (c_counters_pair _ _ clo chi (c_avx512_load_counters4_model counter incr ltac:(lia)) Em), Em. cbn [bind]. f_equal.
  cbn [map seq]. rewrite !c_avx512_set1_128_ok by (apply W_nth; exact Wk).
  apply (k2_loop_wf 4 transpose_msg_vecs4 c_avx512_blake3_hash4_avx512_block) with (finish' := fun h => concat (store4 h));
    try assumption; [lia|exact tmsg_ok_4|exact c_avx512_blake3_hash4_avx512_block_ok|apply init_Pwf|].
  intros h [L F]. unfold k2_c_avx512_storeu_128. rewrite !c_avx512_transpose_vecs_128_ok. finish_store store4_chain.
Qed.

Theorem k2_c_avx512_blake3_hash8_avx512_ok : k2_ok 8 (okr k2_c_avx512_blake3_hash8_avx512) hash8_avx512.
Proof.
  intros inputs blocks key counter incr flags fs fe out Lk Wk Hlen Hc Hf Hfs Hfe Lo.
  unfold okr, k2_c_avx512_blake3_hash8_avx512, hash8_avx512, hashN_gen. cbv zeta.
  destruct (load_counters_64_ok 8 counter incr Hc) as (clo & chi & Em & Wlo & Whi & _).
  rewrite (c_counters_pair _ _ clo chi (c_avx512_load_counters8_model counter incr ltac:(lia)) Em), Em. cbn [bind]. f_equal.
  cbn [map seq]. rewrite !c_avx512_set1_256_ok by (apply W_nth; exact Wk).
  apply (k2_loop_wf 8 transpose_msg_vecs8 c_avx512_blake3_hash8_avx512_block) with (finish' := fun h => concat (store8 h));
    try assumption; [lia|exact tmsg_ok_8|exact c_avx512_blake3_hash8_avx512_block_ok|apply init_Pwf|].
  intros h [L F]. unfold k2_c_avx512_storeu_256. rewrite !c_avx512_transpose_vecs_256_ok. finish_store store8_chain.
Qed.

Theorem k2_c_avx512_blake3_hash16_avx512_ok : k2_ok 16 (okr k2_c_avx512_blake3_hash16_avx512) hash16_avx512.
Proof.
  intros inputs blocks key counter incr flags fs fe out Lk Wk Hlen Hc Hf Hfs Hfe Lo.
  unfold okr, k2_c_avx512_blake3_hash16_avx512, hash16_avx512, hashN_gen. cbv zeta.
  destruct (load_counters_andnot_ok 16 ltac:(cbn; lia) counter incr Hc) as (clo & chi & Em & Wlo & Whi & _).
  rewrite (c_counters_pair _ _ clo chi (c_avx512_load_counters16_model counter incr) Em), Em. cbn [bind]. f_equal.
  cbn [map seq]. rewrite !c_avx512_set1_512_ok by (apply W_nth; exact Wk).
  apply (k2_loop_wf 16 transpose_msg_vecs16 c_avx512_blake3_hash16_avx512_block) with (finish' := fun h => concat (store16 h));
    try assumption; [lia|exact tmsg_ok_16|exact c_avx512_blake3_hash16_avx512_block_ok|apply init_Pwf|].
  intros h [L F]. rewrite c_avx512_transpose_vecs_512_ok.
  change (cast_u 8 (Z.opp 1%Z)) with 255%Z. change (cast_u 32 0%Z) with (Z.of_N 0).
  rewrite (c_avx512_set1_512_ok 0) by reflexivity.
  finish_store store16_chain.
Qed.

(* hence: the translated functions compute Portable.hash1 of every input (hm_spec), by Proofs/KernelsP.v hN_ok *)
Definition k2_portable (n : nat) (k2 : k2_fn) : Prop :=
  forall inputs blocks key counter incr flags fs fe out,
  length inputs = n -> length key = 8%nat -> Forall W key ->
  (forall i, In i inputs -> length i = (blocks * 64)%nat) ->
  counter + N.of_nat n <= 2 ^ 64 -> flags < 256 -> fs < 256 -> fe < 256 -> length out = (32 * n)%nat ->
  k2 inputs blocks key counter incr flags fs fe out = Ok (concat (hm_spec inputs key counter incr flags fs fe)).

Lemma k2_spec n k2 hN : k2_ok n k2 hN -> hN_ok n hN -> k2_portable n k2.
Proof.
  intros Hk Hok inputs blocks key counter incr flags fs fe out Li Lk Wk Hlen Hc Hf Hfs Hfe Lo.
  rewrite Hk, (Hok inputs blocks key counter incr flags fs fe Li Lk Hlen Hc); try assumption; [reflexivity|].
  intros j Hj. apply Hlen, nth_In. lia.
Qed.

Theorem k2_rs_sse2_hash4_spec : k2_portable 4 k2_rs_sse2_hash4.
Proof. exact (k2_spec 4 _ _ k2_rs_sse2_hash4_ok hash4_rs_ok). Qed.
Theorem k2_rs_sse41_hash4_spec : k2_portable 4 k2_rs_sse41_hash4.
Proof. exact (k2_spec 4 _ _ k2_rs_sse41_hash4_ok hash4_rs_ok). Qed.
Theorem k2_rs_avx2_hash8_spec : k2_portable 8 k2_rs_avx2_hash8.
Proof. exact (k2_spec 8 _ _ k2_rs_avx2_hash8_ok hash8_rs_ok). Qed.
Theorem k2_c_avx512_blake3_hash4_avx512_spec : k2_portable 4 (okr k2_c_avx512_blake3_hash4_avx512).
Proof. exact (k2_spec 4 _ _ k2_c_avx512_blake3_hash4_avx512_ok hash4_avx512_ok). Qed.
Theorem k2_c_avx512_blake3_hash8_avx512_spec : k2_portable 8 (okr k2_c_avx512_blake3_hash8_avx512).
Proof. exact (k2_spec 8 _ _ k2_c_avx512_blake3_hash8_avx512_ok hash8_avx512_ok). Qed.
Theorem k2_c_avx512_blake3_hash16_avx512_spec : k2_portable 16 (okr k2_c_avx512_blake3_hash16_avx512).
Proof. exact (k2_spec 16 _ _ k2_c_avx512_blake3_hash16_avx512_ok hash16_avx512_ok). Qed.
