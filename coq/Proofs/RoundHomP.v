(* The round over any word type (roundS, round_src of Model/Kernels.v): on N it is the portable round; a map between two
   word types that carries add, xor and the four rotations of one to those of the other carries the round. *)
From Coq Require Import NArith ZArith List Bool Arith Lia.
From V Require Import Base.Res Base.Word gen.GenConsts Model.Portable Model.Kernels Proofs.PortableP Proofs.ListP.
Import ListNotations.
Open Scope N_scope.

Lemma add32_swap a x b : add32 (add32 a x) b = add32 (add32 a b) x.
Proof.
  unfold add32, w32, mask32. change 0xFFFFFFFF with (N.ones 32).
  rewrite !N.land_ones.
  rewrite !N.add_mod_idemp_l by discriminate. f_equal. lia.
Qed.

Lemma gS_scalar a b c d x y : gS add32 xor32 rotr32 a b c d x y = Portable.g a b c d x y.
Proof. unfold gS, Portable.g. cbv zeta. rewrite !(add32_swap a x b). 
  rewrite (add32_swap _ y _). reflexivity. Qed.

Lemma roundS_scalar s m r : roundS add32 xor32 rotr32 0 s m r = Portable.round s m r.
Proof.
  unfold roundS, Portable.round.
  do 16 (destruct s as [|? s]; [reflexivity|]). destruct s; [|reflexivity].
  change (@mw N 0 m) with (msgw m).
  repeat (rewrite ?gS_scalar;
          match goal with |- context [Portable.g ?a ?b ?c ?d ?x ?y] =>
            destruct (Portable.g a b c d x y) as [[[? ?] ?] ?] end).
  reflexivity.
Qed.

Section RoundSrc.
  Context {T : Type} (add xor : T -> T -> T) (rot : T -> N -> T) (dflt : T).
  (* the 112 statements of the SIMD round = eight G applications: the four column
     steps (then the four diagonal steps) act on disjoint words *)
  Lemma round_src_roundS v m r : round_src add xor rot dflt v m r = roundS add xor rot dflt v m r.
  Proof.
    do 16 (destruct v as [|? v]; [reflexivity|]). destruct v; [|reflexivity].
    reflexivity.
  Qed.
  Lemma roundS_length v m r : length (roundS add xor rot dflt v m r) = length v.
  Proof.
    unfold roundS.
    do 16 (destruct v as [|? v]; [reflexivity|]). destruct v; [|reflexivity].
    repeat match goal with |- context [gS add xor rot ?a ?b ?c ?d ?x ?y] =>
      destruct (gS add xor rot a b c d x y) as [[[? ?] ?] ?] end.
    reflexivity.
  Qed.
  Lemma round_src_length v m r : length (round_src add xor rot dflt v m r) = length v.
  Proof. rewrite round_src_roundS. apply roundS_length. Qed.
End RoundSrc.

Lemma sched_lt r k : (sched r k < 16)%nat.
Proof.
  assert (F : Forall (Forall (fun x => x < 16)) rs_MSG_SCHEDULE) by (repeat constructor).
  assert (X : nth k (nth r rs_MSG_SCHEDULE []) 0 < 16) by (repeat apply nth_Forall; try exact F; constructor).
  unfold sched. lia.
Qed.

(* One homomorphism lemma for the round: h carries the operations of one word type to those of another on the
   values that satisfy P.  With h = lane i it says that lane i of the vector round is the scalar round; with
   h = identity, that two sets of operations which agree on P-values give the same round (round_src_ext).
   P is there for the partial cases: well-formed vectors, registers of 32-bit lanes, the default [] of a read
   outside the message. *)
Section Hom.
  Context {T1 T2 : Type}.
  Variables (add1 xor1 : T1 -> T1 -> T1) (rot1 : T1 -> N -> T1) (d1 : T1).
  Variables (add2 xor2 : T2 -> T2 -> T2) (rot2 : T2 -> N -> T2) (d2 : T2).
  Variables (h : T1 -> T2) (P : T1 -> Prop).
  Hypothesis Hadd : forall a b, P a -> P b -> P (add1 a b) /\ h (add1 a b) = add2 (h a) (h b).
  Hypothesis Hxor : forall a b, P a -> P b -> P (xor1 a b) /\ h (xor1 a b) = xor2 (h a) (h b).
  Hypothesis Hrot : forall a k, In k [16; 12; 8; 7] -> P a -> P (rot1 a k) /\ h (rot1 a k) = rot2 (h a) k.

  Let Q (a : T1) (a' : T2) : Prop := P a /\ h a = a'.
  Lemma Qadd {a a' b b'} : Q a a' -> Q b b' -> Q (add1 a b) (add2 a' b').
  Proof. intros [Pa <-] [Pb <-]. apply Hadd; assumption. Qed.
  Lemma Qxor {a a' b b'} : Q a a' -> Q b b' -> Q (xor1 a b) (xor2 a' b').
  Proof. intros [Pa <-] [Pb <-]. apply Hxor; assumption. Qed.
  Lemma Qrot {a a'} k : In k [16; 12; 8; 7] -> Q a a' -> Q (rot1 a k) (rot2 a' k).
  Proof. intros Hk [Pa <-]. apply Hrot; assumption. Qed.

  Lemma gS_hom a a' b b' c c' d d' x x' y y' : Q a a' -> Q b b' -> Q c c' -> Q d d' -> Q x x' -> Q y y' ->
    match gS add1 xor1 rot1 a b c d x y, gS add2 xor2 rot2 a' b' c' d' x' y' with
    | (ra, rb, rc, rd), (ra', rb', rc', rd') => Q ra ra' /\ Q rb rb' /\ Q rc rc' /\ Q rd rd'
    end.
  Proof.
    intros Ha Hb Hc Hd Hx Hy.
    assert (A1 := Qadd (Qadd Ha Hx) Hb).
    assert (D1 := Qrot 16 ltac:(cbn; tauto) (Qxor Hd A1)).
    assert (C1 := Qadd Hc D1).
    assert (B1 := Qrot 12 ltac:(cbn; tauto) (Qxor Hb C1)).
    assert (A2 := Qadd (Qadd A1 Hy) B1).
    assert (D2 := Qrot 8 ltac:(cbn; tauto) (Qxor D1 A2)).
    assert (C2 := Qadd C1 D2).
    assert (B2 := Qrot 7 ltac:(cbn; tauto) (Qxor B1 C2)).
    exact (conj A2 (conj B2 (conj C2 D2))).
  Qed.

  (* the message enters through the sixteen words the round reads *)
  Lemma roundS_hom_mw v m1 m2 r : Forall P v -> (forall k, Q (mw d1 m1 r k) (mw d2 m2 r k)) ->
    Forall P (roundS add1 xor1 rot1 d1 v m1 r) /\
    map h (roundS add1 xor1 rot1 d1 v m1 r) = roundS add2 xor2 rot2 d2 (map h v) m2 r.
  Proof.
    intros Fv Hm. unfold roundS.
    do 16 (destruct v as [|? v]; [split; [exact Fv|reflexivity]|]). destruct v; [|split; [exact Fv|reflexivity]].
    repeat match goal with H : Forall _ (_ :: _) |- _ => inversion H; clear H; subst end.
    cbn [map].
    repeat match goal with
    | |- context [gS add1 xor1 rot1 ?a ?b ?c ?d ?x ?y] =>
        let H := fresh "H" in
        pose proof (gS_hom a _ b _ c _ d _ x _ y _ ltac:(split; [assumption|reflexivity]) ltac:(split; [assumption|reflexivity])
                      ltac:(split; [assumption|reflexivity]) ltac:(split; [assumption|reflexivity]) (Hm _) (Hm _)) as H;
        destruct (gS add1 xor1 rot1 a b c d x y) as [[[? ?] ?] ?];
        destruct (gS add2 xor2 rot2 _ _ _ _ _ _) as [[[? ?] ?] ?];
        destruct H as ([? <-] & [? <-] & [? <-] & [? <-])
    end.
    split; [repeat constructor; assumption | reflexivity].
  Qed.

  Lemma round_src_hom_mw v m1 m2 r : Forall P v -> (forall k, Q (mw d1 m1 r k) (mw d2 m2 r k)) ->
    Forall P (round_src add1 xor1 rot1 d1 v m1 r) /\
    map h (round_src add1 xor1 rot1 d1 v m1 r) = round_src add2 xor2 rot2 d2 (map h v) m2 r.
  Proof. rewrite !round_src_roundS. apply roundS_hom_mw. Qed.

  Lemma mw_hom m r k : length m = 16%nat -> Forall P m -> Q (mw d1 m r k) (mw d2 (map h m) r k).
  Proof.
    intros L F. pose proof (sched_lt r k) as Hs. unfold Q, mw. split.
    - rewrite Forall_forall in F. apply F, nth_In. lia.
    - symmetry. apply nth_map_lt. lia.
  Qed.

  Lemma roundS_hom v m r : length m = 16%nat -> Forall P v -> Forall P m ->
    Forall P (roundS add1 xor1 rot1 d1 v m r) /\
    map h (roundS add1 xor1 rot1 d1 v m r) = roundS add2 xor2 rot2 d2 (map h v) (map h m) r.
  Proof. intros L Fv Fm. apply roundS_hom_mw; [exact Fv|]. intros k. apply mw_hom; assumption. Qed.
End Hom.

Lemma round_src_ext {T} (add1 xor1 add2 xor2 : T -> T -> T) (rot1 rot2 : T -> N -> T) (d : T) (P : T -> Prop) :
  (forall a b, P a -> P b -> P (add2 a b) /\ add1 a b = add2 a b) ->
  (forall a b, P a -> P b -> P (xor2 a b) /\ xor1 a b = xor2 a b) ->
  (forall a k, In k [16; 12; 8; 7] -> P a -> P (rot2 a k) /\ rot1 a k = rot2 a k) ->
  forall v m r, Forall P v -> (forall k, P (mw d m r k)) ->
    Forall P (round_src add2 xor2 rot2 d v m r) /\
    round_src add1 xor1 rot1 d v m r = round_src add2 xor2 rot2 d v m r.
Proof.
  intros Ha Hx Hr v m r Fv Fm.
  destruct (round_src_hom_mw add1 xor1 rot1 d add2 xor2 rot2 d (fun x => x) P) with (v := v) (m1 := m) (m2 := m) (r := r)
    as (F & E); try assumption.
  - intros a b Pa Pb. destruct (Ha a b Pa Pb) as [Q ->]. auto.
  - intros a b Pa Pb. destruct (Hx a b Pa Pb) as [Q ->]. auto.
  - intros a k Hk Pa. destruct (Hr a k Hk Pa) as [Q ->]. auto.
  - intros k. auto.
  - rewrite !map_id in E. rewrite <- E. auto.
Qed.
