(* The translated platform dispatch layer (gen/GenPlatform.v: src/platform.rs, the module table of src/lib.rs,
   c/blake3_dispatch.c) against the hand-written side (Model/PlatformDispatch.v, the platform records of
   Model/Kernels.v, PlatformOK of Proofs/KernelsPlatformP.v). *)
From Coq Require Import String.
From Coq Require Import NArith List Bool Lia.
From V Require Import Base.Res Base.Word Base.MachInt gen.GenConsts Model.Portable Model.Platform Model.Kernels
  Model.DispatchSyntax gen.GenPlatform Model.PlatformDispatch Model.CHasher Proofs.ListP Proofs.KernelsP Proofs.KernelsCascadeP Proofs.KernelsRowsP Proofs.KernelsXofP Proofs.KernelsPlatformP.
Import ListNotations.
Open Scope N_scope.

(* the source data: every call passes the enclosing function's parameters in their own order *)
Lemma src_argorders_identity :
  forallb argorder_identity
    (src_platform_compress_in_place_arms ++ src_platform_compress_xof_arms ++ src_platform_hash_many_arms ++
     src_platform_xof_many_arms ++ src_c_compress_in_place_ladder ++ src_c_compress_xof_ladder ++
     src_c_xof_many_ladder ++ src_c_hash_many_ladder) = true.
Proof. vm_compute. reflexivity. Qed.

Section RsTables.
  Variable f : flavour.

  Lemma src_compress_in_place_table kp k2 k41 k512 kw v cv block bl ctr fl :
    src_platform_compress_in_place (cfgs_of f) k512 k2 k41 kw kp v cv block bl ctr fl =
    option_map (fun k : cip_fn => k cv block bl ctr fl) (rs_x86_compress_table (has_avx512 f) kp k2 k41 k512 v).
  Proof. destruct f, v; reflexivity. Qed.

  Lemma src_compress_xof_table kp k2 k41 k512 kw v cv block bl ctr fl :
    src_platform_compress_xof (cfgs_of f) k512 k2 k41 kw kp v cv block bl ctr fl =
    option_map (fun k : cip_fn => k cv block bl ctr fl) (rs_x86_compress_table (has_avx512 f) kp k2 k41 k512 v).
  Proof. destruct f, v; reflexivity. Qed.

  Lemma src_hash_many_table kp k2 k41 k8 k512 kn kw v inputs key ctr incr fl fs fe cap :
    src_platform_hash_many (cfgs_of f) k8 k512 kn k2 k41 kw kp v inputs key ctr incr fl fs fe cap =
    option_map (fun k : hash_many_fn => k inputs key ctr incr fl fs fe cap)
               (rs_x86_hash_many_table (has_avx512 f) kp k2 k41 k8 k512 v).
  Proof. destruct f, v; reflexivity. Qed.

  (* xof_many: nothing for an empty output; AVX512 (where it exists; all three builds are unix) calls its own
     kernel, every other variant loops over its own compress_xof *)
  Lemma src_xof_many_table k512 (cx : variant -> cip_fn) v cv block bl ctr fl n :
    src_platform_xof_many (cfgs_of f) k512 cx v cv block bl ctr fl n =
    if n =? 0 then Ok []
    else match v with
         | AVX512 => if has_avx512 f then k512 cv block bl ctr fl n
                     else xof_many_loop (cx v) cv block bl ctr fl (N.to_nat n)
         | _ => xof_many_loop (cx v) cv block bl ctr fl (N.to_nat n)
         end.
  Proof. unfold src_platform_xof_many. destruct (n =? 0); [reflexivity|]. destruct f, v; reflexivity. Qed.
End RsTables.

Lemma cfgs_eval_cons env c l : cfgs_eval env (c :: l) = cfg_eval env c && cfgs_eval env l.
Proof. reflexivity. Qed.

(* the degree table and the debug_assert!(degree <= MAX_SIMD_DEGREE) of simd_degree, in EVERY build *)
Theorem src_simd_degree_le_max : forall cfgs v d,
  src_platform_simd_degree cfgs v = Some d -> d <= src_MAX_SIMD_DEGREE cfgs.
Proof.
  intros cfgs v d. unfold src_platform_simd_degree, src_MAX_SIMD_DEGREE. cbn [cfgs_eval].
  destruct (cfg_eval cfgs (CAny _)), (cfg_eval cfgs (CAtom "blake3_avx512_ffi"%string)),
    (cfg_eval cfgs (CAtom "blake3_neon"%string)), (cfg_eval cfgs (CAtom "blake3_wasm32_simd"%string)), v; cbn [andb];
    intros H; first [discriminate H | injection H as <-; apply N.leb_le; reflexivity].
Qed.

Theorem src_simd_degree_exists : forall cfgs v,
  (exists d, src_platform_simd_degree cfgs v = Some d) <-> variant_exists cfgs v = true.
Proof.
  intros cfgs v. unfold src_platform_simd_degree, variant_exists. destruct v; cbn [variant_cfgs];
    [split; [reflexivity|intros _; eexists; reflexivity]|..];
    destruct (cfgs_eval cfgs _);
    (split; [intros [d H]; first [reflexivity | discriminate H] | intros H; first [eexists; reflexivity | discriminate H]]).
Qed.

Lemma src_simd_degree_x86 f v :
  src_platform_simd_degree (cfgs_of f) v =
  rs_x86_hash_many_table (has_avx512 f) rs_degree_Portable rs_degree_SSE2 rs_degree_SSE41 rs_degree_AVX2 rs_degree_AVX512 v.
Proof. destruct f, v; reflexivity. Qed.

Lemma src_max_degree_x86 f : src_MAX_SIMD_DEGREE (cfgs_of f) = if has_avx512 f then 16 else 8.
Proof. destruct f; reflexivity. Qed.

Lemma src_max_degree_or_2 : forall cfgs, src_MAX_SIMD_DEGREE_OR_2 cfgs = N.max (src_MAX_SIMD_DEGREE cfgs) 2.
Proof.
  intros cfgs. unfold src_MAX_SIMD_DEGREE_OR_2, src_MAX_SIMD_DEGREE.
  destruct (cfg_eval cfgs _); [destruct (cfg_eval cfgs _); reflexivity|].
  destruct (cfg_eval cfgs _); [reflexivity|]. destruct (cfg_eval cfgs _); reflexivity.
Qed.

(* the module table of lib.rs: in each flavour every x86 module is exactly one file *)
Lemma src_mod_files_x86 f :
  src_mod_files (cfgs_of f) "sse2" = [match f with FlDefault => "ffi_sse2.rs" | _ => "rust_sse2.rs" end]%string /\
  src_mod_files (cfgs_of f) "sse41" = [match f with FlDefault => "ffi_sse41.rs" | _ => "rust_sse41.rs" end]%string /\
  src_mod_files (cfgs_of f) "avx2" = [match f with FlDefault => "ffi_avx2.rs" | _ => "rust_avx2.rs" end]%string /\
  src_mod_files (cfgs_of f) "avx512" = (if has_avx512 f then ["ffi_avx512.rs"] else [])%string /\
  src_mod_files (cfgs_of f) "neon" = [] /\ src_mod_files (cfgs_of f) "wasm32_simd" = [].
Proof. destruct f; vm_compute; repeat split. Qed.

(* variant v of the translated dispatch in the build `cfgs` (src_cip / src_cx / src_hm / src_xm of
   Model/PlatformDispatch.v: the translated Platform methods over the kernel models) is the record p: its degree and
   its methods are p's fields at every argument (`Some`: the arm exists in the build).
   `absent`: neither the variant nor any of its arms exists in the build *)
Definition agrees (cfgs : string -> bool) (v : variant) (p : platform) : Prop :=
  src_platform_simd_degree cfgs v = Some (p_degree p) /\
  (forall cv block bl ctr fl, src_cip cfgs v cv block bl ctr fl = Some (p_compress_in_place p cv block bl ctr fl)) /\
  (forall cv block bl ctr fl, src_cx cfgs v cv block bl ctr fl = Some (p_compress_xof p cv block bl ctr fl)) /\
  (forall inputs key ctr incr fl fs fe cap,
     src_hm cfgs v inputs key ctr incr fl fs fe cap = Some (p_hash_many p inputs key ctr incr fl fs fe cap)) /\
  (forall cv block bl ctr fl n, src_xm cfgs v cv block bl ctr fl n = p_xof_many p cv block bl ctr fl n).

Definition absent (cfgs : string -> bool) (v : variant) : Prop :=
  variant_exists cfgs v = false /\ src_platform_simd_degree cfgs v = None /\
  (forall cv block bl ctr fl, src_cip cfgs v cv block bl ctr fl = None) /\
  (forall cv block bl ctr fl, src_cx cfgs v cv block bl ctr fl = None) /\
  (forall inputs key ctr incr fl fs fe cap, src_hm cfgs v inputs key ctr incr fl fs fe cap = None).

Lemma kernels_of_mod_x86 f :
  kernels_of_mod (cfgs_of f) "sse2" = kernels_of_file (match f with FlDefault => "ffi_sse2.rs" | _ => "rust_sse2.rs" end) /\
  kernels_of_mod (cfgs_of f) "sse41" = kernels_of_file (match f with FlDefault => "ffi_sse41.rs" | _ => "rust_sse41.rs" end) /\
  kernels_of_mod (cfgs_of f) "avx2" = kernels_of_file (match f with FlDefault => "ffi_avx2.rs" | _ => "rust_avx2.rs" end) /\
  kernels_of_mod (cfgs_of f) "avx512" = (if has_avx512 f then kernels_of_file "ffi_avx512.rs" else portable_kernels) /\
  kernels_of_mod (cfgs_of f) "neon" = portable_kernels /\ kernels_of_mod (cfgs_of f) "wasm32_simd" = portable_kernels.
Proof.
  unfold kernels_of_mod. destruct (src_mod_files_x86 f) as (-> & -> & -> & -> & -> & ->).
  destruct f; repeat split.
Qed.

Lemma xof_loop_guarded cv block bl ctr fl n :
  xof_many_loop cx_rows cv block bl ctr fl n =
  guard_xm (xof_many_generic compress_xof_rows) cv block bl ctr fl (N.of_nat n).
Proof.
  unfold guard_xm, xof_many_generic, portable_xof_many. rewrite Nat2N.id.
  unfold cx_rows, guard_cip. destruct (cv_ok cv) eqn:E; apply xof_many_loop_ext; intros c; rewrite E; reflexivity.
Qed.

Lemma xof_generic_arm cv block bl ctr fl n :
  (if n =? 0 then Ok [] else xof_many_loop cx_rows cv block bl ctr fl (N.to_nat n)) =
  guard_xm (xof_many_generic compress_xof_rows) cv block bl ctr fl n.
Proof.
  rewrite xof_loop_guarded, N2Nat.id. destruct (N.eqb_spec n 0) as [->|_]; [|reflexivity].
  unfold guard_xm, xof_many_generic, portable_xof_many. destruct (cv_ok cv); reflexivity.
Qed.

Lemma xof_portable_arm cv block bl ctr fl n :
  (if n =? 0 then Ok [] else xof_many_loop compress_xof cv block bl ctr fl (N.to_nat n)) =
  portable_xof_many cv block bl ctr fl n.
Proof. unfold portable_xof_many. destruct (N.eqb_spec n 0) as [->|_]; reflexivity. Qed.

Lemma xof_avx512_arm cv block bl ctr fl n :
  (if n =? 0 then Ok [] else guard_xm (xof_many_avx512 compress_xof_rows) cv block bl ctr fl n) =
  guard_xm (xof_many_avx512_rs compress_xof_rows) cv block bl ctr fl n.
Proof.
  unfold guard_xm, xof_many_avx512_rs, portable_xof_many.
  destruct (N.eqb_spec n 0) as [->|_]; [destruct (cv_ok cv); reflexivity|reflexivity].
Qed.

Lemma src_cip_x86 f v cv block bl ctr fl :
  src_cip (cfgs_of f) v cv block bl ctr fl =
  option_map (fun k : cip_fn => k cv block bl ctr fl)
             (rs_x86_compress_table (has_avx512 f) compress_in_place cip_rows cip_rows cip_rows v).
Proof.
  unfold src_cip. destruct (kernels_of_mod_x86 f) as (K2 & K41 & K8 & K512 & KN & KW).
  rewrite K2, K41, K512, KW, src_compress_in_place_table. destruct f, v; reflexivity.
Qed.

Lemma src_cx_x86 f v cv block bl ctr fl :
  src_cx (cfgs_of f) v cv block bl ctr fl =
  option_map (fun k : cip_fn => k cv block bl ctr fl)
             (rs_x86_compress_table (has_avx512 f) compress_xof cx_rows cx_rows cx_rows v).
Proof.
  unfold src_cx. destruct (kernels_of_mod_x86 f) as (K2 & K41 & K8 & K512 & KN & KW).
  rewrite K2, K41, K512, KW, src_compress_xof_table. destruct f, v; reflexivity.
Qed.

Lemma src_hm_x86 f v inputs key ctr incr fl fs fe cap :
  src_hm (cfgs_of f) v inputs key ctr incr fl fs fe cap =
  option_map (fun k : hash_many_fn => k inputs key ctr incr fl fs fe cap)
    (rs_x86_hash_many_table (has_avx512 f) hash_many
       (match f with FlDefault => hm_c4 | _ => hm_rs4 end) (match f with FlDefault => hm_c4 | _ => hm_rs4 end)
       (match f with FlDefault => hm_c8 | _ => hm_rs8 end) hm_c16 v).
Proof.
  unfold src_hm. destruct (kernels_of_mod_x86 f) as (K2 & K41 & K8 & K512 & KN & KW).
  rewrite K2, K41, K8, K512, KN, KW, src_hash_many_table. destruct f, v; reflexivity.
Qed.

Lemma src_xm_generic f v (cx : cip_fn) cv block bl ctr fl n :
  (forall c, src_cx (cfgs_of f) v cv block bl c fl = Some (cx cv block bl c fl)) ->
  v <> AVX512 \/ has_avx512 f = false ->
  src_xm (cfgs_of f) v cv block bl ctr fl n =
  if n =? 0 then Ok [] else xof_many_loop cx cv block bl ctr fl (N.to_nat n).
Proof.
  intros Hcx Hv. unfold src_xm. rewrite src_xof_many_table.
  destruct (n =? 0); [reflexivity|].
  assert (E : xof_many_loop (fun cv0 block0 bl0 ctr0 fl0 =>
                 match src_cx (cfgs_of f) v cv0 block0 bl0 ctr0 fl0 with Some r => r | None => [] end)
                 cv block bl ctr fl (N.to_nat n) = xof_many_loop cx cv block bl ctr fl (N.to_nat n)).
  { apply xof_many_loop_ext. intros c. rewrite Hcx. reflexivity. }
  destruct v; try exact E. destruct Hv as [Hv|Hv]; [congruence|]. rewrite Hv. exact E.
Qed.

(* a goal `table .. v = Some (field of the record)` at a fixed variant (and, where the record depends on it, a fixed
   flavour): unfold the tables, the records and their projections, nothing else, and compare *)
Ltac tbl :=
  cbv [rs_x86_compress_table rs_x86_hash_many_table portable_platform sse2_ffi_platform sse2_platform sse41_platform
       sse41_ffi_platform avx2_platform avx2_ffi_platform avx512_platform p_degree p_compress_in_place p_compress_xof
       p_hash_many p_xof_many has_avx512 hm_c4 hm_c8 hm_c16 hm_rs4 hm_rs8];
  reflexivity.

Theorem src_platform_agrees : forall f v,
  match model_platform f v with
  | Some p => agrees (cfgs_of f) v p
  | None => absent (cfgs_of f) v
  end.
Proof.
  intros f v.
  assert (Habs : forall v', rs_x86_hash_many_table (has_avx512 f) 1 1 1 1 1 v' = None -> absent (cfgs_of f) v').
  { intros v' H. unfold absent. split; [destruct f, v'; try discriminate H; reflexivity|].
    split; [rewrite src_simd_degree_x86; destruct f, v'; try discriminate H; reflexivity|].
    split; [intros; rewrite src_cip_x86; destruct f, v'; try discriminate H; reflexivity|].
    split; [intros; rewrite src_cx_x86; destruct f, v'; try discriminate H; reflexivity|].
    intros; rewrite src_hm_x86; destruct f, v'; try discriminate H; reflexivity. }
  assert (Hbas : forall p cx,
     rs_x86_hash_many_table (has_avx512 f) rs_degree_Portable rs_degree_SSE2 rs_degree_SSE41 rs_degree_AVX2
                            rs_degree_AVX512 v = Some (p_degree p) ->
     rs_x86_compress_table (has_avx512 f) compress_in_place cip_rows cip_rows cip_rows v = Some (p_compress_in_place p) ->
     rs_x86_compress_table (has_avx512 f) compress_xof cx_rows cx_rows cx_rows v = Some cx ->
     cx = p_compress_xof p ->
     rs_x86_hash_many_table (has_avx512 f) hash_many
       (match f with FlDefault => hm_c4 | _ => hm_rs4 end) (match f with FlDefault => hm_c4 | _ => hm_rs4 end)
       (match f with FlDefault => hm_c8 | _ => hm_rs8 end) hm_c16 v = Some (p_hash_many p) ->
     (forall cv block bl ctr fl n, src_xm (cfgs_of f) v cv block bl ctr fl n = p_xof_many p cv block bl ctr fl n) ->
     agrees (cfgs_of f) v p).
  { intros p cx H1 H2 H3 H3' H4 H5. unfold agrees.
    split; [rewrite src_simd_degree_x86; exact H1|].
    split; [intros; rewrite src_cip_x86, H2; reflexivity|].
    split; [intros; rewrite src_cx_x86, H3, H3'; reflexivity|].
    split; [intros; rewrite src_hm_x86, H4; reflexivity|]. exact H5. }
  destruct v; cbn [model_platform].
  (* SSE2, SSE41, AVX2: the row kernels, and the generic xof_many loop over them *)
  2-4: (apply (Hbas _ cx_rows); [destruct f; tbl..|]; intros; rewrite (src_xm_generic f _ cx_rows);
        [rewrite xof_generic_arm; destruct f; reflexivity|intros c; rewrite src_cx_x86; reflexivity|left; discriminate]).
  - (* Portable *)
    apply (Hbas (portable_platform 16) compress_xof).
    1-5: tbl.
    intros. rewrite (src_xm_generic f Portable compress_xof).
    + apply xof_portable_arm.
    + intros c. rewrite src_cx_x86. reflexivity.
    + left. discriminate.
  - (* AVX512 *)
    destruct (has_avx512 f) eqn:E.
    + apply (Hbas _ cx_rows); [destruct f; try discriminate E; tbl..|].
      intros. unfold src_xm. rewrite src_xof_many_table, E.
      destruct (kernels_of_mod_x86 f) as (_ & _ & _ & K512 & _ & _). rewrite K512, E.
      apply xof_avx512_arm.
    + apply Habs. reflexivity.
  - apply Habs. reflexivity.
  - apply Habs. reflexivity.
Qed.

(* the cfg conditions of a fixed build are closed booleans: evaluate them, and nothing else *)
Ltac eval_cfgs :=
  repeat match goal with |- context [cfgs_eval ?e ?l] => let b := eval vm_compute in (cfgs_eval e l) in
                                                          change (cfgs_eval e l) with b end;
  repeat match goal with |- context [cfg_eval ?e ?c] => let b := eval vm_compute in (cfg_eval e c) in
                                                         change (cfg_eval e c) with b end.

(* in the three x86-64 builds (no miri, no no_* testing feature, hook off) detect() is the hand-written ladder;
   the forced variant of the hook is not consulted *)
Theorem src_detect_x86 : forall f cpu forced,
  src_detect (cfgs_of f) cpu forced = detect_x86 (has_avx512 f) cpu.
Proof.
  intros f cpu forced. unfold detect_x86, avail.
  destruct f; cbv [src_detect src_avx512_detected src_avx2_detected src_sse41_detected src_sse2_detected
                   src_avx512_detected_features src_avx2_detected_features src_sse41_detected_features
                   src_sse2_detected_features forallb has_avx512];
    eval_cfgs;
    cbn [andb];
    destruct (cpu "avx512f"%string), (cpu "avx512vl"%string), (cpu "avx2"%string), (cpu "sse4.1"%string),
      (cpu "sse2"%string); reflexivity.
Qed.

Theorem detect_x86_highest : forall a cpu,
  avail a cpu (detect_x86 a cpu) = true /\
  forall v, avail a cpu v = true -> level v <= level (detect_x86 a cpu).
Proof.
  intros a cpu. unfold detect_x86.
  destruct (avail a cpu AVX512) eqn:E5; [split; [exact E5|intros v _; destruct v; cbn; lia]|].
  destruct (avail a cpu AVX2) eqn:E4; [split; [exact E4|intros v Hv; destruct v; cbn; try lia; congruence]|].
  destruct (avail a cpu SSE41) eqn:E3; [split; [exact E3|intros v Hv; destruct v; cbn; try lia; congruence]|].
  destruct (avail a cpu SSE2) eqn:E2; [split; [exact E2|intros v Hv; destruct v; cbn; try lia; congruence]|].
  split; [reflexivity|]. intros v Hv; destruct v; cbn; try lia; try congruence; discriminate Hv.
Qed.

Corollary src_detect_avx512_iff : forall f cpu forced,
  src_detect (cfgs_of f) cpu forced = AVX512 <->
  has_avx512 f = true /\ cpu "avx512f"%string = true /\ cpu "avx512vl"%string = true.
Proof.
  intros f cpu forced. rewrite src_detect_x86. unfold detect_x86. cbn [avail].
  destruct (has_avx512 f && (cpu "avx512f"%string && cpu "avx512vl"%string)) eqn:E.
  - apply andb_prop in E. destruct E as [Ha E]. apply andb_prop in E. split; [intros _; split; assumption|reflexivity].
  - split; [|intros (Ha & Hf & Hvl); rewrite Ha, Hf, Hvl in E; discriminate E].
    destruct (cpu "avx2"%string), (cpu "sse4.1"%string), (cpu "sse2"%string); intros H; discriminate H.
Qed.

(* in EVERY build, with the hook silent, detect() returns a variant that exists in that build *)
Theorem src_detect_exists : forall cfgs cpu, variant_exists cfgs (src_detect cfgs cpu None) = true.
Proof.
  (* every arm is guarded by the cfgs under which its variant exists *)
  intros cfgs cpu. unfold src_detect.
  replace (if cfgs_eval cfgs [CAll _] then None else None) with (@None variant) by (destruct (cfgs_eval cfgs _); reflexivity).
  destruct (cfgs_eval cfgs [CAtom "miri"%string]); [reflexivity|].
  destruct (_ && src_avx512_detected cfgs cpu) eqn:E5.
  { apply andb_prop in E5. destruct E5 as [E5 _]. unfold variant_exists. cbn [variant_cfgs cfgs_eval] in *.
    rewrite andb_true_r in *. rewrite andb_comm. exact E5. }
  destruct (_ && src_avx2_detected cfgs cpu) eqn:E4; [apply andb_prop in E4; exact (proj1 E4)|].
  destruct (_ && src_sse41_detected cfgs cpu) eqn:E3; [apply andb_prop in E3; exact (proj1 E3)|].
  destruct (_ && src_sse2_detected cfgs cpu) eqn:E2; [apply andb_prop in E2; exact (proj1 E2)|].
  destruct (cfgs_eval cfgs [CAtom "blake3_neon"%string]) eqn:En; [exact En|].
  destruct (cfgs_eval cfgs [CAtom "blake3_wasm32_simd"%string]) eqn:Ew; [exact Ew|reflexivity].
Qed.

Lemma src_detect_helper_order :
  flat_map (fun s => match snd (fst s) with THelper h => [h] | _ => [] end) src_detect_steps =
  ["avx512_detected"; "avx2_detected"; "sse41_detected"; "sse2_detected"]%string.
Proof. reflexivity. Qed.

Theorem sse2_ffi_platform_ok : PlatformOK sse2_ffi_platform.
Proof. exact sse41_ffi_platform_ok. Qed.

Theorem model_platform_ok : forall f v p, model_platform f v = Some p -> PlatformOK p.
Proof.
  intros f v p H. destruct v; cbn [model_platform] in H.
  - inversion H; subst. apply (sim_platform_ok 1 16); (reflexivity || (intro Hc; discriminate Hc)).
  - inversion H; subst. destruct f; [exact sse2_ffi_platform_ok|exact sse2_platform_ok|exact sse2_platform_ok].
  - inversion H; subst. destruct f; [exact sse41_ffi_platform_ok|exact sse41_platform_ok|exact sse41_platform_ok].
  - inversion H; subst. destruct f; [exact avx2_ffi_platform_ok|exact avx2_platform_ok|exact avx2_platform_ok].
  - destruct (has_avx512 f); [|discriminate H]. inversion H; subst. exact avx512_platform_ok.
  - discriminate H.
  - discriminate H.
Qed.

(* whatever the CPU answers, detect() lands on a variant whose translated dispatch agrees with a PlatformOK record *)
Theorem src_detect_ok : forall f cpu forced,
  exists p, model_platform f (src_detect (cfgs_of f) cpu forced) = Some p /\
            agrees (cfgs_of f) (src_detect (cfgs_of f) cpu forced) p /\ PlatformOK p.
Proof.
  intros f cpu forced. rewrite src_detect_x86.
  destruct (detect_x86_highest (has_avx512 f) cpu) as [Hav _].
  set (v := detect_x86 (has_avx512 f) cpu) in *.
  pose proof (src_platform_agrees f v) as Ha.
  destruct (model_platform f v) as [p|] eqn:E.
  - exists p. split; [reflexivity|]. split; [exact Ha|]. exact (model_platform_ok f v p E).
  - exfalso. destruct v; cbn [model_platform] in E; try discriminate E; cbn [avail] in Hav; try discriminate Hav.
    destruct (has_avx512 f); [discriminate E|discriminate Hav].
Qed.

(* the C dispatcher (x86-64 build: IS_X86 defined, nothing disabled, no NEON) *)
Lemma src_c_compress_in_place_table : forall (k512 k41 k2 kp : cip_fn) features cv block bl ctr fl,
  src_c_compress_in_place defs_c_x86 k512 kp k2 k41 features cv block bl ctr fl =
  c_x86_compress_table k512 k41 k2 kp features cv block bl ctr fl.
Proof.
  intros. unfold src_c_compress_in_place, c_x86_compress_table, has_bit, ftest_eval.
  eval_cfgs.
  cbn [andb]. repeat (destruct (negb _); [reflexivity|]). reflexivity.
Qed.

Lemma src_c_compress_xof_table : forall (k512 k41 k2 kp : cip_fn) features cv block bl ctr fl,
  src_c_compress_xof defs_c_x86 k512 kp k2 k41 features cv block bl ctr fl =
  c_x86_compress_table k512 k41 k2 kp features cv block bl ctr fl.
Proof.
  intros. unfold src_c_compress_xof, c_x86_compress_table, has_bit, ftest_eval.
  eval_cfgs.
  cbn [andb]. repeat (destruct (negb _); [reflexivity|]). reflexivity.
Qed.

Lemma src_c_hash_many_table : forall k512 k8 k41 k2 kn kp features inputs num_inputs blocks key ctr incr fl fs fe,
  src_c_hash_many defs_c_x86 k8 k512 kn kp k2 k41 features inputs num_inputs blocks key ctr incr fl fs fe =
  c_x86_wide_table k512 k8 k41 k2 kp features inputs num_inputs blocks key ctr incr fl fs fe.
Proof.
  intros. unfold src_c_hash_many, c_x86_wide_table, has_bit, has_all, ftest_eval.
  eval_cfgs.
  cbn [andb]. change (N.lor src_c_feature_AVX512F src_c_feature_AVX512VL) with 96.
  destruct (N.land features 96 =? 96); [reflexivity|].
  repeat (destruct (negb _); [reflexivity|]). reflexivity.
Qed.

Lemma src_c_simd_degree_table : forall features,
  src_c_simd_degree defs_c_x86 features = c_x86_wide_table 16 8 4 4 1 features.
Proof.
  intros. unfold src_c_simd_degree, c_x86_wide_table, has_bit, has_all, ftest_eval.
  eval_cfgs.
  cbn [andb]. change (N.lor src_c_feature_AVX512F src_c_feature_AVX512VL) with 96.
  destruct (N.land features 96 =? 96); [reflexivity|].
  repeat (destruct (negb _); [reflexivity|]). reflexivity.
Qed.

Lemma src_c_xof_many_table : forall k512 (cx : cip_fn) features cv block bl ctr fl n,
  src_c_xof_many defs_c_x86 cx k512 features cv block bl ctr fl n =
  if n =? 0 then Ok []
  else if has_bit features src_c_feature_AVX512VL then k512 cv block bl ctr fl n
  else xof_many_loop cx cv block bl ctr fl (N.to_nat n).
Proof.
  intros. unfold src_c_xof_many, has_bit, ftest_eval.
  eval_cfgs.
  reflexivity.
Qed.

(* the degree ladder and the hash_many ladder test the same features in the same order: at every feature mask the
   degree returned is the degree of the kernel blake3_hash_many runs *)
Theorem src_c_degree_matches_hash_many : forall features,
  src_c_simd_degree defs_c_x86 features =
  snd (c_x86_wide_table (src_c_feature_AVX512F, 16) (src_c_feature_AVX2, 8) (src_c_feature_SSE41, 4)
                        (src_c_feature_SSE2, 4) (0, 1) features).
Proof.
  intros. rewrite src_c_simd_degree_table. unfold c_x86_wide_table.
  destruct (has_all _ _); [reflexivity|]. repeat (destruct (has_bit _ _); [reflexivity|]). reflexivity.
Qed.

Theorem src_c_simd_degree_ok : forall features, PlatformOK (c_platform (src_c_simd_degree defs_c_x86 features)).
Proof.
  intros. rewrite src_c_simd_degree_table. unfold c_x86_wide_table, c_platform.
  destruct (has_all _ _); [apply sim_platform_ok; (reflexivity || (intro Hc; discriminate Hc))|].
  repeat (destruct (has_bit _ _); [apply sim_platform_ok; (reflexivity || (intro Hc; discriminate Hc))|]).
  apply sim_platform_ok; (reflexivity || (intro Hc; discriminate Hc)).
Qed.

(* with the kernel models of Kernels.v behind the four symbols, the dispatched single-block functions are the
   portable ones at every feature mask and every argument *)
Theorem src_c_compress_in_place_ok : forall features cv block bl ctr fl,
  src_c_compress_in_place defs_c_x86 cip_rows compress_in_place cip_rows cip_rows features cv block bl ctr fl =
  compress_in_place cv block bl ctr fl.
Proof.
  intros. rewrite src_c_compress_in_place_table. unfold c_x86_compress_table.
  repeat (destruct (has_bit _ _); [apply cip_rows_total|]). reflexivity.
Qed.

Theorem src_c_compress_xof_ok : forall features cv block bl ctr fl,
  src_c_compress_xof defs_c_x86 cx_rows compress_xof cx_rows cx_rows features cv block bl ctr fl =
  compress_xof cv block bl ctr fl.
Proof.
  intros. rewrite src_c_compress_xof_table. unfold c_x86_compress_table.
  repeat (destruct (has_bit _ _); [apply cx_rows_total|]). reflexivity.
Qed.

Lemma hash_many_c1_ok cip : cip_ok cip -> hm_c_ok (hash_many_c1 cip).
Proof.
  intros Hc inputs blocks key ctr incr fl fs fe Lk U Hctr. unfold hash_many_c1.
  apply (single_loop_spec (hash_one_c cip) cadd_c false blocks key incr fl fs fe (hash_one_c_ok cip Hc) cadd_c_ok Lk);
    [exact U|exact Hctr|intros Hd; discriminate Hd].
Qed.

(* blake3_hash_many at every feature mask: whichever of the five modelled kernels is selected, the result is the
   specification of hash_many (hm_spec: the CVs of the inputs with the counters counter, counter+1, ..) *)
Theorem src_c_hash_many_ok : forall kn features inputs blocks key ctr incr fl fs fe,
  length key = 8%nat -> (forall i, In i inputs -> length i = (N.to_nat blocks * 64)%nat) ->
  ctr + N.of_nat (length inputs) < 2 ^ 64 ->
  src_c_hash_many defs_c_x86
    (c_hm (hash_many_c8 (load_counters_cmp 8) (load_counters_cmp 4) compress_in_place_rows))
    (c_hm (hash_many_c16 compress_in_place_rows))
    kn (c_hm (hash_many_c1 compress_in_place))
    (c_hm (hash_many_c4 (load_counters_cmp 4) compress_in_place_rows))
    (c_hm (hash_many_c4 (load_counters_cmp 4) compress_in_place_rows))
    features inputs (N.of_nat (length inputs)) blocks key ctr incr fl fs fe =
  Ok (hm_spec inputs key ctr incr fl fs fe).
Proof.
  intros kn features inputs blocks key ctr incr fl fs fe Lk U Hc.
  rewrite src_c_hash_many_table. unfold c_x86_wide_table, c_hm.
  assert (L4 : lc_ok 4 (load_counters_cmp 4)) by (apply load_counters_cmp_ok; cbn; lia).
  assert (L8 : lc_ok 8 (load_counters_cmp 8)) by (apply load_counters_cmp_ok; cbn; lia).
  destruct (has_all _ _); [apply hash_many_c16_ok; [exact cip_ok_rows|assumption..]|].
  destruct (has_bit _ _); [apply hash_many_c8_ok; [exact L8|exact L4|exact cip_ok_rows|assumption..]|].
  destruct (has_bit _ _); [apply hash_many_c4_ok; [exact L4|exact cip_ok_rows|assumption..]|].
  destruct (has_bit _ _); [apply hash_many_c4_ok; [exact L4|exact cip_ok_rows|assumption..]|].
  apply hash_many_c1_ok; [|assumption..]. intros cv block bl c f _. reflexivity.
Qed.

(* blake3_xof_many at every feature mask: the AVX-512 lane kernel or the loop over the dispatched
   blake3_compress_xof, both equal to the portable loop *)
Theorem src_c_xof_many_ok : forall features cv block bl ctr fl n, ctr + n < 2 ^ 64 ->
  src_c_xof_many defs_c_x86
    (src_c_compress_xof defs_c_x86 cx_rows compress_xof cx_rows cx_rows features)
    (guard_xm (xof_many_avx512 compress_xof_rows))
    features cv block bl ctr fl n =
  portable_xof_many cv block bl ctr fl n.
Proof.
  intros features cv block bl ctr fl n Hc. rewrite src_c_xof_many_table.
  destruct (N.eqb_spec n 0) as [->|Hn]; [reflexivity|].
  destruct (has_bit _ _).
  - unfold guard_xm, cv_ok. destruct (Nat.eqb_spec (length cv) 8) as [E|E]; [|reflexivity].
    apply xof_many_avx512_ok; [exact cx_ok_rows|exact E|exact Hc].
  - unfold portable_xof_many. apply xof_many_loop_ext. intros c. apply src_c_compress_xof_ok.
Qed.
