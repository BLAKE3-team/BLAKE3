(* C02 / C09 / C10: the Hasher theorems instantiated with the real compression
   function: any sequence of updates refines the bytes absorbed so far; finalize,
   finalize_xof, count are queries; subtree hashers (set_input_offset) compute the
   specification's subtree chaining value; reset yields the constructor state. *)
From V Require Import Proofs.ListP Proofs.ResP.
From V Require Import Base.Res Base.Word Base.MachInt gen.GenConsts gen.GenFormulas
  Spec.Compress Spec.Tree Spec.Blake3 Model.Portable Model.Platform Model.RsChunk Model.RsWide
  Model.RsHasher Model.RsXof Model.RsIo
  Proofs.PortableP Proofs.ChunkP Proofs.TreeP Proofs.FormulasP Proofs.WideP Proofs.C01P Proofs.XofP
  Proofs.StackArithP Proofs.HasherP Proofs.IoP.
Open Scope N_scope.

Section Subtree.
  Variables (K : list N) (F c0 : N).
  (* a (sub)tree starting at chunk c0 may hold at most lim_of chunks: the whole input
     (c0 = 0, 2^54) or a subtree at a non-zero offset (2^tz(c0)) *)
  Definition lim_of : N := if c0 =? 0 then 2 ^ 54 else 2 ^ tz 64 c0.

  Definition InvS := Inv spec_c8 K F c0 lim_of.

  Definition fresh : hasher := mkHasher K (cs_new K c0 F) c0 [].

  Lemma InvS_fresh : InvS fresh [].
  Proof. apply Inv_new. Qed.

  (* reset: the constructor state of the same key and flags (C10) *)
  Lemma reset_is_new h bs : InvS h bs -> hasher_reset h = new_internal K F.
  Proof. intros HI. destruct (Inv_fields _ _ _ _ _ _ _ HI) as (Hk & Hf & _). unfold hasher_reset. rewrite Hk, Hf. reflexivity. Qed.
End Subtree.

Section Limit.
  Variable c0 : N.
  Hypothesis Hc0 : c0 < 2 ^ 54.

  Lemma lim_ok : c0 + lim_of c0 <= 2 ^ 54.
  Proof.
    unfold lim_of. destruct (c0 =? 0) eqn:E; [lia|].
    (* c0 = 2^t * odd < 2^54, so c0 + 2^t <= 2^54 *)
    destruct c0 as [|q] eqn:Ec; [discriminate|]. cbn [tz].
    destruct (tz_pos_spec q) as [o Ho].
    set (t := tz_pos q) in *.
    assert (Ht : t < 54).
    { apply (N.pow_lt_mono_r_iff 2); [lia|]. pose proof (pow2_pos t). nia. }
    assert (Hd : 2 ^ 54 = 2 ^ t * 2 ^ (54 - t)) by (rewrite <- N.pow_add_r; f_equal; lia).
    rewrite Hd in *. rewrite Ho in *.
    assert (2 * o + 1 < 2 ^ (54 - t)) by (pose proof (pow2_pos t); nia).
    nia.
  Qed.

  Lemma lim_al : forall b, 2 ^ b <= lim_of c0 -> (2 ^ b | c0).
  Proof.
    clear Hc0. intros b Hb. unfold lim_of in Hb. destruct (c0 =? 0) eqn:E.
    - replace c0 with 0 by lia. apply N.divide_0_r.
    - destruct (tz_divides 64 c0 ltac:(lia)) as [Hd _].
      apply N.pow_le_mono_r_iff in Hb; [|lia].
      eapply N.divide_trans; [|exact Hd]. apply pow2_divides. exact Hb.
  Qed.

  Lemma lim_msl : rs_max_subtree_len (c0 * 1024) = Ok (if c0 =? 0 then None else Some (1024 * lim_of c0)).
  Proof.
    unfold lim_of. destruct (c0 =? 0) eqn:E.
    - replace c0 with 0 by lia. reflexivity.
    - apply rs_max_subtree_len_spec; lia.
  Qed.
End Limit.

Section SubtreeOps.
  Variable p : platform.
  Hypothesis POK : PlatformOK p.
  Variables (K : list N) (F : N).
  Hypothesis HK : length K = 8%nat.
  Variable c0 : N.
  Hypothesis Hc0 : c0 < 2 ^ 54.

  Notation InvS := (InvS K F c0).

  Lemma InvS_update h bs input :
    InvS h bs -> len (bs ++ input) <= 1024 * lim_of c0 -> len (bs ++ input) < 2 ^ 64 ->
    exists h', hasher_update p h input = Ok h' /\ InvS h' (bs ++ input).
  Proof.
    apply (hasher_update_spec spec_c8 p POK spec_c8_ok K F HK c0 (lim_of c0) (lim_ok c0 Hc0) Hc0
             (lim_al c0) (lim_msl c0 Hc0)).
  Qed.

  Lemma InvS_output h bs : InvS h bs ->
    final_output p h = Ok (subtree_output spec_c8 tree_height K F c0 bs).
  Proof.
    intros HI. rewrite (final_output_spec spec_c8 p POK spec_c8_ok K F HK c0 (lim_of c0) (lim_ok c0 Hc0) Hc0 h bs HI).
    rewrite subtree_output_tree. rewrite st_unfold. reflexivity.
  Qed.

  Lemma InvS_count h bs : InvS h bs -> hasher_count h = Ok (len bs).
  Proof using. apply hasher_count_spec. Qed.

  Lemma InvS_updates : forall pieces h bs,
    InvS h bs -> len (bs ++ concat pieces) <= 1024 * lim_of c0 -> len (bs ++ concat pieces) < 2 ^ 64 ->
    exists h', updates p h pieces = Ok h' /\ InvS h' (bs ++ concat pieces).
  Proof.
    induction pieces as [|x tl IH]; intros h bs HI H1 H2.
    - exists h. cbn [concat updates]. rewrite app_nil_r. auto.
    - cbn [concat updates] in *. rewrite app_assoc in H1, H2.
      destruct (InvS_update h bs x HI) as (h1 & Hu & HI1).
      { rewrite !len_app in *. lia. }
      { rewrite !len_app in *. lia. }
      rewrite Hu. cbn [bind].
      destruct (IH h1 (bs ++ x) HI1 H1 H2) as (h' & Hr & HI').
      exists h'. rewrite <- app_assoc in HI'. auto.
  Qed.
End SubtreeOps.

Lemma lim0 : 1024 * lim_of 0 = 2 ^ 64.
Proof. reflexivity. Qed.

Section Whole.
  Variable p : platform.
  Hypothesis POK : PlatformOK p.
  Variables (K : list N) (F : N).
  Hypothesis HK : length K = 8%nat.

  Notation Inv0 := (InvS K F 0).
  Notation root_of bs := (subtree_output spec_c8 tree_height K F 0 bs).

  Lemma new_internal_Inv : Inv0 (new_internal K F) [].
  Proof using. apply InvS_fresh. Qed.

  Lemma Inv0_update h bs input : Inv0 h bs -> len (bs ++ input) < 2 ^ 64 ->
    exists h', hasher_update p h input = Ok h' /\ Inv0 h' (bs ++ input).
  Proof.
    intros HI H. apply (InvS_update p POK K F HK 0 (pow2_pos 54) h bs input HI); [|exact H].
    rewrite lim0. apply N.lt_le_incl, H.
  Qed.

  Lemma Inv0_updates pieces h bs : Inv0 h bs -> len (bs ++ concat pieces) < 2 ^ 64 ->
    exists h', updates p h pieces = Ok h' /\ Inv0 h' (bs ++ concat pieces).
  Proof.
    intros HI H. apply (InvS_updates p POK K F HK 0 (pow2_pos 54) pieces h bs HI); [|exact H].
    rewrite lim0. apply N.lt_le_incl, H.
  Qed.

  Lemma Inv0_root h bs : Inv0 h bs -> wf_out (root_of bs) /\ o_ctr (root_of bs) = 0.
  Proof using HK. (* XofP.wf_out is WideP.wf_output *) intros HI. apply (root_output_wf K F bs HK), (Inv_fields _ _ _ _ _ _ _ HI). Qed.

  Lemma Inv0_finalize_output h bs : Inv0 h bs -> hasher_finalize_output p h = Ok (root_of bs).
  Proof.
    intros HI. destruct (Inv_fields _ _ _ _ _ _ _ HI) as (_ & _ & Hi & _).
    unfold hasher_finalize_output. rewrite Hi. exact (InvS_output p POK K F HK 0 (pow2_pos 54) h bs HI).
  Qed.

  Lemma Inv0_finalize h bs : Inv0 h bs -> hasher_finalize p h = Ok (stream spec_c64 (root_of bs) 0 32).
  Proof.
    intros HI. pose proof (Inv0_finalize_output h bs HI) as Ho. destruct (Inv0_root h bs HI) as [Hwf Hc].
    unfold hasher_finalize_output in Ho. unfold hasher_finalize.
    destruct (check (h_init h =? 0) 22) as [[]| |]; cbn [bind] in *; try discriminate.
    rewrite Ho. apply (out_root_hash_spec p POK); assumption.
  Qed.

  Lemma Inv0_reader h bs : Inv0 h bs -> Rd (reader_new (root_of bs)) (root_of bs) 0.
  Proof using HK. intros HI. destruct (Inv0_root h bs HI). apply Rd_new; assumption. Qed.

  Theorem hasher_refines pieces :
    len (concat pieces) < 2 ^ 64 ->
    exists h, updates p (new_internal K F) pieces = Ok h /\
      hasher_count h = Ok (len (concat pieces)) /\
      hasher_finalize_output p h = Ok (subtree_output spec_c8 tree_height K F 0 (concat pieces)) /\
      hasher_finalize p h = Ok (stream spec_c64 (subtree_output spec_c8 tree_height K F 0 (concat pieces)) 0 32).
  Proof.
    intros Hl. destruct (Inv0_updates pieces _ [] new_internal_Inv Hl) as (h & Hu & HI).
    cbn [app] in HI. exists h. split; [exact Hu|].
    split; [apply (InvS_count K F 0 h _ HI)|].
    split; [apply Inv0_finalize_output, HI|apply Inv0_finalize, HI].
  Qed.
End Whole.

From V Require Import Model.RsDebug Model.Machine.

Lemma get_nth {A} (l : list A) i x : nth_error l i = Some x -> get l i = Ok x.
Proof. unfold get. intros ->. reflexivity. Qed.

Lemma Forall2_set_nth {A B} (R : A -> B -> Prop) l1 l2 i x y :
  Forall2 R l1 l2 -> R x y -> Forall2 R (set_nth l1 i x) (set_nth l2 i y).
Proof.
  intros H Hxy. revert i. induction H as [|a b l1 l2 Hab H IH]; intros i; [constructor|].
  destruct i as [|i]; cbn [set_nth]; constructor; auto.
Qed.

Lemma set_nth_same {A} (l : list A) i x : nth_error l i = Some x -> set_nth l i x = l.
Proof.
  revert i. induction l as [|y l IH]; intros i H; [reflexivity|].
  destruct i as [|i]; cbn [nth_error set_nth] in *; [injection H as ->; reflexivity|].
  rewrite (IH i H). reflexivity.
Qed.

Lemma map_set_nth {A B} (f : A -> B) l i x : map f (set_nth l i x) = set_nth (map f l) i (f x).
Proof.
  revert i. induction l as [|y l IH]; intros i; [reflexivity|].
  destruct i as [|i]; cbn [set_nth map]; [reflexivity|]. rewrite IH. reflexivity.
Qed.

(* The ops of Machine.op that concern hashers alone, as a type of their own: history_refines quantifies over lists of
   these and runs their images under hop_op, where a theorem over Machine.op would carry the hypothesis that every op
   of the list is of this kind. *)
Inductive hop :=
| HNew | HUpdate (i : nat) (b : list N) | HFinalize (i : nat) | HXof (i : nat) (n : N)
| HCount (i : nat) | HClone (i : nat) | HReset (i : nat).

Definition hop_op (o : hop) : op :=
  match o with
  | HNew => OpNew | HUpdate i b => OpUpdate i b | HFinalize i => OpFinalize i | HXof i n => OpXof i n
  | HCount i => OpCount i | HClone i => OpClone i | HReset i => OpReset i
  end.

Section HistoryMachine.
  Variable p : platform.
  Hypothesis POK : PlatformOK p.
  Variables (K : list N) (F : N).
  Hypothesis HK : length K = 8%nat.
  Variables (pn : list N) (m : mmode).

  Notation root_of bs := (subtree_output spec_c8 tree_height K F 0 bs).
  Local Opaque subtree_output stream.

  (* the abstract machine: one byte list per instance *)
  Definition astep_h (st : list (list N)) (o : hop) : option (list (list N) * list obs) :=
    match o with
    | HNew => Some (st ++ [[]], [])
    | HUpdate i b =>
        match nth_error st i with
        | Some bs => if len (bs ++ b) <? 2 ^ 64 then Some (set_nth st i (bs ++ b), []) else None
        | None => None
        end
    | HFinalize i =>
        match nth_error st i with Some bs => Some (st, [ObHex (stream spec_c64 (root_of bs) 0 32)]) | None => None end
    | HXof i n =>
        match nth_error st i with
        | Some bs => if n <=? 2 ^ 64 - 1 then Some (st, [ObXof (stream spec_c64 (root_of bs) 0 (N.to_nat n))]) else None
        | None => None
        end
    | HCount i => match nth_error st i with Some bs => Some (st, [ObNum (len bs)]) | None => None end
    | HClone i => match nth_error st i with Some bs => Some (st ++ [bs], []) | None => None end
    | HReset i => match nth_error st i with Some _ => Some (set_nth st i [], []) | None => None end
    end.

  Fixpoint arun_h (st : list (list N)) (ops : list hop) : option (list obs) :=
    match ops with
    | [] => Some []
    | o :: tl =>
        match astep_h st o with
        | Some (st', out) => match arun_h st' tl with Some rest => Some (out ++ rest) | None => None end
        | None => None
        end
    end.

  Notation Inv0 := (InvS K F 0).

  Lemma step_refines hs rs vs abs o abs' out :
    Forall2 Inv0 hs abs -> astep_h abs o = Some (abs', out) ->
    exists hs', step p pn m K F (mkState hs rs vs) (hop_op o) = Ok (mkState hs' rs vs, out) /\ Forall2 Inv0 hs' abs'.
  Proof.
    intros HF Ha. destruct o as [|i b|i|i n|i|i|i]; cbn [astep_h hop_op step st_hashers] in *.
    2-7: destruct (nth_error abs i) as [bs|] eqn:En; [|discriminate];
      destruct (Forall2_nth _ _ _ _ _ HF En) as (h & Hn & HI); rewrite (get_nth _ _ _ Hn); cbn [bind].
    - injection Ha as <- <-. eexists. split; [reflexivity|].
      apply Forall2_snoc; [exact HF|]. apply new_internal_Inv.
    - destruct (len (bs ++ b) <? 2 ^ 64) eqn:El; [|discriminate]. injection Ha as <- <-.
      destruct (Inv0_update p POK K F HK h bs b HI ltac:(lia)) as (h' & Hu & HI').
      rewrite Hu. cbn [bind]. eexists. split; [reflexivity|].
      apply Forall2_set_nth; assumption.
    - injection Ha as <- <-. rewrite (Inv0_finalize p POK K F HK h bs HI). cbn [bind].
      eexists. split; [reflexivity|exact HF].
    - destruct (n <=? 2 ^ 64 - 1) eqn:El; [|discriminate]. injection Ha as <- <-.
      rewrite (Inv0_finalize_output p POK K F HK h bs HI). cbn [bind].
      destruct (reader_fill_spec p POK _ _ 0 n (Inv0_reader K F HK h bs HI) ltac:(lia)) as (r' & Hf & _).
      rewrite Hf. cbn [bind]. eexists. split; [reflexivity|exact HF].
    - injection Ha as <- <-. rewrite (InvS_count K F 0 h bs HI). cbn [bind].
      eexists. split; [reflexivity|exact HF].
    - injection Ha as <- <-. eexists. split; [reflexivity|]. apply Forall2_snoc; assumption.
    - injection Ha as <- <-. rewrite (reset_is_new K F 0 h bs HI).
      eexists. split; [reflexivity|]. apply Forall2_set_nth; [exact HF|]. apply new_internal_Inv.
  Qed.

  (* C02 at the level of call histories: any finite sequence of update / clone / finalize /
     finalize_xof / count / reset / new over any number of instances yields exactly the
     observations of the abstract machine, and never panics *)
  Theorem history_refines : forall ops hs rs vs abs obs,
    Forall2 Inv0 hs abs -> arun_h abs ops = Some obs ->
    run_ops p pn m K F (mkState hs rs vs) (map hop_op ops) [] = (obs, Ok tt).
  Proof.
    intros ops hs rs vs abs obs.
    (* the implementation machine runs the images of the ops; only its hashers are related to the abstract state *)
    refine (run_sim (fun s o => step p pn m K F s (hop_op o)) astep_h
              (fun s ops acc => run_ops p pn m K F s (map hop_op ops) acc) arun_h
              (fun s abs => Forall2 Inv0 (st_hashers s) abs)
              (fun _ _ => eq_refl) (fun _ _ _ _ => eq_refl) (fun _ => eq_refl) (fun _ _ _ => eq_refl) _
              ops (mkState hs rs vs) abs obs []).
    intros o [hs0 rs0 vs0] a a' out HF Es. destruct (step_refines hs0 rs0 vs0 a o a' out HF Es) as (hs' & Hs & HF').
    eexists. split; [exact Hs|exact HF'].
  Qed.
End HistoryMachine.

Section Compositions.
  Variable p : platform.
  Hypothesis POK : PlatformOK p.
  Variables (K : list N) (F : N).
  Hypothesis HK : length K = 8%nat.
  Local Opaque subtree_output.

  (* finalize_xof of a hasher that absorbed `pieces`: a reader at position 0 of the stream of the
     specification's root output *)
  Theorem finalize_xof_reader pieces :
    len (concat pieces) < 2 ^ 64 ->
    exists h, updates p (new_internal K F) pieces = Ok h /\
      hasher_finalize_output p h = Ok (subtree_output spec_c8 tree_height K F 0 (concat pieces)) /\
      Rd (reader_new (subtree_output spec_c8 tree_height K F 0 (concat pieces)))
         (subtree_output spec_c8 tree_height K F 0 (concat pieces)) 0.
  Proof.
    intros Hl. destruct (Inv0_updates p POK K F HK pieces _ [] (new_internal_Inv K F) Hl) as (h & Hu & HI).
    exists h. split; [exact Hu|].
    split; [exact (Inv0_finalize_output p POK K F HK h _ HI)|exact (Inv0_reader K F HK h _ HI)].
  Qed.

  (* update_reader over any reader script: afterwards the hasher has absorbed exactly the bytes the
     reader yielded before end of file or the first hard error *)
  Theorem update_reader_refines h bs data script :
    InvS K F 0 h bs -> len (bs ++ data) < 2 ^ 64 ->
    exists h' r, update_reader p h data script = Ok (h', r) /\
      InvS K F 0 h' (bs ++ concat (fst (delivered (copy_fuel data script) data script))) /\
      match snd (delivered (copy_fuel data script) data script) with
      | EndEof => r = CopyOk (nlen (concat (fst (delivered (copy_fuel data script) data script))))
      | EndErr k => r = CopyErr k
      | EndFuel => False
      end.
  Proof.
    intros HI Hl. unfold update_reader.
    destruct (delivered_prefix (copy_fuel data script) data script) as [rest Hrest].
    set (ps := fst (delivered (copy_fuel data script) data script)) in *.
    assert (Hlen : len (bs ++ concat ps) < 2 ^ 64).
    { rewrite Hrest in Hl. rewrite !len_app in *. lia. }
    destruct (Inv0_updates p POK K F HK ps h bs HI Hlen) as (h' & Hu & HI').
    pose proof (copy_wide_spec p (copy_fuel data script) h data script 0 h') as Hc.
    rewrite len_app in Hl. fold ps in Hc.
    specialize (Hc ltac:(unfold nlen; unfold len in Hl; lia) Hu).
    pose proof (copy_fuel_enough data script) as Hf.
    destruct (snd (delivered (copy_fuel data script) data script)) eqn:Es.
    - eexists. eexists. split; [exact Hc|]. split; [exact HI'|]. rewrite N.add_0_l. reflexivity.
    - eexists. eexists. split; [exact Hc|]. split; [exact HI'|reflexivity].
    - contradiction.
  Qed.
End Compositions.
