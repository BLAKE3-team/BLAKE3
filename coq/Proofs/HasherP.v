(* C02 / C09 / C10 core: the incremental Hasher (lazy CV stack, subtree offsets)
   refines "the bytes absorbed so far": the stack is abstracted by a list of exponents,
   its trees form the right spine of the specification tree, and update, push_cv,
   merge_cv_stack and final_output keep that invariant. *)
From V Require Import Proofs.ListP Proofs.ResP.
From V Require Import Base.Res Base.Word Base.MachInt gen.GenConsts gen.GenFormulas
  Spec.Compress Spec.Tree Model.Portable Model.Platform Model.RsChunk Model.RsWide Model.RsHasher
  Proofs.ChunkP Proofs.TreeP Proofs.FormulasP Proofs.WideP Proofs.StackArithP.
Open Scope N_scope.

Definition st (ctr : N) (bs : list N) : tree := spec_tree wide_fuel ctr bs.

Lemma two_pow_64 : 2 ^ N.of_nat 64 = 18446744073709551616.
Proof. reflexivity. Qed.
Lemma two_pow_63 : 2 ^ N.of_nat 63 = 9223372036854775808.
Proof. reflexivity. Qed.

Lemma st_leaf ctr bs : len bs <= 1024 -> st ctr bs = Leaf ctr bs.
Proof. apply spec_tree_leaf. Qed.

Lemma st_node ctr bs : 1024 < len bs -> len bs <= 1024 * 2 ^ 64 ->
  st ctr bs = Node (st ctr (take (left_len (len bs)) bs))
                   (st (ctr + left_len (len bs) / 1024) (drop (left_len (len bs)) bs)).
Proof. intros H1 H2. apply spec_tree_node; [exact H1|exact H2]. Qed.

Lemma st_split ctr bs a : 1024 * 2 ^ a < len bs <= 2 * (1024 * 2 ^ a) -> len bs <= 1024 * 2 ^ 64 ->
  st ctr bs = Node (st ctr (take (1024 * 2 ^ a) bs)) (st (ctr + 2 ^ a) (drop (1024 * 2 ^ a) bs)).
Proof.
  intros Ha Hb. pose proof (pow2_pos a). rewrite st_node, (left_len_eq (len bs) a), mul_div_l by lia. reflexivity.
Qed.

Lemma st_app ctr A R a : len A = 1024 * 2 ^ a -> 0 < len R <= 1024 * 2 ^ a -> len (A ++ R) <= 1024 * 2 ^ 64 ->
  st ctr (A ++ R) = Node (st ctr A) (st (ctr + 2 ^ a) R).
Proof.
  intros HA HR Hb. rewrite (st_split ctr (A ++ R) a) by (rewrite len_app in *; lia).
  rewrite <- HA, take_app_le, take_all, drop_app_ge, N.sub_diag, drop_0 by lia. reflexivity.
Qed.

(* the stack as a list of exponents, bottom of the stack first *)
Fixpoint trees_of (ctr : N) (bs : list N) (es : list N) : list tree :=
  match es with
  | [] => []
  | a :: tl => st ctr (take (1024 * 2 ^ a) bs) :: trees_of (ctr + 2 ^ a) (drop (1024 * 2 ^ a) bs) tl
  end.

Lemma trees_of_length ctr bs es : length (trees_of ctr bs es) = length es.
Proof. revert ctr bs. induction es as [|a es IH]; intros; [reflexivity|]. cbn. rewrite IH. reflexivity. Qed.

Lemma trees_of_app ctr bs e1 e2 :
  trees_of ctr bs (e1 ++ e2) = trees_of ctr bs e1 ++ trees_of (ctr + sum2 e1) (drop (1024 * sum2 e1) bs) e2.
Proof.
  revert ctr bs. induction e1 as [|a e1 IH]; intros ctr bs.
  - cbn [app trees_of sum2]. rewrite N.add_0_r, N.mul_0_r, drop_0. reflexivity.
  - cbn [app trees_of sum2]. rewrite IH, drop_drop.
    replace (ctr + 2 ^ a + sum2 e1) with (ctr + (2 ^ a + sum2 e1)) by lia.
    replace (1024 * 2 ^ a + 1024 * sum2 e1) with (1024 * (2 ^ a + sum2 e1)) by lia. reflexivity.
Qed.

Lemma trees_of_snoc ctr bs es b :
  trees_of ctr bs (es ++ [b]) =
  trees_of ctr bs es ++ [st (ctr + sum2 es) (take (1024 * 2 ^ b) (drop (1024 * sum2 es) bs))].
Proof. rewrite trees_of_app. reflexivity. Qed.

Lemma st_pair ctr X a : 1024 * (2 * 2 ^ a) <= len X -> a + 1 <= 64 ->
  Node (st ctr (take (1024 * 2 ^ a) X)) (st (ctr + 2 ^ a) (take (1024 * 2 ^ a) (drop (1024 * 2 ^ a) X)))
  = st ctr (take (1024 * 2 ^ (a + 1)) X).
Proof.
  intros Hl Ha. pose proof (pow2_pos a).
  assert (2 * 2 ^ a <= 2 ^ 64) by (rewrite <- N.pow_succ_r'; apply N.pow_le_mono_r; lia).
  replace (1024 * 2 ^ (a + 1)) with (1024 * 2 ^ a + 1024 * 2 ^ a) by (rewrite N.add_1_r, N.pow_succ_r'; lia).
  rewrite <- take_add. symmetry. apply (st_app _ _ _ a); rewrite ?len_app, !len_take, ?len_drop; lia.
Qed.

Lemma trees_of_ext ctr bs ext es : 1024 * sum2 es <= len bs ->
  trees_of ctr (bs ++ ext) es = trees_of ctr bs es.
Proof.
  revert ctr bs. induction es as [|a es IH]; intros ctr bs H; [reflexivity|].
  cbn [trees_of sum2] in *. pose proof (pow2_pos a).
  rewrite take_app_le by lia. rewrite drop_app_le by lia. rewrite IH by (rewrite len_drop; lia). reflexivity.
Qed.

Fixpoint spine (ts : list tree) (last : tree) : tree :=
  match ts with [] => last | t :: tl => Node t (spine tl last) end.

Lemma spine_snoc ts x t : spine (ts ++ [x]) t = spine ts (Node x t).
Proof. induction ts as [|y ts IH]; cbn [app spine]; [reflexivity|]. rewrite IH. reflexivity. Qed.

Fixpoint DomR (es : list N) (r : N) : Prop :=
  match es with [] => True | a :: tl => 1024 * sum2 tl + r <= 1024 * 2 ^ a /\ DomR tl r end.

Lemma SDom_DomR es r : SDom es -> r <= 1024 -> DomR es r.
Proof.
  induction es as [|a es IH]; cbn; [auto|]. intros [H1 H2] Hr. split; [lia|auto].
Qed.

Lemma Dom_DomR0 es : Dom es -> DomR es 0.
Proof. induction es as [|a es IH]; cbn; [auto|]. intros [H1 H2]. split; [lia|auto]. Qed.

Lemma DomR_app es a : Dom (es ++ [a]) -> DomR es (1024 * 2 ^ a).
Proof.
  induction es as [|b es IH]; cbn [app Dom DomR]; [auto|].
  intros [H1 H2]. rewrite sum2_app in H1. cbn [sum2] in H1. split; [lia|auto].
Qed.

Lemma spine_st : forall es ctr bs,
  1024 * sum2 es < len bs -> len bs <= 1024 * 2 ^ 64 ->
  DomR es (len bs - 1024 * sum2 es) ->
  spine (trees_of ctr bs es) (st (ctr + sum2 es) (drop (1024 * sum2 es) bs)) = st ctr bs.
Proof.
  induction es as [|a es IH]; intros ctr bs Hlo Hhi HD.
  - cbn [trees_of spine sum2]. rewrite N.add_0_r, N.mul_0_r, drop_0. reflexivity.
  - cbn [trees_of spine sum2 DomR] in *. destruct HD as [H1 H2]. pose proof (pow2_pos a) as Hp.
    rewrite (st_split ctr bs a) by lia. f_equal.
    specialize (IH (ctr + 2 ^ a) (drop (1024 * 2 ^ a) bs)).
    rewrite len_drop, drop_drop in IH.
    replace (ctr + 2 ^ a + sum2 es) with (ctr + (2 ^ a + sum2 es)) in IH by lia.
    replace (1024 * 2 ^ a + 1024 * sum2 es) with (1024 * (2 ^ a + sum2 es)) in IH by lia.
    apply IH; try lia.
    replace (len bs - 1024 * 2 ^ a - 1024 * sum2 es) with (len bs - 1024 * (2 ^ a + sum2 es)) by lia. exact H2.
Qed.

Lemma st_wf ctr bs : len bs <= 1024 * 2 ^ 64 -> wf_tree (st ctr bs).
Proof. intros H. apply spec_tree_wf. exact H. Qed.

Lemma st_take_wf ctr bs a : a <= 64 -> wf_tree (st ctr (take (1024 * 2 ^ a) bs)).
Proof.
  intros H. apply st_wf. rewrite len_take. assert (2 ^ a <= 2 ^ 64) by (apply N.pow_le_mono_r; lia). lia.
Qed.

Lemma trees_of_wf : forall es ctr bs, Forall (fun a => a <= 64) es -> Forall wf_tree (trees_of ctr bs es).
Proof.
  induction es as [|a es IH]; intros ctr bs H; [constructor|].
  inversion H; subst. cbn [trees_of]. constructor; [apply st_take_wf; assumption|apply IH; assumption].
Qed.

Lemma st_unfold ctr bs : st ctr bs = spec_tree wide_fuel ctr bs.
Proof. reflexivity. Qed.

(* From here on st is opened by st_unfold only.  Left transparent, a conversion between two trees unfolds spec_tree at
   its 64 levels of fuel on both sides: Proofs/RefStackP.v then does not finish checking. *)
Global Opaque st.

Lemma sum2_bound a es : In a es -> 2 ^ a <= sum2 es.
Proof.
  induction es as [|b es IH]; intros H; [contradiction|].
  cbn [sum2]. destruct H as [->|H]; [lia|]. specialize (IH H). lia.
Qed.

Lemma exps_le es m : sum2 es <= 2 ^ m -> Forall (fun a => a <= m) es.
Proof.
  intros H. apply Forall_forall. intros a Ha. pose proof (sum2_bound a es Ha) as Hb.
  apply (N.pow_le_mono_r_iff 2); lia.
Qed.

Lemma shrink_loop_spec q : (1024 | q) -> forall fuel e,
  (N.to_nat e < fuel)%nat -> 10 <= e -> e < 64 ->
  exists e', shrink_loop fuel (2 ^ e) q = Ok (2 ^ e') /\ 10 <= e' /\ e' <= e /\ (2 ^ e' | q).
Proof.
  intros Hq. induction fuel as [|fuel IH]; intros e Hf He1 He2; [lia|].
  cbn [shrink_loop]. rewrite rs_shrink_cond_spec by exact He2. cbn [bind].
  destruct (q mod 2 ^ e =? 0) eqn:E; cbn [negb].
  - exists e. repeat split; try lia. apply N.mod_divide; [apply N.pow_nonzero; lia|lia].
  - destruct (N.eq_dec e 10) as [->|Hne].
    + exfalso. change (2 ^ 10) with 1024 in E. destruct Hq as [k Hk]. rewrite Hk, N.mod_mul in E by lia. discriminate.
    + replace (2 ^ e / 2) with (2 ^ (e - 1)).
      2:{ replace e with (N.succ (e - 1)) at 2 by lia. rewrite N.pow_succ_r', mul_div_l; lia. }
      destruct (IH (e - 1)) as (e' & Hr & H1 & H2 & H3); try lia.
      exists e'. repeat split; try assumption; lia.
Qed.

(* with C chunks absorbed at offset c0 and n > 1024 bytes of input: a power-of-two number of chunks
   that fits the input and divides the chunks absorbed so far.  lim: what the offset admits. *)
Lemma subtree_choice c0 lim C n :
  (forall b, 2 ^ b <= lim -> (2 ^ b | c0)) ->
  1024 < n -> 1024 * C + n <= 1024 * lim -> 1024 * C + n < 2 ^ 64 -> (c0 + C) * 1024 < 2 ^ 64 ->
  exists b s, rs_largest_power_of_two_leq n = Ok s /\ shrink_loop 64 s ((c0 + C) * 1024) = Ok (1024 * 2 ^ b) /\
    1024 * 2 ^ b <= n /\ (2 ^ b | C).
Proof.
  intros Hal Hn Hlim H64 Hc.
  pose proof (N.log2_spec n ltac:(lia)) as [Hlg1 Hlg2]. set (e := N.log2 n) in *.
  assert (He : 10 <= e < 64).
  { split; [apply N.lt_succ_r|]; apply (N.pow_lt_mono_r_iff 2); change (2 ^ 10) with 1024; lia. }
  destruct (shrink_loop_spec ((c0 + C) * 1024) ltac:(exists (c0 + C); reflexivity) 64 e) as (e' & Hshr & He1 & He2 & [m Hm]); try lia.
  assert (Hsub : 2 ^ e' = 1024 * 2 ^ (e' - 10)).
  { replace e' with (10 + (e' - 10)) at 1 by lia. rewrite N.pow_add_r. reflexivity. }
  assert (Hle : 2 ^ e' <= 2 ^ e) by (apply N.pow_le_mono_r; lia).
  exists (e' - 10), (2 ^ e). rewrite <- Hsub. split; [apply rs_largest_power_of_two_leq_spec; lia|].
  split; [exact Hshr|]. split; [lia|].
  apply (N.divide_add_cancel_r _ c0); [apply Hal; lia|]. exists m. nia.
Qed.

(* The CV stack as a list of (exponent, tree) entries, bottom first, whatever the trees are.  Merges l l': l' arises
   from l by replacing, any number of times, two top entries of equal size by their parent. *)
Inductive Merges : list (N * tree) -> list (N * tree) -> Prop :=
| Merges_refl l : Merges l l
| Merges_step pre a t1 t2 l' :
    Merges (pre ++ [(a + 1, Node t1 t2)]) l' -> Merges (pre ++ [(a, t1); (a, t2)]) l'.

Lemma map_fst_snoc2 {B} : forall pre (l : list (N * B)) a b, map fst l = pre ++ [a; b] ->
  exists lp x y, l = lp ++ [(a, x); (b, y)] /\ map fst lp = pre.
Proof.
  induction pre as [|e pre IH]; intros l a b H.
  - destruct l as [|[a' x] [|[b' y] [|? ?]]]; try discriminate. injection H as -> ->. exists [], x, y. auto.
  - destruct l as [|[e' x] l]; [discriminate|]. injection H as -> H.
    destruct (IH l a b H) as (lp & y & z & -> & <-). exists ((e, x) :: lp), y, z. auto.
Qed.

Lemma sdom_no_pair pre a : SDom (pre ++ [a; a]) -> False.
Proof. induction pre as [|b pre IH]; cbn [app SDom sum2]; intros [H1 H2]; [lia|auto]. Qed.

Lemma Merges_sum2 l l' : Merges l l' -> sum2 (map fst l') = sum2 (map fst l).
Proof.
  induction 1 as [|pre a t1 t2 l' _ IH]; [reflexivity|]. rewrite IH, !map_app, !sum2_app. cbn [map fst sum2].
  rewrite N.add_1_r, N.pow_succ_r'. lia.
Qed.

Lemma Merges_wf l l' : Merges l l' -> Forall wf_tree (map snd l) -> Forall wf_tree (map snd l').
Proof.
  induction 1 as [|pre a t1 t2 l' _ IH]; intros H; [exact H|]. apply IH.
  rewrite map_app, Forall_app in *. destruct H as [Hp H2]. split; [exact Hp|].
  cbn [map snd] in *. inversion H2 as [|? ? W1 H3]; subst. inversion H3 as [|? ? W2 _]; subst.
  repeat constructor; assumption.
Qed.

Lemma Merges_sdom l l' : Merges l l' -> SDom (map fst l) -> l' = l.
Proof.
  destruct 1 as [|pre a t1 t2 l' _]; intros HS; [reflexivity|].
  rewrite map_app in HS. destruct (sdom_no_pair _ _ HS).
Qed.

(* by st_pair: the parent of two neighbours of 2^a chunks is the subtree of their 2^(a+1) chunks *)
Lemma Merges_trees l l' : Merges l l' -> forall ctr bs,
  1024 * sum2 (map fst l) <= len bs -> sum2 (map fst l) <= 2 ^ 64 ->
  map snd l = trees_of ctr bs (map fst l) -> map snd l' = trees_of ctr bs (map fst l').
Proof.
  induction 1 as [|pre a t1 t2 l' HM IH]; intros ctr bs Hl Hs Ht; [exact Ht|].
  pose proof (Merges_sum2 _ _ (Merges_step _ _ _ _ _ HM)) as Hsum. rewrite (Merges_sum2 _ _ HM) in Hsum.
  apply IH; rewrite ?Hsum; try assumption. clear IH HM Hsum l'.
  rewrite !map_app, !trees_of_app in *. rewrite sum2_app in Hl, Hs. cbn [map fst snd trees_of sum2] in *.
  set (X := drop (1024 * sum2 (map fst pre)) bs) in *. pose proof (pow2_pos a).
  change [t1; t2] with ([t1] ++ [t2]) in Ht.
  change [?x; ?y] with ([x] ++ [y]) in Ht. rewrite !app_assoc in Ht.
  apply app_inj_tail in Ht. destruct Ht as [Ht ->]. apply app_inj_tail in Ht. destruct Ht as [-> ->].
  assert (HX : len X = len bs - 1024 * sum2 (map fst pre)) by (unfold X; apply len_drop).
  assert (Ha : a + 1 <= 64) by (apply (N.pow_le_mono_r_iff 2); rewrite ?N.add_1_r, ?N.pow_succ_r'; lia).
  rewrite st_pair by lia. reflexivity.
Qed.

Fixpoint segs_of (ctr : N) (bs : list N) (es : list N) : list (N * tree) :=
  match es with
  | [] => []
  | a :: tl => (a, st ctr (take (1024 * 2 ^ a) bs)) :: segs_of (ctr + 2 ^ a) (drop (1024 * 2 ^ a) bs) tl
  end.

Lemma segs_of_fst es : forall ctr bs, map fst (segs_of ctr bs es) = es.
Proof. induction es as [|a es IH]; intros; cbn [segs_of map fst]; [reflexivity|]. rewrite IH. reflexivity. Qed.

Lemma segs_of_snd es : forall ctr bs, map snd (segs_of ctr bs es) = trees_of ctr bs es.
Proof. induction es as [|a es IH]; intros; cbn [segs_of map snd trees_of]; [reflexivity|]. rewrite IH. reflexivity. Qed.

Section StackRep.
  Variable c8 : list N -> list N -> N -> N -> N -> list N.
  Variables (K : list N) (F : N).
  (* the subtree this hasher computes starts at chunk c0 and may hold at most lim chunks: 2^54 for the whole input
     (c0 = 0), and for c0 > 0 the largest power of two that divides c0, hazmat's max_subtree_len in chunks.  Here and
     in HasherProof lim is any number with the properties the proofs use (Hlim, Hal, Hmsl); C02P.lim_of is that
     value, and lim_ok, lim_al, lim_msl prove them of it. *)
  Variables (c0 lim : N).

  Notation tcv := (tree_cv c8 K F).

  Definition stack_of (bs : list N) (es : list N) : list (list N) := rev (map tcv (trees_of c0 bs es)).

  Lemma stack_of_length bs es : length (stack_of bs es) = length es.
  Proof. unfold stack_of. rewrite rev_length, map_length, trees_of_length. reflexivity. Qed.

  Lemma stack_of_snoc bs es b :
    stack_of bs (es ++ [b]) =
    tcv (st (c0 + sum2 es) (take (1024 * 2 ^ b) (drop (1024 * sum2 es) bs))) :: stack_of bs es.
  Proof. unfold stack_of. rewrite trees_of_app, map_app, rev_app_distr. reflexivity. Qed.

  Lemma stack_of_ext bs ext es : 1024 * sum2 es <= len bs -> stack_of (bs ++ ext) es = stack_of bs es.
  Proof. intros H. unfold stack_of. rewrite trees_of_ext by exact H. reflexivity. Qed.

  Definition StackRep (h : hasher) (bs : list N) (es : list N) : Prop :=
    h_key h = K /\ h_flags h = F /\ h_init h = c0 /\ h_stack h = stack_of bs es /\
    Dom es /\ 1024 * sum2 es <= len bs.

  Lemma with_cs_StackRep h bs es cs : StackRep h bs es -> cs_flags cs = F -> StackRep (with_cs h cs) bs es.
  Proof. intros (Hk & Hf & Hi & Hst & HD & Hl) Hc. unfold StackRep, with_cs, h_flags. cbn. auto 10. Qed.

  Lemma StackRep_ext h bs ext es : StackRep h bs es -> StackRep h (bs ++ ext) es.
  Proof.
    intros (Hk & Hf & Hi & Hst & HD & Hl). unfold StackRep. rewrite stack_of_ext by exact Hl.
    rewrite len_app. repeat split; try assumption. lia.
  Qed.

  (* The third conjunct is what final_output asserts (code 1405) when the chunk state holds bytes: the stack is
     merged down to popcount-many entries; the fourth is its `rcv :: lcv :: rest` pattern when it holds none: the
     last subtree pushed is still unmerged below the top. *)
  Definition Inv (h : hasher) (bs : list N) : Prop :=
    exists es,
      StackRep h bs es /\
      Tight c8 K F (c0 + sum2 es) (h_cs h) (drop (1024 * sum2 es) bs) /\
      (0 < len bs - 1024 * sum2 es -> SDom es) /\
      (len bs = 1024 * sum2 es -> sum2 es = 0 \/ (2 <= length es)%nat) /\
      len bs <= 1024 * lim /\ len bs < 2 ^ 64.

  Lemma Inv_fields h bs : Inv h bs ->
    h_key h = K /\ h_flags h = F /\ h_init h = c0 /\ len bs <= 1024 * lim /\ len bs < 2 ^ 64.
  Proof. intros (es & (Hk & Hf & Hi & _) & _ & _ & _ & Hl & H64). auto. Qed.

  Lemma Inv_new : Inv (mkHasher K (cs_new K c0 F) c0 []) [].
  Proof.
    exists []. unfold StackRep. cbn [h_key h_flags h_cs h_init h_stack cs_new cs_flags sum2 Dom].
    change (len []) with 0. rewrite N.add_0_r, two64.
    split; [repeat split; lia|]. split; [apply Tight_cs_new|]. repeat split; (lia || auto).
  Qed.

  Lemma Inv_nil h : Inv h [] -> h = mkHasher K (cs_new K c0 F) c0 [].
  Proof.
    intros (es & (Hk & Hf & Hi & Hs & _ & Hle) & HT & _). change (len []) with 0 in Hle.
    assert (Hes : es = []) by (destruct es as [|a es]; [reflexivity|cbn [sum2] in Hle; pose proof (pow2_pos a); lia]).
    subst es. cbn [sum2] in HT. rewrite N.mul_0_r, drop_0, N.add_0_r in HT. apply Tight_nil in HT.
    destruct h as [hk hcs hi hst]. cbn [h_key h_cs h_init h_stack] in *. subst. reflexivity.
  Qed.
  Lemma hasher_count_spec h bs : Inv h bs -> hasher_count h = Ok (len bs).
  Proof.
    intros (es & (Hk & Hf & Hi & Hst & HD & Hl) & HT & _ & _ & Hblim & Hb64).
    destruct (Tight_fields _ _ _ _ _ _ HT) as (Hctr & _ & Hp). rewrite len_drop in Hp.
    unfold hasher_count. rewrite (Tight_count _ _ _ _ _ _ HT). cbn [bind]. rewrite Hctr, Hi, len_drop.
    rewrite rs_count_spec by lia. f_equal. lia.
  Qed.
End StackRep.

Section HasherProof.
  Variable c8 : list N -> list N -> N -> N -> N -> list N.
  Variable p : platform.
  Hypothesis POK : PlatformOK p.
  Hypothesis Hc8 : c8_ok c8.
  Variables (K : list N) (F : N).
  Hypothesis HK : length K = 8%nat.
  Variable c0 : N.

  Notation Hpcip := (proj1 Hc8).
  Notation Hc8len := (proj2 Hc8).

  Notation tcv := (tree_cv c8 K F).
  Notation stack_of := (stack_of c8 K F c0).
  Notation StackRep := (StackRep c8 K F c0).
  Notation Tight := (Tight c8 K F).
  Notation Hcip' := (cip_is_c8 c8 p POK Hpcip).
  Notation ocv_tree := (out_cv_tree c8 p POK Hpcip Hc8len K F HK).

  Lemma parent_cv_spec h t1 t2 :
    h_key h = K -> h_flags h = F -> wf_tree t1 -> wf_tree t2 ->
    parent_cv p h (tcv t1) (tcv t2) = tcv (Node t1 t2).
  Proof. intros Hk Hf W1 W2. unfold parent_cv. rewrite Hk, Hf. exact (ocv_tree (Node t1 t2) (conj W1 W2)). Qed.

  Definition cvs_of (l : list (N * tree)) : list (list N) := rev (map tcv (map snd l)).

  Lemma merge_loop_abs : forall n l fuel h,
    length l = n -> (n <= fuel)%nat -> h_key h = K -> h_flags h = F ->
    Forall wf_tree (map snd l) -> Dom (map fst l) ->
    exists l', merge_loop fuel p h (cvs_of l) (popcount (sum2 (map fst l))) = Ok (cvs_of l') /\
               Merges l l' /\ SDom (map fst l').
  Proof.
    induction n as [|n IH]; intros l fuel h Hn Hfuel Hk Hf W HD.
    - destruct l; [|discriminate]. exists []. split; [destruct fuel; reflexivity|]. split; [constructor|exact I].
    - destruct fuel as [|fuel]; [lia|]. cbn [merge_loop]. unfold cvs_of at 1. rewrite rev_length, !map_length.
      destruct (N.of_nat (length l) <=? popcount (sum2 (map fst l))) eqn:E.
      + exists l. split; [reflexivity|]. split; [constructor|]. apply dom_merged; [exact HD|rewrite map_length; lia].
      + destruct (dom_needs_merge _ HD ltac:(rewrite map_length; lia)) as (pre & a & Hpre).
        destruct (map_fst_snoc2 pre l a a Hpre) as (lp & t1 & t2 & -> & <-).
        pose proof (Merges_wf _ _ (Merges_step lp a t1 t2 _ (Merges_refl _)) W) as W'.
        rewrite map_app, Forall_app in W. destruct W as [_ W]. cbn [map snd] in W.
        rewrite map_app in HD. destruct (dom_merge _ a HD) as [HD' Hsum].
        destruct (IH (lp ++ [(a + 1, Node t1 t2)]) fuel h) as (l' & Hrun & HM & HS); try assumption.
        { rewrite app_length in *. cbn [length] in *. lia. } { lia. } { rewrite map_app. exact HD'. }
        exists l'. split; [|split; [apply Merges_step, HM|exact HS]].
        rewrite <- Hrun, !map_app. cbn [map fst]. rewrite Hsum. unfold cvs_of. rewrite !map_app, !rev_app_distr. cbn [map snd rev app].
        rewrite (parent_cv_spec h t1 t2 Hk Hf (Forall_inv W) (Forall_inv (Forall_inv_tail W))). reflexivity.
  Qed.

  (* 64 is the fuel the model gives merge_loop *)
  Definition AbsStack (h : hasher) (l : list (N * tree)) : Prop :=
    h_key h = K /\ h_flags h = F /\ h_init h = c0 /\ h_stack h = cvs_of l /\
    Forall wf_tree (map snd l) /\ Dom (map fst l) /\ (length l <= 64)%nat.

  Lemma merge_cv_stack_abs h l :
    AbsStack h l -> c0 + sum2 (map fst l) < 2 ^ 64 ->
    exists l', merge_cv_stack p h (c0 + sum2 (map fst l)) = Ok (mkHasher (h_key h) (h_cs h) (h_init h) (cvs_of l')) /\
               Merges l l' /\ SDom (map fst l').
  Proof.
    intros (Hk & Hf & Hi & Hst & W & HD & Hlen) Hs.
    unfold merge_cv_stack. rewrite Hi, rs_post_merge_len_spec by exact Hs. cbn [bind].
    destruct (merge_loop_abs (length l) l 64 h eq_refl Hlen Hk Hf W HD) as (l' & Hrun & HM).
    rewrite Hst, Hrun. cbn [bind]. exists l'. auto.
  Qed.

  Lemma push_cv_abs h l e t :
    AbsStack h l -> c0 + sum2 (map fst l) < 2 ^ 64 -> sum2 (map fst l) < 2 ^ 54 ->
    exists l', push_cv p h (tcv t) (c0 + sum2 (map fst l)) =
                 Ok (mkHasher (h_key h) (h_cs h) (h_init h) (cvs_of (l' ++ [(e, t)]))) /\
               Merges l l' /\ SDom (map fst l').
  Proof.
    intros HA Hs H54. destruct (merge_cv_stack_abs h l HA Hs) as (l' & Hm & HM & HS).
    unfold push_cv. rewrite Hm. cbn [bind h_stack h_key h_cs h_init].
    (* a merged stack below 2^54 chunks has at most 54 entries; cv_stack has room for 55 *)
    pose proof (sdom_length_bound _ 54 HS ltac:(rewrite (Merges_sum2 _ _ HM); exact H54)) as Hb. rewrite map_length in Hb.
    unfold cvs_of at 1. rewrite rev_length, !map_length. change rs_cv_stack_cap with 55. rewrite check_ltb by lia.
    exists l'. split; [|auto]. unfold cvs_of. rewrite !map_app, rev_app_distr. reflexivity.
  Qed.

  Lemma StackRep_abs h bs es : StackRep h bs es -> sum2 es <= 2 ^ 54 -> AbsStack h (segs_of c0 bs es).
  Proof.
    intros (Hk & Hf & Hi & Hst & HD & Hl) Hs. unfold AbsStack, cvs_of. rewrite segs_of_fst, segs_of_snd.
    repeat split; try assumption.
    - apply trees_of_wf, exps_le. rewrite two54 in Hs. rewrite two64. lia.
    - (* at most 54 + 2 entries *)
      pose proof (dom_length_bound es 54 HD Hs). rewrite <- (map_length fst), segs_of_fst. lia.
  Qed.

  Lemma Merges_stack_of bs es l' : Merges (segs_of c0 bs es) l' -> 1024 * sum2 es <= len bs -> sum2 es <= 2 ^ 54 ->
    cvs_of l' = stack_of bs (map fst l') /\ sum2 (map fst l') = sum2 es /\ (SDom es -> map fst l' = es).
  Proof.
    intros HM Hl Hs. pose proof (Merges_sum2 _ _ HM) as Hsum. rewrite segs_of_fst in Hsum. rewrite two54 in Hs.
    split; [|split; [exact Hsum|]].
    - unfold cvs_of, HasherP.stack_of.
      rewrite (Merges_trees _ _ HM c0 bs); rewrite ?segs_of_fst, ?segs_of_snd, ?two64; auto; lia.
    - intros HS. rewrite (Merges_sdom _ _ HM), segs_of_fst by (rewrite segs_of_fst; exact HS). reflexivity.
  Qed.

  Lemma merge_cv_stack_spec h bs es :
    StackRep h bs es -> c0 + sum2 es <= 2 ^ 54 ->
    exists es', merge_cv_stack p h (c0 + sum2 es) = Ok (mkHasher (h_key h) (h_cs h) (h_init h) (stack_of bs es')) /\
                SDom es' /\ sum2 es' = sum2 es /\ (SDom es -> es' = es).
  Proof.
    intros HSR Hs. pose proof HSR as (_ & _ & _ & _ & _ & Hl).
    destruct (merge_cv_stack_abs h _ (StackRep_abs h bs es HSR ltac:(lia))) as (l' & Hm & HM & HS);
      rewrite segs_of_fst in *; [rewrite two54 in Hs; rewrite two64; lia|].
    destruct (Merges_stack_of bs es l' HM Hl ltac:(lia)) as (Hc & Hsum & Hid).
    exists (map fst l'). rewrite <- Hc. auto.
  Qed.

  Lemma push_cv_spec h bs es b :
    StackRep h bs es -> (2 ^ b | sum2 es) -> c0 + sum2 es + 2 ^ b <= 2 ^ 54 ->
    1024 * (sum2 es + 2 ^ b) <= len bs ->
    exists h' es',
      push_cv p h (tcv (st (c0 + sum2 es) (take (1024 * 2 ^ b) (drop (1024 * sum2 es) bs)))) (c0 + sum2 es) = Ok h' /\
      StackRep h' bs (es' ++ [b]) /\ SDom es' /\ sum2 es' = sum2 es /\ h_cs h' = h_cs h /\ (SDom es -> es' = es).
  Proof.
    intros HSR Hdiv Hcap Hlen. pose proof (pow2_pos b) as Hpb. pose proof HSR as (Hk & Hf & Hi & _ & _ & Hl).
    destruct (push_cv_abs h _ b (st (c0 + sum2 es) (take (1024 * 2 ^ b) (drop (1024 * sum2 es) bs)))
                (StackRep_abs h bs es HSR ltac:(lia))) as (l' & Hp & HM & HS);
      rewrite segs_of_fst in *; try (rewrite two54 in Hcap; rewrite ?two54, ?two64; lia).
    destruct (Merges_stack_of bs es l' HM Hl ltac:(lia)) as (Hc & Hsum & Hid).
    eexists. exists (map fst l'). split; [exact Hp|].
    split; [|repeat split; assumption || reflexivity].
    unfold HasherP.StackRep. cbn [h_key h_flags h_cs h_init h_stack]. repeat split; try assumption.
    - rewrite stack_of_snoc, Hsum, <- Hc. unfold cvs_of. rewrite !map_app, rev_app_distr. reflexivity.
    - apply dom_push; [exact HS|rewrite Hsum; exact Hdiv].
    - rewrite sum2_app. cbn [sum2]. lia.
  Qed.

  Lemma final_fold_spec h : h_key h = K -> h_flags h = F -> forall ts t,
    Forall wf_tree ts -> wf_tree t ->
    final_fold p h (tree_out c8 K F t) (rev (map tcv ts)) = tree_out c8 K F (spine ts t).
  Proof.
    intros Hk Hf ts. induction ts as [|x ts IH] using rev_ind; intros t Wts Wt; [reflexivity|].
    apply Forall_app in Wts. destruct Wts as [Wts Wx]. apply Forall_inv in Wx.
    rewrite map_app, rev_app_distr. cbn [map rev app final_fold]. rewrite Hk, Hf, ocv_tree by exact Wt.
    change (parent_output K F (tcv x) (tcv t)) with (tree_out c8 K F (Node x t)).
    rewrite IH by (try assumption; split; assumption). rewrite spine_snoc. reflexivity.
  Qed.

  (* between two iterations of update_loop: whole chunks only, all of them on the stack, and the chunk state is the
     fresh one of the next chunk; Dom es, not SDom: the pushes merge lazily *)
  Definition LoopState (h : hasher) (bs : list N) (es : list N) : Prop :=
    StackRep h bs es /\ len bs = 1024 * sum2 es /\ h_cs h = cs_new K (c0 + sum2 es) F.

  (* what one iteration of update_loop pushes once the subtree length 1024 * 2^b is chosen *)
  Definition push_subtree (h : hasher) (piece : list N) (b : N) : res hasher :=
    let cs := h_cs h in
    if b =? 0 then
      cs1 <- cs_update p (cs_new (h_key h) (cs_ctr cs) (cs_flags cs)) piece ;;
      push_cv p h (out_chaining_value p (cs_output cs1)) (cs_ctr cs)
    else
      cv_pair <- compress_subtree_to_parent_node p piece (h_key h) (cs_ctr cs) (cs_flags cs) ;;
      assert! (64 <=? nlen cv_pair) code 54 ;;
      h <- push_cv p h (firstn 32 cv_pair) (cs_ctr cs) ;;
      push_cv p h (firstn 32 (skipn 32 cv_pair)) (cs_ctr cs + 2 ^ (b - 1)).

  Lemma update_loop_unfold fuel h input s b :
    1024 < len input -> len input < 2 ^ 64 -> cs_count (h_cs h) = Ok 0 ->
    rs_largest_power_of_two_leq (len input) = Ok s ->
    shrink_loop 64 s (cs_ctr (h_cs h) * 1024) = Ok (1024 * 2 ^ b) -> 1024 * 2 ^ b <= len input ->
    cs_ctr (h_cs h) * 1024 < 2 ^ 64 -> cs_ctr (h_cs h) + 2 ^ b < 2 ^ 64 ->
    update_loop (S fuel) p h input =
    h' <- push_subtree h (take (1024 * 2 ^ b) input) b ;;
    let cs := h_cs h in
    update_loop fuel p
      (with_cs h' (mkCS (cs_cv cs) (cs_ctr cs + 2 ^ b) (cs_buf cs) (cs_buf_len cs) (cs_blocks cs) (cs_flags cs)))
      (drop (1024 * 2 ^ b) input).
  Proof.
    intros Hin H64 Hcnt Hlp Hshr Hle Hc1 Hc2. pose proof (pow2_pos b).
    cbn [update_loop]. unfold nlen. fold (len input). change rs_CHUNK_LEN with 1024.
    replace (len input <=? 1024) with false by lia.
    rewrite Hcnt. cbn [bind]. change (0 =? 0) with true. cbn [check bind].
    rewrite Hlp. cbn [bind]. rewrite rs_count_so_far_spec by exact Hc1. cbn [bind].
    rewrite Hshr. cbn [bind]. rewrite rs_subtree_chunks_spec by lia. cbn [bind]. rewrite mul_div_l by lia.
    rewrite check_leb by exact Hle. rewrite add_small by exact Hc2. rewrite !firstn_N, skipn_N.
    unfold push_subtree. destruct (N.eq_dec b 0) as [->|Hb].
    - change (2 ^ 0) with 1. rewrite N.mul_1_r.
      change (1024 <=? 1024) with true. change (1024 =? 1024) with true. change (0 =? 0) with true.
      cbn iota. cbn [check bind]. reflexivity.
    - pose proof (pow2_half b ltac:(lia)) as Hh. pose proof (pow2_pos (b - 1)).
      replace (1024 * 2 ^ b <=? 1024) with false by lia.
      replace (b =? 0) with false by lia. cbn iota.
      rewrite rs_right_cv_counter_spec by lia. replace (2 ^ b / 2) with (2 ^ (b - 1)) by lia.
      cbn [bind]. reflexivity.
  Qed.

  Lemma push_chunk_spec h bs es chunk :
    StackRep h bs es -> drop (1024 * sum2 es) bs = chunk -> len chunk = 1024 -> c0 + sum2 es + 1 <= 2 ^ 54 ->
    exists h' es',
      push_cv p h (out_chaining_value p (chunk_output c8 K F (c0 + sum2 es) chunk)) (c0 + sum2 es) = Ok h' /\
      StackRep h' bs (es' ++ [0]) /\ SDom es' /\ sum2 es' = sum2 es /\ h_cs h' = h_cs h /\ (SDom es -> es' = es).
  Proof.
    intros HSR Hd Hl Hcap. pose proof (f_equal len Hd) as Hlen. rewrite len_drop in Hlen.
    destruct (push_cv_spec h bs es 0 HSR) as (h' & es' & Hpush & Hrest);
      change (2 ^ 0) with 1; [exists (sum2 es); lia|exact Hcap|lia|].
    exists h', es'. split; [|exact Hrest]. rewrite <- Hpush, Hd. f_equal.
    change (1024 * 2 ^ 0) with 1024. rewrite take_all, st_leaf by lia.
    refine (ocv_tree (Leaf (c0 + sum2 es) chunk) _). cbn [wf_tree]. lia.
  Qed.

  Lemma push_pair_spec h bs es b piece :
    StackRep h bs es -> drop (1024 * sum2 es) bs = piece -> len piece = 1024 * 2 ^ b -> len piece < 2 ^ 64 ->
    1 <= b -> (2 ^ b | sum2 es) -> c0 + sum2 es + 2 ^ b <= 2 ^ 54 ->
    exists ta tb h1 h2 es1,
      compress_subtree_to_parent_node p piece K (c0 + sum2 es) F = Ok (tcv ta ++ tcv tb) /\
      length (tcv ta) = 32%nat /\ length (tcv tb) = 32%nat /\
      push_cv p h (tcv ta) (c0 + sum2 es) = Ok h1 /\
      push_cv p h1 (tcv tb) (c0 + sum2 es + 2 ^ (b - 1)) = Ok h2 /\
      StackRep h2 bs (es1 ++ [b - 1; b - 1]) /\ sum2 es1 = sum2 es /\ h_cs h2 = h_cs h.
  Proof.
    intros HSR Hd Hpl H64 Hb1 Hdiv Hcap. pose proof (f_equal len Hd) as Hlen. rewrite len_drop in Hlen.
    pose proof (pow2_pos (b - 1)) as Hpb. pose proof (pow2_half b Hb1) as Hh. rewrite two54 in Hcap.
    destruct (to_parent_node_spec c8 p POK Hpcip Hc8len K F HK piece (c0 + sum2 es)) as (ta & tb & Hrun & Ht & Wa & Wb);
      [rewrite Hpl; lia|exact H64|rewrite Hpl, chunks_pow2, two64; lia|].
    rewrite <- st_unfold, (st_split _ _ (b - 1)) in Ht by (rewrite Hpl, ?two64; lia).
    injection Ht as Hta Htb.
    destruct (push_cv_spec h bs es (b - 1) HSR) as (h1 & es1 & Hpush1 & HSR1 & HS1 & Hsum1 & Hcs1 & _); try lia.
    { destruct Hdiv as [m Hm]. exists (2 * m). lia. }
    assert (Hsum1' : sum2 (es1 ++ [b - 1]) = sum2 es + 2 ^ (b - 1)) by (rewrite sum2_app; cbn [sum2]; lia).
    (* the first half leaves a merged stack, so the merge before the second push does nothing *)
    assert (HS1' : SDom (es1 ++ [b - 1])).
    { apply sdom_push_half; [exact HS1|]. replace (b - 1 + 1) with b by lia. rewrite Hsum1. exact Hdiv. }
    destruct (push_cv_spec h1 bs (es1 ++ [b - 1]) (b - 1) HSR1) as (h2 & es2 & Hpush2 & HSR2 & _ & _ & Hcs2 & Hid);
      rewrite ?Hsum1'; try lia.
    { destruct Hdiv as [m Hm]. exists (2 * m + 1). lia. }
    rewrite Hsum1' in Hpush2. rewrite (Hid HS1'), <- app_assoc in HSR2.
    exists ta, tb, h1, h2, es1. split; [exact Hrun|].
    split; [apply (tree_cv_length c8 Hc8len K F HK), Wa|]. split; [apply (tree_cv_length c8 Hc8len K F HK), Wb|].
    split; [rewrite <- Hpush1, Hd, Hta; reflexivity|].
    split.
    { rewrite <- Hpush2. replace (1024 * (sum2 es + 2 ^ (b - 1))) with (1024 * sum2 es + 1024 * 2 ^ (b - 1)) by lia.
      rewrite <- drop_drop, Hd, (take_all _ (drop _ piece)), N.add_assoc, Htb by (rewrite len_drop; lia). reflexivity. }
    split; [exact HSR2|]. split; [exact Hsum1|congruence].
  Qed.

  Lemma push_subtree_spec h bs es b piece :
    LoopState h bs es -> len piece = 1024 * 2 ^ b -> len piece < 2 ^ 64 -> (2 ^ b | sum2 es) ->
    c0 + sum2 es + 2 ^ b <= 2 ^ 54 ->
    exists h' es', push_subtree h piece b = Ok h' /\ StackRep h' (bs ++ piece) es' /\
      sum2 es' = sum2 es + 2 ^ b /\ h_cs h' = h_cs h /\ (1 <= b -> exists pre a, es' = pre ++ [a; a]).
  Proof.
    intros (HSR & Hfull & Hcs) Hpl H64 Hdiv Hcap.
    assert (Hd : drop (1024 * sum2 es) (bs ++ piece) = piece).
    { rewrite drop_app_ge, Hfull, N.sub_diag by lia. apply drop_0. }
    apply (StackRep_ext _ _ _ _ _ _ piece) in HSR. pose proof HSR as (Hk & _).
    unfold push_subtree. rewrite Hk.
    replace (cs_ctr (h_cs h)) with (c0 + sum2 es) by (rewrite Hcs; reflexivity).
    replace (cs_flags (h_cs h)) with F by (rewrite Hcs; reflexivity).
    destruct (N.eq_dec b 0) as [->|Hb].
    - change (2 ^ 0) with 1 in *. rewrite N.mul_1_r in Hpl. cbn [N.eqb].
      destruct (chunk_state_leaf c8 p POK Hpcip Hc8len K F HK (c0 + sum2 es) piece) as (cs1 & -> & Ho); [lia|].
      cbn [bind]. rewrite Ho.
      destruct (push_chunk_spec h _ es piece HSR Hd Hpl Hcap) as (h' & es' & Hpush & HSR' & _ & Hsum & Hcs' & _).
      exists h', (es' ++ [0]). rewrite sum2_app. cbn [sum2]. change (2 ^ 0) with 1.
      split; [exact Hpush|]. split; [exact HSR'|]. split; [lia|]. split; [exact Hcs'|lia].
    - replace (b =? 0) with false by lia.
      destruct (push_pair_spec h _ es b piece HSR Hd Hpl H64 ltac:(lia) Hdiv Hcap)
        as (ta & tb & h1 & h2 & es1 & -> & La & Lb & Hp1 & Hp2 & HSR2 & Hsum1 & Hcs2).
      cbn [bind]. unfold nlen. rewrite app_length, La, Lb. cbn [check bind N.leb].
      change (N.of_nat (32 + 32) <=? 64) with true. cbn [check bind].
      rewrite firstn_app, skipn_app, La, Nat.sub_diag, firstn_O, skipn_O, app_nil_r.
      rewrite (firstn_all2 (tcv ta)), (skipn_all2 (tcv ta)), (firstn_all2 (tcv tb)) by lia. cbn [app].
      rewrite Hp1. cbn [bind]. rewrite Hp2.
      exists h2, (es1 ++ [b - 1; b - 1]). rewrite sum2_app. cbn [sum2].
      split; [reflexivity|]. split; [exact HSR2|]. split; [rewrite (pow2_half b); lia|]. split; [exact Hcs2|eauto].
  Qed.

  Lemma update_loop_small fuel h input : len input <= 1024 -> update_loop fuel p h input = Ok (h, input).
  Proof.
    intros H. destruct fuel; cbn [update_loop]; unfold nlen; fold (len input); change rs_CHUNK_LEN with 1024;
      replace (len input <=? 1024) with true by lia; reflexivity.
  Qed.

  Variable lim : N.
  Hypothesis Hlim : c0 + lim <= 2 ^ 54.
  Hypothesis Hc054 : c0 < 2 ^ 54.

  Notation Inv := (Inv c8 K F c0 lim).

  Lemma lim_bound : 1024 * lim <= 1024 * 2 ^ 54.
  Proof using Hlim. clear - Hlim. lia. Qed.

  Lemma final_fold_st h bs es :
    h_key h = K -> h_flags h = F -> sum2 es <= 2 ^ 54 -> 1024 * sum2 es < len bs -> len bs <= 1024 * 2 ^ 64 ->
    DomR es (len bs - 1024 * sum2 es) ->
    final_fold p h (tree_out c8 K F (st (c0 + sum2 es) (drop (1024 * sum2 es) bs))) (stack_of bs es) =
    tree_out c8 K F (st c0 bs).
  Proof.
    intros Hk Hf Hs Hlo Hhi HD. unfold HasherP.stack_of. rewrite final_fold_spec; try assumption.
    - f_equal. apply spine_st; assumption.
    - apply trees_of_wf, exps_le. assert (2 ^ 54 <= 2 ^ 64) by (apply N.pow_le_mono_r; lia). lia.
    - apply st_wf. rewrite len_drop. lia.
  Qed.

  Theorem final_output_spec h bs : Inv h bs -> final_output p h = Ok (tree_out c8 K F (st c0 bs)).
  Proof.
    intros (es & (Hk & Hf & Hi & Hst & HD & Hl) & HT & Hpart & Hempty & Hblim & Hb64).
    pose proof lim_bound as Hlb. assert (Hs54 : sum2 es <= 2 ^ 54) by lia. rewrite two54 in *.
    destruct (Tight_fields _ _ _ _ _ _ HT) as (Hctr & Hfl & Hp1024). rewrite len_drop in Hp1024.
    unfold final_output. rewrite Hst.
    destruct (snoc_cases es) as [->|(es0 & a & Ees)].
    - (* empty stack: the chunk state is everything *)
      cbn [HasherP.stack_of trees_of map rev sum2] in *. rewrite Hctr, Hi, N.add_0_r. rewrite N.eqb_refl. cbn [check bind].
      rewrite N.mul_0_r, drop_0, N.add_0_r in HT.
      rewrite (cs_output_chunk _ _ _ _ _ _ HT), st_leaf by lia. reflexivity.
    - assert (Hsum : sum2 es = sum2 es0 + 2 ^ a) by (rewrite Ees, sum2_app; cbn [sum2]; lia).
      pose proof (pow2_pos a) as Hpa.
      rewrite Ees at 1. rewrite stack_of_snoc. cbn iota.
      rewrite (Tight_count _ _ _ _ _ _ HT). cbn [bind]. rewrite len_drop.
      destruct (0 <? len bs - 1024 * sum2 es) eqn:Epart.
      + (* a partial chunk on top of a fully merged stack *)
        assert (HS : SDom es) by (apply Hpart; lia).
        rewrite Hctr, Hi. rewrite rs_post_merge_len_spec by (rewrite two64; lia). cbn [bind].
        rewrite stack_of_length, check_eqb by (rewrite sdom_popcount by exact HS; reflexivity). f_equal.
        rewrite (cs_output_chunk _ _ _ _ _ _ HT).
        change (chunk_output c8 K F (c0 + sum2 es) (drop (1024 * sum2 es) bs))
          with (tree_out c8 K F (Leaf (c0 + sum2 es) (drop (1024 * sum2 es) bs))).
        rewrite <- st_leaf by (rewrite len_drop; lia).
        apply final_fold_st; rewrite ?two54; try assumption; try lia. apply SDom_DomR; [exact HS|lia].
      + (* no partial chunk: the top two entries form the last parent, the tree of the last 2^a chunks over the rest *)
        destruct (Hempty ltac:(lia)) as [Hz|Hk2]; [lia|].
        destruct (snoc_cases es0) as [->|(es1 & b & ->)]; [rewrite Ees in Hk2; cbn [app length] in Hk2; lia|].
        rewrite Ees in HD |- *. rewrite !stack_of_snoc. f_equal.
        set (ta := st _ (take (1024 * 2 ^ a) _)).
        assert (Wa : wf_tree ta) by (apply st_take_wf, (N.pow_le_mono_r_iff 2); lia).
        rewrite <- (ocv_tree ta Wa).
        change (final_fold p h (tree_out c8 K F ta)
                  (tcv (st (c0 + sum2 es1) (take (1024 * 2 ^ b) (drop (1024 * sum2 es1) bs))) :: stack_of bs es1) =
                tree_out c8 K F (st c0 bs)).
        rewrite <- stack_of_snoc. unfold ta. rewrite take_all by (rewrite len_drop; lia).
        apply final_fold_st; rewrite ?two54; try assumption; try lia.
        replace (len bs - 1024 * sum2 (es1 ++ [b])) with (1024 * 2 ^ a) by lia. apply DomR_app, HD.
  Qed.

  (* every power of two up to lim divides c0: a subtree size that divides the absolute chunk count c0 + C, which is
     what the shrink loop of update tests, then divides the count C within this subtree (subtree_choice) *)
  Hypothesis Hal : forall b, 2 ^ b <= lim -> (2 ^ b | c0).

  Lemma update_loop_step h bs es input :
    LoopState h bs es -> 1024 < len input -> len (bs ++ input) <= 1024 * lim -> len (bs ++ input) < 2 ^ 64 ->
    exists h' es' k,
      (forall fuel, update_loop (S fuel) p h input = update_loop fuel p h' (drop k input)) /\
      LoopState h' (bs ++ take k input) es' /\ 1024 <= k /\ k <= len input /\
      (k = len input -> exists pre a, es' = pre ++ [a; a]).
  Proof.
    intros HL Hin Htot Htot64. pose proof HL as (HSR & Hfull & Hcs).
    rewrite len_app, Hfull in Htot, Htot64. rewrite two54 in *.
    destruct (subtree_choice c0 lim (sum2 es) (len input) Hal Hin Htot Htot64) as (b & s & Hlp & Hshr & Hle & Hdiv);
      [rewrite two64; lia|].
    pose proof (pow2_pos b) as Hpb.
    set (piece := take (1024 * 2 ^ b) input).
    assert (Hpl : len piece = 1024 * 2 ^ b) by (unfold piece; rewrite len_take; lia).
    destruct (push_subtree_spec h bs es b piece HL Hpl ltac:(lia) Hdiv) as (h' & es' & Hpush & HSR' & Hsum & Hcs' & Hlen');
      [rewrite two54; lia|].
    exists (with_cs h' (cs_new K (c0 + sum2 es + 2 ^ b) F)), es', (1024 * 2 ^ b).
    split; [|split; [|split; [lia|split; [lia|]]]].
    - intros fuel. rewrite (update_loop_unfold fuel h input s b); rewrite ?Hcs; cbn [cs_new cs_ctr]; try assumption;
        try (rewrite two64 in *; lia); [|reflexivity].
      fold piece. rewrite Hpush. reflexivity.
    - split; [apply with_cs_StackRep; [exact HSR'|reflexivity]|].
      fold piece. rewrite len_app, Hpl, Hsum. split; [lia|]. cbn [with_cs h_cs]. f_equal. lia.
    - intros Hk. apply Hlen'. destruct (N.eq_dec b 0) as [->|]; [change (2 ^ 0) with 1 in Hk|]; lia.
  Qed.

  Lemma update_loop_spec : forall fuel h bs es input,
    LoopState h bs es -> len (bs ++ input) <= 1024 * lim -> len (bs ++ input) < 2 ^ 64 ->
    (N.to_nat (len input / 1024) < fuel)%nat ->
    exists h' es' k,
      update_loop fuel p h input = Ok (h', drop k input) /\
      LoopState h' (bs ++ take k input) es' /\ k <= len input /\ len input - k <= 1024 /\
      (k = 0 -> h' = h /\ es' = es) /\
      (0 < k -> k = len input -> exists pre a, es' = pre ++ [a; a]).
  Proof.
    induction fuel as [|fuel IH]; intros h bs es input HL Htot Htot64 Hfuel; [lia|].
    destruct (len input <=? 1024) eqn:E.
    - exists h, es, 0. rewrite update_loop_small by lia. rewrite drop_0, take_0, app_nil_r.
      split; [reflexivity|]. split; [exact HL|]. repeat split; lia.
    - destruct (update_loop_step h bs es input HL ltac:(lia) Htot Htot64) as (h1 & es1 & k1 & Hstep & HL1 & Hk1a & Hk1b & Hk1c).
      rewrite Hstep.
      destruct (IH h1 (bs ++ take k1 input) es1 (drop k1 input) HL1) as (h2 & es2 & k2 & Hrun & HL2 & Hk2a & Hk2b & Hk2c & Hk2d);
        rewrite <- ?app_assoc, ?take_drop, ?len_drop in *; try assumption; try lia.
      clear IH. exists h2, es2, (k1 + k2). rewrite drop_drop in Hrun. rewrite take_add in HL2.
      split; [exact Hrun|]. split; [exact HL2|].
      split; [lia|]. split; [lia|]. split; [lia|].
      intros _ Hall. destruct (N.eq_dec k2 0) as [Hz|Hnz].
      + destruct (Hk2c Hz) as [-> ->]. apply Hk1c. lia.
      + apply Hk2d; lia.
  Qed.

  Lemma hasher_update_tail_spec h bs es input :
    LoopState h bs es -> len (bs ++ input) <= 1024 * lim -> len (bs ++ input) < 2 ^ 64 ->
    (len input = 0 -> sum2 es = 0 \/ (2 <= length es)%nat) ->
    exists h', hasher_update_tail p h input = Ok h' /\ Inv h' (bs ++ input).
  Proof.
    intros HL Htot Htot64 Hemp. unfold hasher_update_tail.
    destruct (update_loop_spec (S (Nat.div (length input) 1024)) h bs es input HL Htot Htot64 (div_fuel input 1024))
      as (h2 & es2 & k & Hrun & (HSR2 & Hfull2 & Hcs2) & Hka & Hkb & Hkc & Hkd).
    rewrite Hrun. cbn [bind]. unfold nlen. fold (len (drop k input)). rewrite len_drop.
    change rs_CHUNK_LEN with 1024. rewrite check_leb by exact Hkb.
    replace (bs ++ input) with ((bs ++ take k input) ++ drop k input) by (rewrite <- app_assoc, take_drop; reflexivity).
    set (bs2 := bs ++ take k input) in *.
    set (rest := drop k input).
    assert (Hrl : len rest = len input - k) by apply len_drop.
    rewrite len_app in Htot, Htot64.
    assert (Hlen2 : len bs2 + len rest = len bs + len input) by (unfold bs2; rewrite len_app, len_take; lia).
    pose proof lim_bound as Hlb. rewrite two54 in *.
    destruct (len input - k =? 0) eqn:E; cbn [negb].
    - (* everything went into whole subtrees *)
      exists h2. split; [reflexivity|]. rewrite (len_0_nil rest), app_nil_r by lia.
      exists es2. split; [exact HSR2|].
      rewrite drop_all by lia. split; [rewrite Hcs2; apply Tight_cs_new|].
      split; [intros; lia|]. split; [|split; lia].
      intros _. destruct (N.eq_dec k 0) as [Hz|Hnz].
      + destruct (Hkc Hz) as [-> ->]. apply Hemp. lia.
      + right. destruct (Hkd ltac:(lia) ltac:(lia)) as (pre & a & ->). rewrite app_length. cbn [length]. lia.
    - (* a final partial (or exactly full) chunk goes into the chunk state, then the extra merge *)
      rewrite Hcs2.
      destruct (cs_update_spec c8 p Hcip' Hc8len K F (c0 + sum2 es2) HK _ [] rest (Tight_cs_new c8 K F _))
        as (cs3 & Hupd & HT3); [cbn [app]; lia|]. cbn [app] in HT3.
      rewrite Hupd. cbn [bind].
      destruct (Tight_fields _ _ _ _ _ _ HT3) as (Hctr3 & Hfl3 & _). rewrite Hctr3.
      destruct (merge_cv_stack_spec (with_cs h2 cs3) bs2 es2) as (es3 & Hm & HS3 & Hsum3 & _);
        [apply with_cs_StackRep; assumption|lia|].
      rewrite Hm. eexists. split; [reflexivity|].
      destruct HSR2 as (Hk2 & Hf2 & Hi2 & Hst2 & HD2 & Hl2).
      exists es3. rewrite Hsum3.
      split.
      { red. unfold h_flags. cbn [with_cs h_key h_cs h_init h_stack].
        rewrite stack_of_ext, Hsum3, len_app by lia. repeat split; try assumption; [apply SDom_Dom, HS3|lia]. }
      cbn [h_cs]. rewrite drop_app_ge, Hfull2, N.sub_diag, drop_0, len_app by lia.
      split; [exact HT3|]. split; [intros _; exact HS3|]. split; [intros; lia|]. split; lia.
  Qed.

  Hypothesis Hmsl : rs_max_subtree_len (c0 * 1024) = Ok (if c0 =? 0 then None else Some (1024 * lim)).

  Theorem hasher_update_spec h bs input :
    Inv h bs -> len (bs ++ input) <= 1024 * lim -> len (bs ++ input) < 2 ^ 64 ->
    exists h', hasher_update p h input = Ok h' /\ Inv h' (bs ++ input).
  Proof.
    intros HI Htot Htot64. pose proof (hasher_count_spec _ _ _ _ _ h bs HI) as Hcount.
    destruct HI as (es & HSR & HT & Hpart & Hempty & Hblim & Hb64).
    pose proof HSR as (Hk & Hf & Hi & Hst & HD & Hl).
    destruct (Tight_fields _ _ _ _ _ _ HT) as (Hctr & Hfl & Hp1024). rewrite len_drop in Hp1024.
    rewrite len_app in Htot, Htot64. pose proof lim_bound as Hlb. rewrite two54 in *.
    set (C := sum2 es) in *. set (part := drop (1024 * C) bs) in *.
    assert (Hpl : len part = len bs - 1024 * C) by (unfold part; apply len_drop).
    unfold hasher_update. rewrite Hi.
    rewrite rs_input_offset_spec by (rewrite two64; lia). cbn [bind].
    rewrite Hmsl. cbn [bind].
    replace (match (if c0 =? 0 then None else Some (1024 * lim)) with
             | Some max => cnt <- hasher_count h ;; remaining <- mi_sub 64 max cnt ;;
                           assert! (nlen input <=? remaining) code 21 ;; Ok tt
             | None => Ok tt end) with (Ok tt : res unit).
    2:{ destruct (c0 =? 0); [reflexivity|]. rewrite Hcount. cbn [bind]. rewrite sub_small by lia. cbn [bind].
        unfold nlen. fold (len input). rewrite check_leb by lia. reflexivity. }
    cbn [bind]. rewrite (Tight_count _ _ _ _ _ _ HT). cbn [bind]. rewrite Hpl.
    destruct (0 <? len bs - 1024 * C) eqn:Ec.
    - (* finish the partial chunk first *)
      change rs_CHUNK_LEN with 1024. rewrite sub_small by lia. cbn [bind].
      unfold nlen. fold (len input). set (t := N.min (1024 - (len bs - 1024 * C)) (len input)).
      rewrite firstn_N, skipn_N.
      destruct (cs_update_spec c8 p Hcip' Hc8len K F (c0 + C) HK (h_cs h) part (take t input) HT)
        as (cs1 & Hupd & HT1).
      { rewrite len_app, len_take. unfold t. lia. }
      rewrite Hupd. cbn [bind]. fold (len (drop t input)). rewrite len_drop.
      destruct (Tight_fields _ _ _ _ _ _ HT1) as (Hctr1 & Hfl1 & _).
      assert (HS : SDom es) by (apply Hpart; lia).
      set (bs1 := bs ++ take t input).
      assert (HSR1 : StackRep (with_cs h cs1) bs1 es) by (apply with_cs_StackRep; [apply StackRep_ext; exact HSR|exact Hfl1]).
      assert (Hd1 : drop (1024 * C) bs1 = part ++ take t input) by (unfold bs1; rewrite drop_app_le by lia; reflexivity).
      destruct (len input - t =? 0) eqn:Er; cbn [negb].
      + (* all of the input fitted into the chunk state *)
        cbn [bind]. exists (with_cs h cs1). split; [reflexivity|].
        replace (bs ++ input) with bs1 by (unfold bs1; rewrite take_all by lia; reflexivity).
        exists es. split; [exact HSR1|]. fold C. rewrite Hd1. split; [exact HT1|].
        unfold bs1. rewrite len_app, len_take. split; [intros _; exact HS|]. split; [intros; lia|]. split; lia.
      + (* the chunk is complete and more input follows *)
        rewrite (Tight_count _ _ _ _ _ _ HT1). cbn [bind]. rewrite len_app, len_take, Hpl.
        rewrite check_eqb by (unfold t; lia).
        rewrite (cs_output_chunk _ _ _ _ _ _ HT1), Hctr1.
        destruct (push_chunk_spec (with_cs h cs1) bs1 es _ HSR1 Hd1) as (h1 & es1 & Hpush & HSR1' & HS1 & Hsum1 & Hcs1);
          fold C; [rewrite len_app, len_take; unfold t; lia|lia|].
        fold C in Hpush. rewrite Hpush. cbn [bind]. rewrite add_small by (rewrite two64; lia). cbn [bind]. cbn iota.
        pose proof HSR1' as (Hk1 & _). rewrite Hk1, Hfl1.
        destruct (hasher_update_tail_spec (with_cs h1 (cs_new K (c0 + C + 1) F)) bs1 (es1 ++ [0]) (drop t input))
          as (h' & Hrun & HI'); unfold bs1; rewrite ?sum2_app, <- ?app_assoc, ?take_drop, ?len_app, ?len_take, ?len_drop;
          cbn [sum2]; change (2 ^ 0) with 1; try (unfold t; lia).
        { split; [apply with_cs_StackRep; [exact HSR1'|reflexivity]|].
          rewrite sum2_app, len_app, len_take. cbn [sum2 with_cs h_cs]. change (2 ^ 0) with 1.
          split; [unfold t; lia|]. f_equal. lia. }
        rewrite Hrun. exists h'. split; [reflexivity|]. unfold bs1 in HI'. rewrite <- app_assoc, take_drop in HI'. exact HI'.
    - (* the chunk state is empty: straight to the subtree loop *)
      cbn [bind]. cbn iota.
      rewrite (len_0_nil part) in HT by lia. apply Tight_nil in HT.
      destruct (hasher_update_tail_spec h bs es input) as (h' & Hrun & HI'); rewrite ?len_app; try lia.
      { split; [exact HSR|]. split; [fold C; lia|exact HT]. }
      rewrite Hrun. eauto.
  Qed.
End HasherProof.
