(* Witnesses, computed on the model under asis_cfg, that two sub-statements of C13 (and with them one of
   C12) are false for b3sum/src/main.rs as it was before the two repairs that /repo contains (its commits
   "fix: b3sum --check ..."); fixed_cfg is main.rs as it stands, and the same statements are proved for it in
   Proofs/B3sumP.v.  The correspondence check (tools/props/C13.py) probes which of the two configurations the
   code under test matches and compares the model under that one with the code, these inputs included. *)
From Coq Require Import NArith List Bool.
From V Require Import Base.Res Model.B3sum Proofs.B3sumP.
Import ListNotations.
Open Scope N_scope.

(* a 32-byte digest (BLAKE3 of "lo") *)
Definition h_lo : list N :=
  [0xdb;0x95;0x67;0x19;0x0c;0xd4;0x51;0x80;0xb6;0xd8;0x1d;0x4c;0xf2;0x39;0x12;0xa0;
   0xf4;0x98;0x11;0x29;0x86;0x79;0x44;0x19;0xd0;0xdd;0x10;0x36;0x92;0xf6;0x03;0xa1].

(* "a  b" *)
Definition path_a__b : list N := [97; 32; 32; 98].

(* Defect 1: `b3sum --tag "a  b"` prints `BLAKE3 (a  b) = <hex>`; --check splits that line at the
   two spaces (untagged rule first) and rejects it with "Invalid hash length". *)
Lemma roundtrip_tag_refuted :
  exists p h, good_path p /\ bytes_ok h /\ length h = 32%nat /\
    parse_check_line asis_cfg (print_line true (utf8_encode p) (hex_of_bytes h)) = Ok (PErr EHashLength).
Proof.
  exists path_a__b, h_lo. split; [|split; [|split]].
  - unfold good_path. repeat split; try reflexivity. discriminate.
  - unfold bytes_ok, h_lo. repeat constructor.
  - reflexivity.
  - vm_compute. reflexivity.
Qed.

Lemma roundtrip_tag_witness_fixed :
  parse_check_line fixed_cfg (print_line true (utf8_encode path_a__b) (hex_of_bytes h_lo)) =
  Ok (POk path_a__b h_lo false path_a__b).
Proof. vm_compute. reflexivity. Qed.

(* Defect 2: a hash field of 64 BYTES whose last character is two bytes long: 62 hex digits + U+00E9 *)
Definition line_hex62_eacute : list N :=
  firstn 62 (hex_of_bytes h_lo) ++ [233] ++ PLAIN_SEP ++ [99] ++ [LF].

Lemma parse_total_refuted : exists line, parse_check_line asis_cfg line = Panic PANIC_HEX_LOW.
Proof. exists line_hex62_eacute. vm_compute. reflexivity. Qed.

Lemma parse_total_witness_fixed : parse_check_line fixed_cfg line_hex62_eacute = Ok (PErr EHex).
Proof. vm_compute. reflexivity. Qed.

(* C12: with such a line in a checkfile the run ends with status 101 and the entries after it,
   here a correct one, are not checked (no "c: OK" is printed) *)
Definition good_line_c : list N := print_line false [99] (hex_of_bytes h_lo).
Definition fs_c : fsys := fun p => inr (fun i => nth (N.to_nat i) h_lo 0).

Lemma check_continues_refuted :
  exists lines, b3sum_check asis_cfg fs_c 0 false [Some lines] = ([], ExitPanic PANIC_HEX_LOW) /\
                exit_status (ExitPanic PANIC_HEX_LOW) = 101 /\
                In (LText good_line_c) lines /\
                check_one_line asis_cfg fs_c 0 false good_line_c = Ok (true, [99] ++ OK_SUFFIX).
Proof.
  exists [LText line_hex62_eacute; LText good_line_c].
  split; [vm_compute; reflexivity|]. split; [reflexivity|]. split; [right; left; reflexivity|].
  vm_compute. reflexivity.
Qed.

Lemma check_continues_witness_fixed :
  b3sum_check fixed_cfg fs_c 0 false [Some [LText line_hex62_eacute; LText good_line_c]] =
  ([99] ++ OK_SUFFIX, ExitCode 1).
Proof. vm_compute. reflexivity. Qed.
