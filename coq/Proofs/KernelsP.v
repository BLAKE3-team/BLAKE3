(* C05: the SIMD kernel algorithms of Model/Kernels.v equal the portable kernels.  Here: lanes and columns (`cols`),
   the transposed message loads and stores, the four load_counters variants, hashN = hash1 in every lane (hashN_ok),
   and the predicates through which the other files speak of a kernel's parts (tr_ok, tmsg_ok, store_ok, lc_ok, hN_ok,
   h1_ok, cip_ok, cx_ok, cadd_ok).  Cascades: KernelsCascadeP.v; rows: KernelsRowsP.v; xof: KernelsXofP.v; platforms:
   KernelsPlatformP.v. *)
From Coq Require Import NArith ZArith List Bool Arith Lia.
From V Require Import Base.Res Base.Word Base.MachInt gen.GenConsts gen.GenFormulas
  Spec.Compress Model.Portable Model.Platform Model.Kernels Proofs.PortableP Proofs.ListP Proofs.WordP Proofs.RoundHomP Proofs.TransposeP.
Import ListNotations.
Open Scope N_scope.

Definition lane (i : nat) (vs : list vec) : list N := map (fun v => nth i v 0) vs.
Definition wf (n : nat) (v : vec) : Prop := length v = n.

Lemma vmap2_length f a b : length (vmap2 f a b) = Nat.min (length a) (length b).
Proof. unfold vmap2. rewrite map_length, combine_length. reflexivity. Qed.

Lemma vmap2_nth f a b i : length a = length b -> (i < length a)%nat ->
  nth i (vmap2 f a b) 0 = f (nth i a 0) (nth i b 0).
Proof.
  intros Hl Hi. unfold vmap2.
  rewrite (nth_map_lt _ _ _ (0, 0)) by (rewrite combine_length; lia).
  rewrite combine_nth by exact Hl. reflexivity.
Qed.

Lemma vset1_length n x : length (vset1 n x) = n.
Proof. apply repeat_length. Qed.
Lemma vset1_nth n x i : (i < n)%nat -> nth i (vset1 n x) 0 = x.
Proof. unfold vset1. revert i. induction n as [|n IH]; intros [|i] Hi; cbn; try lia; try reflexivity. apply IH. lia. Qed.

Lemma vmap2_wf n f a b : wf n a -> wf n b -> wf n (vmap2 f a b).
Proof. unfold wf. intros Ha Hb. rewrite vmap2_length. lia. Qed.
Lemma vrot_wf n a r : wf n a -> wf n (vrot a r).
Proof. unfold wf, vrot. intros Ha. rewrite map_length. exact Ha. Qed.

Section Lanes.
  Variables (n i : nat).
  Hypothesis Hi : (i < n)%nat.
  Let hl (v : vec) : N := nth i v 0.

  Lemma vadd_hom a b : wf n a -> wf n b -> wf n (vadd a b) /\ hl (vadd a b) = add32 (hl a) (hl b).
  Proof.
    intros Ha Hb. split; [apply vmap2_wf; assumption|]. unfold wf in *. apply vmap2_nth; lia.
  Qed.
  Lemma vxor_hom a b : wf n a -> wf n b -> wf n (vxor a b) /\ hl (vxor a b) = xor32 (hl a) (hl b).
  Proof.
    intros Ha Hb. split; [apply vmap2_wf; assumption|]. unfold wf in *. apply vmap2_nth; lia.
  Qed.
  Lemma vrot_hom a r : wf n a -> wf n (vrot a r) /\ hl (vrot a r) = rotr32 (hl a) r.
  Proof.
    intros Ha. split; [apply vrot_wf, Ha|]. unfold wf in *. apply (nth_map_lt (fun x => rotr32 x r)). lia.
  Qed.

  (* lane_lift: ANY function built from lane-wise add / xor / rot, read at lane i, is the
     scalar function of the lane-i inputs *)
  Inductive wexpr := WVar (k : nat) | WAdd (a b : wexpr) | WXor (a b : wexpr) | WRot (a : wexpr) (r : N).
  Fixpoint eval_vec (env : nat -> vec) (e : wexpr) : vec :=
    match e with
    | WVar k => env k
    | WAdd a b => vadd (eval_vec env a) (eval_vec env b)
    | WXor a b => vxor (eval_vec env a) (eval_vec env b)
    | WRot a r => vrot (eval_vec env a) r
    end.
  Fixpoint eval_word (env : nat -> N) (e : wexpr) : N :=
    match e with
    | WVar k => env k
    | WAdd a b => add32 (eval_word env a) (eval_word env b)
    | WXor a b => xor32 (eval_word env a) (eval_word env b)
    | WRot a r => rotr32 (eval_word env a) r
    end.

  Theorem lane_lift (env : nat -> vec) (e : wexpr) :
    (forall k, length (env k) = n) ->
    length (eval_vec env e) = n /\
    nth i (eval_vec env e) 0 = eval_word (fun k => nth i (env k) 0) e.
  Proof.
    intros Henv. induction e as [k|a [La Ea] b [Lb Eb]|a [La Ea] b [Lb Eb]|a [La Ea] r]; cbn [eval_vec eval_word].
    - split; [apply Henv|reflexivity].
    - destruct (vadd_hom _ _ La Lb) as [L E]. split; [exact L|]. unfold hl in E. rewrite E, Ea, Eb. reflexivity.
    - destruct (vxor_hom _ _ La Lb) as [L E]. split; [exact L|]. unfold hl in E. rewrite E, Ea, Eb. reflexivity.
    - destruct (vrot_hom _ r La) as [L E]. split; [exact L|]. unfold hl in E. rewrite E, Ea. reflexivity.
  Qed.
End Lanes.

Definition cipw (cv w : list N) (lo hi bl fl : N) : list N :=
  let st := rounds7w (cv ++ firstn 4 rs_IV ++ [lo; hi; bl; fl]) w in
  xor_pairs (firstn 8 st) (skipn 8 st).

Lemma compress_in_place_cipw cv block bl ctr fl :
  compress_in_place cv block bl ctr fl = cipw cv (words_of_bytes block) (ctr_lo ctr) (ctr_hi ctr) bl fl.
Proof. unfold compress_in_place, compress_pre, cipw, rounds7w. reflexivity. Qed.

Lemma lane_app i a b : lane i (a ++ b) = lane i a ++ lane i b.
Proof. apply map_app. Qed.
Lemma lane_firstn i k v : lane i (firstn k v) = firstn k (lane i v).
Proof. symmetry. apply firstn_map. Qed.
Lemma lane_skipn i k v : lane i (skipn k v) = skipn k (lane i v).
Proof. symmetry. apply skipn_map. Qed.
Lemma lane_length i v : length (lane i v) = length v.
Proof. apply map_length. Qed.

Lemma vxor_pairs_length a b : length (vxor_pairs a b) = Nat.min (length a) (length b).
Proof. unfold vxor_pairs. rewrite map_length, combine_length. reflexivity. Qed.

(* X holds the n word lists f 0 .. f (n - 1) side by side, one in each lane *)
Definition cols (n k : nat) (X : list vec) (f : nat -> list N) : Prop :=
  Forall (wf n) X /\ length X = k /\ forall i, (i < n)%nat -> lane i X = f i.

Lemma cols_ext n k X f g : cols n k X f -> (forall i, (i < n)%nat -> f i = g i) -> cols n k X g.
Proof. intros (F & L & E) H. split; [exact F|]. split; [exact L|]. intros i Hi. rewrite <- H by exact Hi. apply E, Hi. Qed.
Lemma cols_self n k X : Forall (wf n) X -> length X = k -> cols n k X (fun i => lane i X).
Proof. intros F L. split; [exact F|]. split; [exact L|]. reflexivity. Qed.

Section Cols.
  Variable n : nat.

  Lemma cols_vround v m r fv fm : cols n 16 v fv -> cols n 16 m fm ->
    cols n 16 (vround v m r) (fun i => Portable.round (fv i) (fm i) r).
  Proof.
    intros (Fv & Lv & Ev) (Fm & Lm & Em). unfold vround. split; [|split; [rewrite round_src_length; exact Lv|]].
    - apply (round_src_ext vadd vxor vadd vxor vrot vrot [] (wf n)); try assumption.
      + intros a b Ha Hb. split; [apply vmap2_wf; assumption|reflexivity].
      + intros a b Ha Hb. split; [apply vmap2_wf; assumption|reflexivity].
      + intros a k _ Ha. split; [apply vrot_wf, Ha|reflexivity].
      + intros k. unfold mw. rewrite Forall_forall in Fm. apply Fm, nth_In. pose proof (sched_lt r k). unfold vec in *. lia.
    - intros i Hi. rewrite <- Ev, <- Em, <- roundS_scalar, round_src_roundS by exact Hi.
      apply (roundS_hom vadd vxor vrot [] add32 xor32 rotr32 0 (fun x => nth i x 0) (wf n) (vadd_hom n i Hi) (vxor_hom n i Hi)
               (fun a k _ => vrot_hom n i Hi a k) v m r Lm Fv Fm).
  Qed.

  Lemma cols_vrounds7 v m fv fm : cols n 16 v fv -> cols n 16 m fm ->
    cols n 16 (vrounds7 v m) (fun i => rounds7w (fv i) (fm i)).
  Proof. intros Hv Hm. unfold vrounds7, rounds7w. cbv zeta. repeat apply cols_vround; assumption. Qed.

  Lemma cols_vxor_pairs k a b fa fb : cols n k a fa -> cols n k b fb ->
    cols n k (vxor_pairs a b) (fun i => xor_pairs (fa i) (fb i)).
  Proof.
    intros (Fa & La & Ea) (Fb & Lb & Eb).
    assert (H : Forall (wf n) (vxor_pairs a b) /\
                forall i, (i < n)%nat -> lane i (vxor_pairs a b) = xor_pairs (lane i a) (lane i b)).
    { clear - Fa Fb. revert b Fb. induction Fa as [|x a Hx Fa IH]; intros [|y b] Fb; try (split; [constructor|reflexivity]).
      inversion Fb as [|? ? Hy Fb']; subst. destruct (IH b Fb') as [F E].
      unfold vxor_pairs, xor_pairs, lane in *. cbn [combine map fst snd]. split.
      - constructor; [apply vmap2_wf; assumption|exact F].
      - intros i Hi. f_equal; [apply (vxor_hom n i Hi x y Hx Hy)|apply E, Hi]. }
    destruct H as [F E]. split; [exact F|]. split; [rewrite vxor_pairs_length, La, Lb; apply Nat.min_id|].
    intros i Hi. rewrite <- Ea, <- Eb by exact Hi. apply E, Hi.
  Qed.

  Lemma cols_app k1 k2 a b fa fb : cols n k1 a fa -> cols n k2 b fb -> cols n (k1 + k2) (a ++ b) (fun i => fa i ++ fb i).
  Proof.
    intros (Fa & La & Ea) (Fb & Lb & Eb). split; [apply Forall_app; split; assumption|].
    split; [rewrite app_length, La, Lb; reflexivity|]. intros i Hi. rewrite lane_app, Ea, Eb by exact Hi. reflexivity.
  Qed.
  Lemma cols_firstn j k a fa : (j <= k)%nat -> cols n k a fa -> cols n j (firstn j a) (fun i => firstn j (fa i)).
  Proof.
    intros Hj (Fa & La & Ea). split; [apply Forall_firstn, Fa|]. split; [rewrite firstn_length; lia|].
    intros i Hi. rewrite lane_firstn, Ea by exact Hi. reflexivity.
  Qed.
  Lemma cols_skipn j k a fa : cols n k a fa -> cols n (k - j) (skipn j a) (fun i => skipn j (fa i)).
  Proof.
    intros (Fa & La & Ea). split; [apply Forall_skipn, Fa|]. split; [rewrite skipn_length, La; reflexivity|].
    intros i Hi. rewrite lane_skipn, Ea by exact Hi. reflexivity.
  Qed.
  Lemma cols_set1 ws : cols n (length ws) (map (vset1 n) ws) (fun _ => ws).
  Proof.
    split; [|split; [apply map_length|]].
    - apply Forall_forall. intros v Hv. apply in_map_iff in Hv. destruct Hv as (k & <- & _). apply vset1_length.
    - intros i Hi. unfold lane. rewrite map_map. rewrite <- (map_id ws) at 2. apply map_ext. intros x. apply vset1_nth, Hi.
  Qed.
  Lemma cols_two a b : wf n a -> wf n b -> cols n 2 [a; b] (fun i => [nth i a 0; nth i b 0]).
  Proof. intros Ha Hb. split; [repeat constructor; assumption|]. split; reflexivity. Qed.

  Lemma cols_vstate h clo chi bl fl fh : cols n 8 h fh -> wf n clo -> wf n chi ->
    cols n 16 (vstate n h clo chi bl fl) (fun i => fh i ++ firstn 4 rs_IV ++ [nth i clo 0; nth i chi 0; bl; fl]).
  Proof.
    intros Hh Wlo Whi.
    change (cols n (8 + (4 + (2 + 2))) (h ++ map (vset1 n) (firstn 4 rs_IV) ++ [clo; chi] ++ map (vset1 n) [bl; fl])
              (fun i => fh i ++ firstn 4 rs_IV ++ [nth i clo 0; nth i chi 0] ++ [bl; fl])).
    apply cols_app; [exact Hh|]. apply cols_app; [apply (cols_set1 (firstn 4 rs_IV))|].
    apply cols_app; [apply cols_two; assumption|apply (cols_set1 [bl; fl])].
  Qed.

  Lemma cols_vcompress h msg clo chi bl fl fh fm : cols n 8 h fh -> cols n 16 msg fm -> wf n clo -> wf n chi ->
    cols n 8 (vcompress n h msg clo chi bl fl) (fun i => cipw (fh i) (fm i) (nth i clo 0) (nth i chi 0) bl fl).
  Proof.
    intros Hh Hm Wlo Whi. unfold vcompress, cipw. cbv zeta.
    pose proof (cols_vrounds7 _ _ _ _ (cols_vstate h clo chi bl fl fh Hh Wlo Whi) Hm) as R.
    exact (cols_vxor_pairs 8 _ _ _ _ (cols_firstn 8 16 _ _ ltac:(lia) R) (cols_skipn 8 16 _ _ R)).
  Qed.
End Cols.

Lemma vround_lane n i : (i < n)%nat -> forall (v msg : list vec) (r : nat),
  (r < 7)%nat -> length v = 16%nat -> length msg = 16%nat -> Forall (wf n) v -> Forall (wf n) msg ->
  Forall (wf n) (vround v msg r) /\ length (vround v msg r) = 16%nat /\
  lane i (vround v msg r) = Portable.round (lane i v) (lane i msg) r.
Proof.
  intros Hi v msg r _ Lv Lm Fv Fm.
  destruct (cols_vround n v msg r _ _ (cols_self n 16 v Fv Lv) (cols_self n 16 msg Fm Lm)) as (F & L & E).
  split; [exact F|]. split; [exact L|]. apply E, Hi.
Qed.

Lemma tr_spec_wf k (M : list vec) : Forall (wf (length M)) (tr_spec 0 k M) /\ length (tr_spec 0 k M) = k.
Proof.
  unfold tr_spec. split.
  - apply Forall_forall. intros v Hv. apply in_map_iff in Hv. destruct Hv as (j & <- & _).
    unfold wf. apply map_length.
  - rewrite map_length, seq_length. reflexivity.
Qed.

Lemma tr_spec_lane k i (M : list vec) : (i < length M)%nat -> length (nth i M []) = k ->
  lane i (tr_spec 0 k M) = nth i M [].
Proof.
  intros Hi Hk. unfold lane, tr_spec. rewrite map_map.
  transitivity (map (fun j => nth j (nth i M []) 0) (seq 0 k)).
  - apply map_ext. intros j. apply (nth_map_lt (fun row => nth j row 0) M i [] 0 Hi).
  - rewrite <- Hk. apply map_nth_seq.
Qed.

Lemma tr_spec_row k j (M : list vec) : (j < k)%nat ->
  nth j (tr_spec 0 k M) [] = map (fun row => nth j row 0) M.
Proof.
  intros Hj. unfold tr_spec.
  rewrite (nth_map_lt _ _ _ 0%nat) by (rewrite seq_length; exact Hj).
  rewrite seq_nth by exact Hj. reflexivity.
Qed.

Definition tr_ok (n : nat) (tr : list vec -> list vec) : Prop :=
  forall M, length M = n -> Forall (wf n) M -> tr M = tr_spec 0 n M.

Lemma tr_row n tr B f i : tr_ok n tr -> cols n n B f -> (i < n)%nat -> vk (tr B) i = f i.
Proof. intros Htr (F & L & E) Hi. rewrite (Htr B L F). unfold vk. rewrite tr_spec_row by exact Hi. exact (E i Hi). Qed.

Lemma tr_ok_128 : tr_ok 4 (transpose_vecs_128 0).
Proof. intros M L F. apply transpose_vecs_128_ok; assumption. Qed.
Lemma tr_ok_256 : tr_ok 8 (transpose_vecs_256 0).
Proof. intros M L F. apply transpose_vecs_256_ok; assumption. Qed.
Lemma tr_ok_512 : tr_ok 16 (transpose_vecs_512 0).
Proof. intros M L F. apply transpose_vecs_512_ok; assumption. Qed.

Lemma loadu_length k src off : (off + 4 * k <= length src)%nat -> length (loadu k src off) = k.
Proof.
  intros H. unfold loadu. apply words_of_bytes_length.
  rewrite firstn_length, skipn_length. lia.
Qed.

Lemma square_lane n tr (inputs : list (list N)) off i :
  tr_ok n tr -> (i < n)%nat ->
  (forall j, (j < n)%nat -> (off + 4 * n <= length (inp inputs j))%nat) ->
  let sq := tr (map (fun j => loadu n (inp inputs j) off) (seq 0 n)) in
  Forall (wf n) sq /\ length sq = n /\ lane i sq = loadu n (inp inputs i) off.
Proof.
  intros Htr Hi Hlen sq. subst sq.
  set (M := map (fun j => loadu n (inp inputs j) off) (seq 0 n)).
  assert (LM : length M = n) by (unfold M; rewrite map_length, seq_length; reflexivity).
  assert (FM : Forall (wf n) M).
  { unfold M. apply Forall_forall. intros v Hv. apply in_map_iff in Hv. destruct Hv as (j & <- & Hj).
    apply in_seq in Hj. apply loadu_length, Hlen. lia. }
  assert (Ei : nth i M [] = loadu n (inp inputs i) off).
  { unfold M. rewrite (nth_map_lt _ _ _ 0%nat) by (rewrite seq_length; exact Hi).
    rewrite seq_nth by exact Hi. reflexivity. }
  rewrite (Htr M LM FM).
  destruct (tr_spec_wf n M) as [F L]. rewrite LM in F.
  split; [exact F|]. split; [exact L|].
  rewrite tr_spec_lane; [exact Ei|lia|]. rewrite Ei. apply loadu_length, Hlen, Hi.
Qed.

Lemma loadu_split k m src off : (off + 4 * k <= length src)%nat ->
  words_of_bytes (firstn (4 * k + m) (skipn off src)) =
  loadu k src off ++ words_of_bytes (firstn m (skipn (off + 4 * k) src)).
Proof.
  intros H. unfold loadu. rewrite firstn_plus, (words_of_bytes_app _ _ k).
  - rewrite skipn_skipn. reflexivity.
  - rewrite firstn_length, skipn_length. lia.
Qed.

Lemma squares_lane n tr (inputs : list (list N)) off i : tr_ok n tr -> (i < n)%nat ->
  forall q a, (forall j, (j < n)%nat -> (off + 4 * n * (a + q) <= length (inp inputs j))%nat) ->
    let l := flat_map (fun c => tr (map (fun j => loadu n (inp inputs j) (off + 4 * n * c)) (seq 0 n))) (seq a q) in
    Forall (wf n) l /\ length l = (n * q)%nat /\
    lane i l = words_of_bytes (firstn (4 * (n * q)) (skipn (off + 4 * n * a) (inp inputs i))).
Proof.
  intros Htr Hi. induction q as [|q IH]; intros a Hlen; cbn [seq flat_map].
  - rewrite Nat.mul_0_r. repeat split; constructor.
  - destruct (square_lane n tr inputs (off + 4 * n * a) i Htr Hi) as (F0 & L0 & E0).
    { intros j Hj. specialize (Hlen j Hj). nia. }
    destruct (IH (S a)) as (F & L & E).
    { intros j Hj. specialize (Hlen j Hj). nia. }
    cbv zeta in *. split; [apply Forall_app; split; assumption|]. split; [rewrite app_length, L0, L; nia|].
    rewrite lane_app, E0, E. replace (4 * (n * S q))%nat with (4 * n + 4 * (n * q))%nat by nia.
    rewrite (loadu_split n _ _ (off + 4 * n * a)) by (specialize (Hlen i Hi); nia).
    replace (off + 4 * n * S a)%nat with (off + 4 * n * a + 4 * n)%nat by nia. reflexivity.
Qed.

Definition tmsg_ok (n : nat) (tmsg : list (list N) -> nat -> list vec) : Prop :=
  forall inputs off i, (i < n)%nat ->
    (forall j, (j < n)%nat -> (off + 64 <= length (inp inputs j))%nat) ->
    Forall (wf n) (tmsg inputs off) /\ length (tmsg inputs off) = 16%nat /\
    lane i (tmsg inputs off) = words_of_bytes (firstn 64 (skipn off (inp inputs i))).

Lemma tmsg_ok_squares n q tr : tr_ok n tr -> (n * q = 16)%nat -> tmsg_ok n (transpose_msg_vecs n tr).
Proof.
  intros Htr Hq inputs off i Hi Hlen. unfold transpose_msg_vecs.
  replace (Nat.div 16 n) with q by (rewrite <- Hq, Nat.mul_comm, Nat.div_mul; lia).
  destruct (squares_lane n tr inputs off i Htr Hi q 0%nat) as (F & L & E).
  { intros j Hj. specialize (Hlen j Hj). nia. }
  cbv zeta in *. rewrite Hq, Nat.mul_0_r, Nat.add_0_r in *. auto.
Qed.

Lemma tmsg_ok_4 : tmsg_ok 4 transpose_msg_vecs4.
Proof. exact (tmsg_ok_squares 4 4 _ tr_ok_128 eq_refl). Qed.
Lemma tmsg_ok_8 : tmsg_ok 8 transpose_msg_vecs8.
Proof. exact (tmsg_ok_squares 8 2 _ tr_ok_256 eq_refl). Qed.
Lemma tmsg_ok_16 : tmsg_ok 16 transpose_msg_vecs16.
Proof. exact (tmsg_ok_squares 16 1 _ tr_ok_512 eq_refl). Qed.

Definition store_ok (n : nat) (store : list vec -> list (list N)) : Prop :=
  forall h, length h = 8%nat -> Forall (wf n) h ->
    store h = map (fun i => bytes_of_words (lane i h)) (seq 0 n).

Lemma store_ok_4 : store_ok 4 store4.
Proof.
  intros h L F. pose proof (cols_self 4 8 h F L) as C. unfold store4. cbv zeta.
  apply map_ext_in. intros i Hi. apply in_seq in Hi.
  rewrite (tr_row 4 _ _ _ i tr_ok_128 (cols_firstn 4 4 8 _ _ ltac:(lia) C)), (tr_row 4 _ _ _ i tr_ok_128 (cols_skipn 4 4 8 _ _ C)) by lia.
  cbv beta. rewrite firstn_skipn. reflexivity.
Qed.

Lemma store_ok_8 : store_ok 8 store8.
Proof.
  intros h L F. unfold store8. rewrite (tr_ok_256 h L F). unfold tr_spec. rewrite map_map. reflexivity.
Qed.

Lemma store_ok_16 : store_ok 16 store16.
Proof.
  intros h L F. unfold store16.
  rewrite (tr_ok_512 (h ++ repeat (vset1 16 0) 8)).
  - unfold tr_spec. rewrite map_map. apply map_ext. intros j. f_equal.
    unfold lane. rewrite map_app, firstn_app, map_length, L. change (8 - 8)%nat with 0%nat.
    rewrite firstn_O, app_nil_r. apply firstn_all2. rewrite map_length. unfold vec in L. rewrite L. apply Nat.le_refl.
  - rewrite app_length, L. reflexivity.
  - apply Forall_app. split; [exact F|]. repeat constructor.
Qed.

Definition lane_ctr (counter : N) (incr : bool) (i : nat) : N :=
  if incr then counter + N.of_nat i else counter.

Definition lc_ok (n : nat) (lc : N -> bool -> res (vec * vec)) : Prop :=
  forall counter incr, counter + N.of_nat n <= 2 ^ 64 ->
    exists clo chi, lc counter incr = Ok (clo, chi) /\ wf n clo /\ wf n chi /\
      forall i, (i < n)%nat ->
        nth i clo 0 = ctr_lo (lane_ctr counter incr i) /\ nth i chi 0 = ctr_hi (lane_ctr counter incr i).

(* the value of Portable.hash1 *)
Definition h1w (input key : list N) (ctr flags fs fe : N) : list N :=
  bytes_of_words (hash1_go (S (Nat.div (length input) 64)) key input ctr flags (N.lor flags fs) fe).

Lemma hash1_h1w input key ctr flags fs fe : (Nat.modulo (length input) 64 = 0)%nat ->
  hash1 input key ctr flags fs fe = Ok (h1w input key ctr flags fs fe).
Proof.
  intros H. unfold hash1. rewrite bind_check_true; [reflexivity|].
  change rs_BLOCK_LEN with 64. apply N.eqb_eq.
  apply Nat.mod_divides in H; [|discriminate]. destruct H as [c ->]. lia.
Qed.

Lemma hash1_go_S fuel cv input ctr flags bf fe :
  hash1_go (S fuel) cv input ctr flags bf fe =
  if N.of_nat (length input) <? 64 then cv
  else hash1_go fuel
         (compress_in_place cv (firstn 64 input) 64 ctr
            (if N.of_nat (length input) =? 64 then N.lor bf fe else bf))
         (skipn 64 input) ctr flags flags fe.
Proof. reflexivity. Qed.

Lemma hashN_loop_S n tmsg inputs clo chi flags fe todo block blocks bf h :
  hashN_loop n tmsg inputs clo chi flags fe (S todo) block blocks bf h =
  hashN_loop n tmsg inputs clo chi flags fe todo (S block) blocks flags
    (vcompress n h (tmsg inputs (block * 64)%nat) clo chi rs_BLOCK_LEN
       (if (block + 1 =? blocks)%nat then N.lor bf fe else bf)).
Proof. unfold hashN_loop at 1. fold hashN_loop. reflexivity. Qed.

Section HashNLoop.
  Variables (n : nat) (tmsg : list (list N) -> nat -> list vec) (inputs : list (list N)) (clo chi : vec)
            (flags fe : N) (blocks : nat) (ctr : nat -> N).
  Hypotheses (Hn : (0 < n)%nat) (Ht : tmsg_ok n tmsg) (Wlo : wf n clo) (Whi : wf n chi).
  Hypothesis Hlen : forall j, (j < n)%nat -> length (inp inputs j) = (blocks * 64)%nat.
  Hypothesis Hctr : forall i, (i < n)%nat -> nth i clo 0 = ctr_lo (ctr i) /\ nth i chi 0 = ctr_hi (ctr i).

  Lemma cols_tmsg off : (off + 64 <= blocks * 64)%nat ->
    cols n 16 (tmsg inputs off) (fun i => words_of_bytes (firstn 64 (skipn off (inp inputs i)))).
  Proof.
    intros Ho.
    assert (H : forall j, (j < n)%nat -> (off + 64 <= length (inp inputs j))%nat) by (intros j Hj; rewrite Hlen by exact Hj; exact Ho).
    destruct (Ht inputs off 0%nat Hn H) as (F & L & _). split; [exact F|]. split; [exact L|].
    intros i Hi. apply (Ht inputs off i Hi H).
  Qed.

  Lemma cols_hashN_loop : forall todo block bf h fh fuel, (todo + block = blocks)%nat -> (todo < fuel)%nat -> cols n 8 h fh ->
    cols n 8 (hashN_loop n tmsg inputs clo chi flags fe todo block blocks bf h)
      (fun i => hash1_go fuel (fh i) (skipn (block * 64) (inp inputs i)) (ctr i) flags bf fe).
  Proof.
    induction todo as [|todo IH]; intros block bf h fh fuel Hb Hf Hh; (destruct fuel as [|fuel]; [lia|]).
    - apply (cols_ext _ _ _ fh); [exact Hh|]. intros i Hi.
      rewrite hash1_go_S, skipn_all2 by (rewrite (Hlen i Hi); lia). reflexivity.
    - rewrite hashN_loop_S. change rs_BLOCK_LEN with 64. eapply cols_ext.
      + eapply (IH (S block) flags _ _ fuel); [lia|lia|].
        apply cols_vcompress; [exact Hh|apply cols_tmsg; nia|exact Wlo|exact Whi].
      + intros i Hi. cbv beta. rewrite hash1_go_S.
        assert (Ll : length (skipn (block * 64) (inp inputs i)) = (S todo * 64)%nat) by (rewrite skipn_length, (Hlen i Hi); lia).
        rewrite Ll. replace (N.of_nat (S todo * 64) <? 64) with false by lia.
        replace (N.of_nat (S todo * 64) =? 64) with (block + 1 =? blocks)%nat
          by (destruct (Nat.eqb_spec (block + 1) blocks); symmetry; [apply N.eqb_eq|apply N.eqb_neq]; lia).
        destruct (Hctr i Hi) as [-> ->]. rewrite <- compress_in_place_cipw, skipn_skipn.
        replace (block * 64 + 64)%nat with (S block * 64)%nat by lia. reflexivity.
  Qed.
End HashNLoop.

(* h_vecs[k] = set1(key[k]) *)
Lemma cols_init n key : length key = 8%nat -> cols n 8 (map (fun k => vset1 n (nth k key 0)) (seq 0 8)) (fun _ => key).
Proof. intros Lk. rewrite <- (map_map (fun k => nth k key 0) (vset1 n)), <- Lk, map_nth_seq. apply cols_set1. Qed.

Theorem hashN_gen_ok n tmsg lc store : (0 < n)%nat -> tmsg_ok n tmsg -> lc_ok n lc -> store_ok n store ->
  forall inputs blocks key counter incr flags fs fe,
    length key = 8%nat ->
    (forall j, (j < n)%nat -> length (inp inputs j) = (blocks * 64)%nat) ->
    counter + N.of_nat n <= 2 ^ 64 ->
    hashN_gen n tmsg lc store inputs blocks key counter incr flags fs fe =
    Ok (map (fun i => h1w (inp inputs i) key (lane_ctr counter incr i) flags fs fe) (seq 0 n)).
Proof.
  intros Hn Ht Hlc Hst inputs blocks key counter incr flags fs fe Lk Hlen Hc.
  unfold hashN_gen. cbv zeta.
  destruct (Hlc counter incr Hc) as (clo & chi & -> & Wlo & Whi & Hlanes). cbn [bind]. f_equal.
  destruct (cols_hashN_loop n tmsg inputs clo chi flags fe blocks (lane_ctr counter incr) Hn Ht Wlo Whi Hlen Hlanes
              blocks 0%nat (N.lor flags fs) _ _ (S blocks) ltac:(lia) ltac:(lia) (cols_init n key Lk)) as (F & L & E).
  rewrite (Hst _ L F). apply map_ext_in. intros i Hi. apply in_seq in Hi.
  unfold h1w. rewrite E, (Hlen i), Nat.div_mul by (lia || discriminate). reflexivity.
Qed.

Lemma ctr_lo_mod c : ctr_lo c = c mod 4294967296.
Proof.
  unfold ctr_lo, rs_counter_low, mu, mi_cast. cbn [bind]. rewrite N.land_ones. reflexivity.
Qed.
Lemma ctr_hi_mod c : ctr_hi c = (c / 4294967296) mod 4294967296.
Proof.
  unfold ctr_hi, rs_counter_high, mu, mb, mi_cast, mi_shr. cbn [bind].
  replace (32 <? 64) with true by reflexivity. cbn [bind].
  rewrite N.land_ones, N.shiftr_div_pow2. reflexivity.
Qed.

(* adding a digit d to a number c in base B *)
Section Digits.
  Variable B : N.
  Hypothesis HB : B <> 0.

  Lemma add_digit c d :
    (c + d) mod B = (c mod B + d) mod B /\
    ((c + d) / B) mod B = ((c / B) mod B + (c mod B + d) / B) mod B.
  Proof.
    split; [symmetry; apply N.add_mod_idemp_l, HB|].
    rewrite N.add_mod_idemp_l by exact HB. f_equal.
    rewrite (N.div_mod c B HB) at 1. rewrite <- N.add_assoc, N.mul_comm, N.add_comm, N.div_add by exact HB.
    apply N.add_comm.
  Qed.

  Lemma wrap s : s < 2 * B -> (s < B /\ s / B = 0 /\ s mod B = s) \/ (B <= s /\ s / B = 1 /\ s mod B = s - B).
  Proof.
    intros H. destruct (N.lt_ge_cases s B) as [L|L]; [left|right]; (split; [exact L|]).
    - split; [apply N.div_small|apply N.mod_small]; exact L.
    - assert (E : s = B * 1 + (s - B)) by lia.
      split; [symmetry; apply (N.div_unique s B 1 (s - B))|symmetry; apply (N.mod_unique s B 1 (s - B))]; lia.
  Qed.

  (* the carry, as the two tests the sources make: the sum came out below an operand;
     (B = 2 H, d <= H) the top bit was set before and is clear after *)
  Lemma carry_lt lo d : lo < B -> d < B -> (lo + d) / B = if (lo + d) mod B <? d then 1 else 0.
  Proof.
    intros Hl Hd. destruct (wrap (lo + d) ltac:(lia)) as [(L & -> & ->)|(L & -> & ->)].
    - replace (_ <? _) with false by lia. reflexivity.
    - replace (_ <? _) with true by lia. reflexivity.
  Qed.
  Lemma carry_msb H lo d : B = 2 * H -> lo < B -> d <= H ->
    (lo + d) / B = if ((lo + d) mod B <? H) && (H <=? lo) then 1 else 0.
  Proof.
    intros E Hl Hd. destruct (wrap (lo + d) ltac:(lia)) as [(L & -> & ->)|(L & -> & ->)].
    - destruct (N.ltb_spec (lo + d) H), (N.leb_spec H lo); cbn [andb]; lia.
    - replace (_ <? _) with true by lia. replace (_ <=? _) with true by lia. reflexivity.
  Qed.
End Digits.

Definition carry32 (lo d : N) : N := (lo + d) / 4294967296.

Lemma ctr_add c d :
  ctr_lo (c + d) = add32 (w32 c) d /\ ctr_hi (c + d) = add32 (w32 (N.shiftr c 32)) (carry32 (w32 c) d).
Proof.
  unfold add32, carry32. rewrite ctr_lo_mod, ctr_hi_mod, !w32_mod, N.shiftr_div_pow2.
  exact (add_digit 4294967296 ltac:(discriminate) c d).
Qed.

Lemma land_pow31_small x : x < 2147483648 -> N.land x 2147483648 = 0.
Proof.
  intros H. apply N.bits_inj. intros k. rewrite N.land_spec, N.bits_0.
  change 2147483648 with (2 ^ 31). rewrite N.pow2_bits_eqb.
  destruct (N.eqb_spec 31 k) as [<-|_]; [|apply andb_false_r].
  rewrite andb_true_r, N.testbit_eqb. change (2 ^ 31) with 2147483648.
  rewrite N.div_small by exact H. reflexivity.
Qed.

Lemma lxor_msb x : x < 4294967296 ->
  N.lxor x 0x80000000 = if x <? 2147483648 then x + 2147483648 else x - 2147483648.
Proof.
  intros H. change 0x80000000 with 2147483648.
  destruct (N.ltb_spec x 2147483648) as [L|L].
  - symmetry. apply N.add_nocarry_lxor. apply land_pow31_small. exact L.
  - replace x with ((x - 2147483648) + 2147483648) at 1 by lia.
    rewrite (N.add_nocarry_lxor (x - 2147483648) 2147483648) by (apply land_pow31_small; lia).
    rewrite N.lxor_assoc, N.lxor_nilpotent, N.lxor_0_r. reflexivity.
Qed.

(* the biased signed comparison is the unsigned comparison *)
Lemma cmpgt_biased a b : a < 4294967296 -> b < 4294967296 ->
  cmpgt32 (xor32 a 0x80000000) (xor32 b 0x80000000) = if b <? a then mask32 else 0.
Proof.
  intros Ha Hb. unfold cmpgt32, xor32. rewrite !lxor_msb by assumption.
  assert (S : forall x, x < 4294967296 ->
    to_signed32 (if x <? 2147483648 then x + 2147483648 else x - 2147483648) = (Z.of_N x - 2147483648)%Z).
  { intros x Hx. unfold to_signed32. destruct (N.ltb_spec x 2147483648).
    - replace (x + 2147483648 <? 2147483648) with false by lia. lia.
    - replace (x - 2147483648 <? 2147483648) with true by lia. lia. }
  rewrite !S by assumption.
  destruct (N.ltb_spec b a).
  - replace (_ <? _)%Z with true by lia. reflexivity.
  - replace (_ <? _)%Z with false by lia. reflexivity.
Qed.

Lemma testbit31 a : a < 4294967296 -> N.testbit a 31 = (2147483648 <=? a).
Proof.
  intros H. rewrite N.testbit_eqb. change (2 ^ 31) with 2147483648.
  destruct (N.leb_spec 2147483648 a); [apply N.eqb_eq|apply N.eqb_neq]; lia.
Qed.

Lemma land_lt32 u b : b < 4294967296 -> N.land u b < 4294967296.
Proof.
  intros H. replace b with (N.land b (N.ones 32)) by (rewrite N.land_ones; apply N.mod_small; exact H).
  rewrite N.land_assoc, N.land_ones. apply N.mod_lt. discriminate.
Qed.

Lemma carry_andnot a b : a < 4294967296 -> b < 4294967296 ->
  N.shiftr (N.land (N.lxor a mask32) b) 31 = if (a <? 2147483648) && (2147483648 <=? b) then 1 else 0.
Proof.
  intros Ha Hb. set (x := N.land (N.lxor a mask32) b).
  assert (Hx : x < 4294967296) by (apply land_lt32; exact Hb).
  assert (Tx : N.testbit x 31 = (a <? 2147483648) && (2147483648 <=? b)).
  { unfold x. rewrite N.land_spec, N.lxor_spec, !testbit31 by (assumption || reflexivity).
    change (2147483648 <=? mask32) with true.
    destruct (N.leb_spec 2147483648 a), (N.ltb_spec a 2147483648); try lia; reflexivity. }
  rewrite <- Tx, (testbit31 x Hx), N.shiftr_div_pow2. change (2 ^ 31) with 2147483648.
  destruct (N.leb_spec 2147483648 x); lia.
Qed.

(* _mm_sub_epi32 of an all-ones / all-zeros mask is the addition of a carry bit *)
Lemma sub32_mask h (t : bool) : h < 4294967296 -> sub32 h (if t then mask32 else 0) = add32 h (if t then 1 else 0).
Proof.
  intros H. unfold sub32, add32. rewrite (w32_id h H). destruct t.
  - change (w32 mask32) with 4294967295. f_equal. lia.
  - change (w32 0) with 0. rewrite N.sub_0_r, N.add_0_r, !w32_mod, <- (N.mul_1_l 4294967296) at 1.
    apply N.mod_add. discriminate.
Qed.

Lemma lane_cmp counter d : d < 4294967296 ->
  let lo := w32 counter in let l := add32 lo d in
  l = ctr_lo (counter + d) /\
  sub32 (w32 (N.shiftr counter 32)) (cmpgt32 (xor32 d 0x80000000) (xor32 l 0x80000000)) = ctr_hi (counter + d).
Proof.
  intros Hd lo l. destruct (ctr_add counter d) as [-> ->]. split; [reflexivity|].
  rewrite (cmpgt_biased d l Hd (w32_lt _)), sub32_mask by apply w32_lt. f_equal.
  unfold l, add32, carry32. rewrite w32_mod. symmetry. apply carry_lt; [discriminate|apply w32_lt|exact Hd].
Qed.

Lemma lane_andnot counter d : d <= 2147483648 ->
  let lo := w32 counter in let l := add32 lo d in
  l = ctr_lo (counter + d) /\
  add32 (w32 (N.shiftr counter 32)) (N.shiftr (N.land (N.lxor l mask32) lo) 31) = ctr_hi (counter + d).
Proof.
  intros Hd lo l. destruct (ctr_add counter d) as [-> ->]. split; [reflexivity|].
  rewrite (carry_andnot l lo) by apply w32_lt. f_equal.
  unfold l, add32, carry32. rewrite w32_mod. symmetry.
  apply (carry_msb 4294967296 ltac:(discriminate) 2147483648); [reflexivity|apply w32_lt|exact Hd].
Qed.

(* res_map: the map of a failing function over a list (Model/Kernels.v), not ResP.res_map *)
Lemma res_map_ok {A B} (f : A -> res B) (g : A -> B) l :
  (forall x, In x l -> f x = Ok (g x)) -> res_map f l = Ok (map g l).
Proof.
  induction l as [|x l IH]; intros H; [reflexivity|].
  cbn [res_map map]. rewrite (H x (or_introl eq_refl)). cbn [bind].
  rewrite IH by (intros y Hy; apply H; right; exact Hy). reflexivity.
Qed.

Lemma land_ones64_small x : x < 18446744073709551616 -> N.land (N.ones 64) x = x.
Proof. intros H. rewrite N.land_comm, N.land_ones. apply N.mod_small. exact H. Qed.

(* a lane-wise expression over lane_ids n is one map over seq 0 n *)
Lemma nth_map_seq (f : nat -> N) n i : (i < n)%nat -> nth i (map f (seq 0 n)) 0 = f i.
Proof. intros H. rewrite (nth_map_lt f _ _ 0%nat) by (rewrite seq_length; exact H). rewrite seq_nth by exact H. reflexivity. Qed.
Lemma vset1_seq n x : vset1 n x = map (fun _ => x) (seq 0 n).
Proof.
  unfold vset1. generalize 0%nat. induction n as [|n IH]; intros a; [reflexivity|]. cbn [repeat seq map]. f_equal. apply IH.
Qed.
Lemma vmap2_maps {A} (h : N -> N -> N) (f g : A -> N) l : vmap2 h (map f l) (map g l) = map (fun x => h (f x) (g x)) l.
Proof. unfold vmap2. induction l as [|x l IH]; [reflexivity|]. cbn [map combine fst snd]. rewrite <- IH. reflexivity. Qed.

Lemma lc_ok_lanes n (lc : N -> bool -> res (vec * vec)) (L H : N -> bool -> nat -> N) :
  (forall c incr, c + N.of_nat n <= 2 ^ 64 -> lc c incr = Ok (map (L c incr) (seq 0 n), map (H c incr) (seq 0 n))) ->
  (forall c incr i, c + N.of_nat n <= 2 ^ 64 -> (i < n)%nat ->
     L c incr i = ctr_lo (lane_ctr c incr i) /\ H c incr i = ctr_hi (lane_ctr c incr i)) ->
  lc_ok n lc.
Proof.
  intros E P c incr Hc. eexists _, _. split; [apply E, Hc|]. unfold wf. rewrite !map_length, seq_length.
  split; [reflexivity|]. split; [reflexivity|]. intros i Hi. rewrite !nth_map_seq by exact Hi. apply P; assumption.
Qed.

Lemma lane_ctr_add c incr i : lane_ctr c incr i = c + (if incr then N.of_nat i else 0).
Proof. unfold lane_ctr. destruct incr; [reflexivity|symmetry; apply N.add_0_r]. Qed.
(* the lane index under the mask -(int32_t)increment_counter; under !0 or 0 in 64 bits *)
Lemma masked32 (incr : bool) i : i < 4294967296 -> N.land (if incr then mask32 else 0) i = if incr then i else 0.
Proof. intros H. destruct incr; [apply land_mask32_id, H|apply N.land_0_l]. Qed.
Lemma masked64 (incr : bool) i : i < 18446744073709551616 -> N.land (if incr then N.ones 64 else 0) i = if incr then i else 0.
Proof. intros H. destruct incr; [apply land_ones64_small, H|apply N.land_0_l]. Qed.

(* (R) load_counters of rust_sse2.rs / rust_sse41.rs / rust_avx2.rs *)
Theorem load_counters_rs_ok n : lc_ok n (load_counters_rs n).
Proof.
  eapply lc_ok_lanes.
  - intros c incr Hc. change (2 ^ 64) with 18446744073709551616 in Hc. unfold load_counters_rs, lane_ids. cbv zeta.
    rewrite (res_map_ok _ (fun i => c + (if incr then i else 0))); [cbn [bind]; rewrite !map_map; reflexivity|].
    intros x Hx. apply in_map_iff in Hx. destruct Hx as (k & <- & Hk). apply in_seq in Hk.
    rewrite masked64 by lia. unfold mi_add, fits. change (2 ^ 64) with 18446744073709551616.
    replace (_ <? _) with true by (destruct incr; lia). reflexivity.
  - intros c incr i _ _. cbv beta. rewrite lane_ctr_add. split; reflexivity.
Qed.

(* (C) signed-compare variant of blake3_sse2.c / blake3_sse41.c / blake3_avx2.c / the assembly *)
Theorem load_counters_cmp_ok n : N.of_nat n <= 4294967296 -> lc_ok n (load_counters_cmp n).
Proof.
  intros Hn. eapply lc_ok_lanes.
  - intros c incr _. unfold load_counters_cmp, lane_ids, vand, vadd, vxor, vcmpgt, vsub. cbv zeta.
    rewrite !vset1_seq, !vmap2_maps. reflexivity.
  - intros c incr i _ Hi. cbv beta. rewrite masked32, lane_ctr_add by lia.
    apply lane_cmp. destruct incr; lia.
Qed.

(* (A) load_counters16 of blake3_avx512.c *)
Theorem load_counters_andnot_ok n : N.of_nat n <= 2147483648 -> lc_ok n (load_counters_andnot n).
Proof.
  intros Hn. eapply lc_ok_lanes.
  - intros c incr _. unfold load_counters_andnot, lane_ids, vand, vadd, vandnot, vshr. cbv zeta.
    rewrite !vset1_seq, !vmap2_maps, map_map, !vmap2_maps. reflexivity.
  - intros c incr i _ Hi. cbv beta. rewrite N.land_comm, masked32, lane_ctr_add by lia.
    apply lane_andnot. destruct incr; lia.
Qed.

(* (W) the 64-bit-lane variant: load_counters4 / load_counters8 of blake3_avx512.c *)
Theorem load_counters_64_ok n : lc_ok n (load_counters_64 n).
Proof.
  eapply lc_ok_lanes.
  - intros c incr _. unfold load_counters_64, lane_ids. cbv zeta. rewrite !map_map. reflexivity.
  - intros c incr i Hc Hi. cbv beta. change (2 ^ 64) with 18446744073709551616 in Hc.
    rewrite masked64, lane_ctr_add, N.land_ones, N.mod_small by (change (2 ^ 64) with 18446744073709551616; destruct incr; lia).
    rewrite ctr_lo_mod, ctr_hi_mod, !w32_mod, N.shiftr_div_pow2. split; reflexivity.
Qed.

(* the value of Portable.hash_many_go on well-formed arguments *)
Fixpoint hm_spec (inputs : list (list N)) (key : list N) (counter : N) (incr : bool)
         (flags fs fe : N) : list (list N) :=
  match inputs with
  | [] => []
  | i :: tl => h1w i key counter flags fs fe ::
               hm_spec tl key (if incr then counter + 1 else counter) incr flags fs fe
  end.

Lemma hm_spec_length inputs key c incr fl fs fe : length (hm_spec inputs key c incr fl fs fe) = length inputs.
Proof. revert c. induction inputs as [|i tl IH]; intros c; cbn [hm_spec length]; [reflexivity|]. rewrite IH. reflexivity. Qed.

Lemma hm_spec_app a b key c incr fl fs fe :
  hm_spec (a ++ b) key c incr fl fs fe =
  hm_spec a key c incr fl fs fe ++ hm_spec b key (lane_ctr c incr (length a)) incr fl fs fe.
Proof.
  revert c. induction a as [|x a IH]; intros c.
  - cbn [app hm_spec length]. unfold lane_ctr. destruct incr; [rewrite N.add_0_r|]; reflexivity.
  - cbn [app hm_spec length]. rewrite IH. f_equal. f_equal. f_equal. unfold lane_ctr. destruct incr; [lia|reflexivity].
Qed.

Lemma hm_spec_seq inputs key c incr fl fs fe :
  hm_spec inputs key c incr fl fs fe =
  map (fun i => h1w (inp inputs i) key (lane_ctr c incr i) fl fs fe) (seq 0 (length inputs)).
Proof.
  revert c. induction inputs as [|x tl IH]; intros c; [reflexivity|].
  cbn [hm_spec length seq map]. f_equal.
  - unfold inp, lane_ctr. cbn [nth]. destruct incr; [rewrite N.add_0_r|]; reflexivity.
  - rewrite IH, <- seq_shift, map_map. apply map_ext. intros i. unfold inp, lane_ctr. cbn [nth].
    destruct incr; [|reflexivity]. f_equal. lia.
Qed.

Lemma hash_many_go_spec inputs key c incr fl fs fe :
  (forall i, In i inputs -> Nat.modulo (length i) 64 = 0%nat) ->
  c + N.of_nat (length inputs) < 2 ^ 64 ->
  hash_many_go inputs key c incr fl fs fe = Ok (hm_spec inputs key c incr fl fs fe).
Proof.
  change (2 ^ 64) with 18446744073709551616.
  revert c. induction inputs as [|x tl IH]; intros c Hm Hc; [reflexivity|].
  cbn [hash_many_go hm_spec]. rewrite hash1_h1w by (apply Hm; left; reflexivity). cbn [bind].
  cbn [length] in Hc.
  assert (E : (if incr then mi_add 64 c 1 else Ok c) = Ok (if incr then c + 1 else c)).
  { destruct incr; [|reflexivity]. unfold mi_add, fits. change (2 ^ 64) with 18446744073709551616.
    replace (c + 1 <? 18446744073709551616) with true by lia. reflexivity. }
  rewrite E. cbn [bind]. rewrite IH; [reflexivity| |].
  - intros i Hi. apply Hm. right. exact Hi.
  - destruct incr; lia.
Qed.

Lemma firstn_In {A} (x : A) n l : In x (firstn n l) -> In x l.
Proof. intros H. rewrite <- (firstn_skipn n l). apply in_or_app. left. exact H. Qed.
Lemma skipn_In {A} (x : A) n l : In x (skipn n l) -> In x l.
Proof. intros H. rewrite <- (firstn_skipn n l). apply in_or_app. right. exact H. Qed.

Definition hN_ok (deg : nat) (hN : hashN_fn) : Prop :=
  forall chunk blocks key counter incr fl fs fe,
    length chunk = deg -> length key = 8%nat ->
    (forall i, In i chunk -> length i = (blocks * 64)%nat) ->
    counter + N.of_nat deg <= 2 ^ 64 ->
    hN chunk blocks key counter incr fl fs fe = Ok (hm_spec chunk key counter incr fl fs fe).

Theorem hashN_ok n tmsg lc store : (0 < n)%nat -> tmsg_ok n tmsg -> lc_ok n lc -> store_ok n store ->
  hN_ok n (hashN_gen n tmsg lc store).
Proof.
  intros Hn Ht Hl Hs chunk blocks key counter incr fl fs fe Lc Lk Hlen Hc.
  rewrite (hashN_gen_ok n tmsg lc store Hn Ht Hl Hs chunk blocks key counter incr fl fs fe Lk); [|
    intros j Hj; apply Hlen; unfold inp; apply nth_In; lia | exact Hc].
  rewrite hm_spec_seq, Lc. reflexivity.
Qed.

Definition cadd_ok (cadd : N -> N -> res N) : Prop :=
  forall a b, a + b < 2 ^ 64 -> cadd a b = Ok (a + b).
Lemma cadd_rs_ok : cadd_ok cadd_rs.
Proof. intros a b H. unfold cadd_rs, mi_add, fits. replace (a + b <? 2 ^ 64) with true by lia. reflexivity. Qed.
Lemma cadd_c_ok : cadd_ok cadd_c.
Proof. intros a b H. unfold cadd_c. rewrite N.land_ones, N.mod_small by exact H. reflexivity. Qed.

Definition h1_ok (h1 : hash1_fn) : Prop :=
  forall input blocks key counter fl fs fe, length key = 8%nat -> length input = (blocks * 64)%nat ->
    h1 input blocks key counter fl fs fe = Ok (h1w input key counter fl fs fe).

Definition cip_ok (cip : cip_fn) : Prop :=
  forall cv block bl ctr fl, length cv = 8%nat -> cip cv block bl ctr fl = compress_in_place cv block bl ctr fl.

(* `cip` need only be the portable compress_in_place on whole blocks and on the chaining values the loop meets *)
Lemma hash1_rs_go_inv (I : list N -> Prop) (cip : cip_fn) :
  (forall cv block bl ctr fl, I cv -> length block = 64%nat ->
     cip cv block bl ctr fl = compress_in_place cv block bl ctr fl /\ I (compress_in_place cv block bl ctr fl)) ->
  forall fuel cv input ctr fl bf fe, I cv ->
  hash1_rs_go cip fuel cv input ctr fl bf fe = hash1_go fuel cv input ctr fl bf fe.
Proof.
  intros Hc. induction fuel as [|fuel IH]; intros cv input ctr fl bf fe Icv; [reflexivity|].
  cbn [hash1_rs_go hash1_go]. change rs_BLOCK_LEN with 64. change (N.to_nat 64) with 64%nat.
  destruct (N.ltb_spec (N.of_nat (length input)) 64) as [Hl|Hl]; [reflexivity|].
  destruct (Hc cv (firstn 64 input) 64 ctr (if N.of_nat (length input) =? 64 then N.lor bf fe else bf) Icv) as [E I'];
    [rewrite firstn_length; lia|].
  rewrite E. apply IH, I'.
Qed.

Lemma hash1_rs_go_ok64 (cip : cip_fn) :
  (forall cv block bl ctr fl, length cv = 8%nat -> length block = 64%nat ->
     cip cv block bl ctr fl = compress_in_place cv block bl ctr fl) ->
  forall fuel cv input ctr fl bf fe, length cv = 8%nat ->
  hash1_rs_go cip fuel cv input ctr fl bf fe = hash1_go fuel cv input ctr fl bf fe.
Proof.
  intros Hc. apply (hash1_rs_go_inv (fun cv => length cv = 8%nat)). intros cv block bl ctr fl Lcv Lb.
  split; [apply Hc; assumption|apply compress_in_place_length, Lcv].
Qed.

Lemma hash1_rs_go_ok cip : cip_ok cip -> forall fuel cv input ctr fl bf fe, length cv = 8%nat ->
  hash1_rs_go cip fuel cv input ctr fl bf fe = hash1_go fuel cv input ctr fl bf fe.
Proof. intros Hc. apply hash1_rs_go_ok64. intros cv block bl ctr fl Lcv _. apply Hc, Lcv. Qed.

Lemma hash1_rs_ok cip : cip_ok cip -> h1_ok (hash1_rs cip).
Proof.
  intros Hc input blocks key counter fl fs fe Lk Li. unfold hash1_rs.
  rewrite bind_check_true.
  - unfold h1w. rewrite hash1_rs_go_ok by assumption. reflexivity.
  - change rs_BLOCK_LEN with 64. apply N.eqb_eq. rewrite Li. lia.
Qed.

(* the C loop, which counts blocks, is the Rust loop, which looks at what is left of the input *)
Lemma hash_one_go_rs cip : forall blocks cv input ctr fl bf fe fuel,
  length input = (blocks * 64)%nat -> (blocks < fuel)%nat ->
  hash_one_go cip blocks cv input ctr fl bf fe = hash1_rs_go cip fuel cv input ctr fl bf fe.
Proof.
  induction blocks as [|blocks IH]; intros cv input ctr fl bf fe fuel Li Hf; (destruct fuel as [|fuel]; [lia|]);
    cbn [hash1_rs_go hash_one_go]; rewrite Li; change rs_BLOCK_LEN with 64.
  - reflexivity.
  - replace (N.of_nat (S blocks * 64) <? 64) with false by (symmetry; apply N.ltb_ge; lia).
    replace (N.of_nat (S blocks * 64) =? 64) with (S blocks =? 1)%nat
      by (destruct (Nat.eqb_spec (S blocks) 1); symmetry; [apply N.eqb_eq|apply N.eqb_neq]; lia).
    apply IH; [rewrite skipn_length, Li; lia|lia].
Qed.

Lemma hash_one_go_ok cip : cip_ok cip -> forall blocks cv input ctr fl bf fe fuel,
  length cv = 8%nat -> length input = (blocks * 64)%nat -> (blocks < fuel)%nat ->
  hash_one_go cip blocks cv input ctr fl bf fe = hash1_go fuel cv input ctr fl bf fe.
Proof.
  intros Hc blocks cv input ctr fl bf fe fuel Lcv Li Hf.
  rewrite (hash_one_go_rs cip blocks cv input ctr fl bf fe fuel Li Hf). apply hash1_rs_go_ok; assumption.
Qed.

Lemma hash_one_c_ok cip : cip_ok cip -> h1_ok (hash_one_c cip).
Proof.
  intros Hc input blocks key counter fl fs fe Lk Li. unfold hash_one_c, h1w.
  rewrite (hash_one_go_ok cip Hc blocks key input counter fl (N.lor fl fs) fe (S (Nat.div (length input) 64)));
    try assumption; [reflexivity|].
  rewrite Li, Nat.div_mul by discriminate. lia.
Qed.

(* the message vectors of a round whose schedule-ordered words are x:
   columns take (x0,x2,x4,x6) and (x1,x3,x5,x7); the diagonal step, with row1 unrotated,
   takes (x14,x8,x10,x12) and (x15,x9,x11,x13) *)
Definition layout (x : list N) : msgs :=
  let e k := nth k x 0 in
  ([e 0; e 2; e 4; e 6], [e 1; e 3; e 5; e 7], [e 14; e 8; e 10; e 12], [e 15; e 9; e 11; e 13])%nat.

Definition cx_ok (cx : cip_fn) : Prop :=
  forall cv block bl ctr fl, length cv = 8%nat -> cx cv block bl ctr fl = compress_xof cv block bl ctr fl.

(* inside the argument types the guards are the identity: the vector kernels run *)
Lemma cip_rows_guard_in cv block bl ctr fl : length cv = 8%nat ->
  cip_rows cv block bl ctr fl = compress_in_place_rows cv block bl ctr fl.
Proof. intros E. unfold cip_rows, guard_cip, cv_ok. rewrite E. reflexivity. Qed.
Lemma guard_hm_in extra k inputs key ctr incr fl fs fe cap :
  cv_ok key = true -> inputs_ok inputs = true -> extra inputs cap = true ->
  guard_hm extra k inputs key ctr incr fl fs fe cap = k inputs key ctr incr fl fs fe cap.
Proof. intros A B C. unfold guard_hm. rewrite A, B, C. reflexivity. Qed.
Lemma guard_xm_in k cv block bl ctr fl n : cv_ok cv = true ->
  guard_xm k cv block bl ctr fl n = k cv block bl ctr fl n.
Proof. intros A. unfold guard_xm. rewrite A. reflexivity. Qed.
