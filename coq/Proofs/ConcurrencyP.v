(* C08: every interleaving of the two halves' writes gives the same children list
   as running left then right.  C18: in any interleaving of per-instance operation
   sequences each instance observes exactly what it would observe alone; the
   detection cache only ever moves from unknown to the one detected value. *)
From Coq Require Import NArith Arith List Bool Lia.
From V Require Import Base.Res Model.Concurrency.
Import ListNotations.
Open Scope N_scope.

Lemma write_slot_length {A} (mem : list A) i x : length (write_slot mem i x) = length mem.
Proof. revert i. induction mem as [|y mem IH]; intros [|i]; cbn; auto. Qed.

Lemma write_slot_comm {A} (mem : list A) i j x y : i <> j ->
  write_slot (write_slot mem i x) j y = write_slot (write_slot mem j y) i x.
Proof.
  revert i j. induction mem as [|z mem IH]; intros [|i] [|j] H; cbn; try reflexivity; try congruence.
  f_equal. apply IH. congruence.
Qed.

Lemma write_slot_mid {A} (pre : list A) y post x : write_slot (pre ++ y :: post) (length pre) x = pre ++ x :: post.
Proof. induction pre as [|z pre IH]; cbn [app length write_slot]; [reflexivity|]. rewrite IH. reflexivity. Qed.

Definition slots (evs : list wr) : list nat := map fst evs.
Definition disjoint (a b : list nat) : Prop := forall i, In i a -> In i b -> False.

Lemma apply_writes_app mem a b : apply_writes mem (a ++ b) = apply_writes (apply_writes mem a) b.
Proof. apply fold_left_app. Qed.

Lemma write_commutes_batch : forall evs mem i x, ~ In i (slots evs) ->
  apply_writes (write_slot mem i x) evs = write_slot (apply_writes mem evs) i x.
Proof.
  induction evs as [|[j y] evs IH]; intros mem i x H; [reflexivity|].
  cbn [apply_writes fold_left fst snd] in *. fold (apply_writes (write_slot (write_slot mem i x) j y) evs).
  fold (apply_writes (write_slot mem j y) evs).
  rewrite write_slot_comm by (intro E; apply H; left; cbn; auto).
  apply IH. intro Hin. apply H. right. exact Hin.
Qed.

Theorem interleave_irrelevant : forall l r m, Interleave l r m -> disjoint (slots l) (slots r) ->
  forall mem, apply_writes mem m = apply_writes mem (l ++ r).
Proof.
  intros l r m H. induction H as [|x l r m H IH|x l r m H IH]; intros Hd mem.
  - reflexivity.
  - cbn [app apply_writes fold_left]. apply IH. intros i Hi Hj. apply (Hd i); [right; exact Hi|exact Hj].
  - destruct x as [j y]. cbn [apply_writes fold_left fst snd].
    fold (apply_writes (write_slot mem j y) m). rewrite IH.
    2:{ intros i Hi Hj. apply (Hd i); [exact Hi|right; exact Hj]. }
    rewrite !apply_writes_app.
    assert (Hnot : ~ In j (slots l)) by (intro Hin; apply (Hd j); [exact Hin|left; reflexivity]).
    rewrite (write_commutes_batch l mem j y Hnot).
    cbn [apply_writes fold_left fst snd]. reflexivity.
Qed.

Lemma slots_events_from base cvs : slots (events_from base cvs) = seq base (length cvs).
Proof. revert base. induction cvs as [|cv cvs IH]; intros base; cbn; [reflexivity|]. rewrite IH. reflexivity. Qed.

Lemma halves_disjoint degree lcvs rcvs : (length lcvs <= degree)%nat ->
  disjoint (slots (events_from 0 lcvs)) (slots (events_from degree rcvs)).
Proof.
  intros Hl i Hi Hj. rewrite slots_events_from in *. apply in_seq in Hi. apply in_seq in Hj. lia.
Qed.

Lemma apply_events : forall cvs pre old post, length old = length cvs ->
  apply_writes (pre ++ old ++ post) (events_from (length pre) cvs) = pre ++ cvs ++ post.
Proof.
  induction cvs as [|cv cvs IH]; intros pre [|o old] post H; try discriminate; [reflexivity|].
  cbn [events_from apply_writes fold_left fst snd app]. rewrite write_slot_mid.
  replace (S (length pre)) with (length (pre ++ [cv])) by (rewrite app_length, Nat.add_1_r; reflexivity).
  change (pre ++ cv :: old ++ post) with (pre ++ [cv] ++ old ++ post). rewrite app_assoc.
  fold (apply_writes ((pre ++ [cv]) ++ old ++ post) (events_from (length (pre ++ [cv])) cvs)).
  rewrite IH by (injection H as H; exact H). rewrite <- app_assoc. reflexivity.
Qed.

(* C08: whatever the schedule, the parent layer sees left ++ right *)
Theorem split_node_schedule_independent cap degree lcvs rcvs m :
  length lcvs = degree -> (degree + length rcvs <= cap)%nat ->
  Interleave (events_from 0 lcvs) (events_from degree rcvs) m ->
  split_node cap degree lcvs rcvs m = lcvs ++ rcvs.
Proof.
  intros Hl Hcap HI. unfold split_node.
  rewrite (interleave_irrelevant _ _ _ HI) by (apply halves_disjoint; lia).
  rewrite apply_writes_app.
  replace cap with (length lcvs + (length rcvs + (cap - degree - length rcvs)))%nat by lia.
  rewrite !repeat_app. set (rest := repeat zero_cv (cap - degree - length rcvs)).
  pose proof (apply_events lcvs [] _ (repeat zero_cv (length rcvs) ++ rest) (repeat_length zero_cv (length lcvs))) as E.
  cbn [app length] in E. rewrite E, <- Hl, (apply_events rcvs lcvs) by apply repeat_length.
  rewrite app_assoc, <- app_length, firstn_app, Nat.sub_diag, firstn_all. apply app_nil_r.
Qed.

(* the serial join is one of the schedules (left first), so is right first *)
Lemma interleave_left_first {A} (l r : list A) : Interleave l r (l ++ r).
Proof.
  induction l as [|x l IH]; cbn [app].
  - induction r as [|y r IHr]; [constructor|]. apply IL_right. exact IHr.
  - apply IL_left. exact IH.
Qed.

Lemma interleave_right_first {A} (l r : list A) : Interleave l r (r ++ l).
Proof.
  induction r as [|y r IH]; cbn [app].
  - induction l as [|x l IHl]; [constructor|]. apply IL_left. exact IHl.
  - apply IL_right. exact IH.
Qed.

Section Isolation.
  Variables (S A O : Type) (f : A -> S -> res (S * O)) (features : N).
  Notation proc := (proc S).
  Notation op_step := (op_step S A O f features).
  Notation run_seq := (run_seq S A O f features).
  Notation run_alone := (run_alone S A O f).

  Definition cache_ok (c : option N) : Prop := c = None \/ c = Some features.

  Lemma cache_ok_some : cache_ok (Some features).
  Proof. right. reflexivity. Qed.

  Lemma detect_cache (p : proc) : cache_ok (cache S p) ->
    cache S (fst (detect S features p)) = Some features /\ snd (detect S features p) = features /\
    insts S (fst (detect S features p)) = insts S p.
  Proof.
    intros [H|H]; unfold detect; rewrite H; cbn; auto.
  Qed.

  Lemma op_step_spec (p : proc) i a s : cache_ok (cache S p) -> nth_error (insts S p) i = Some s ->
    op_step p i a =
    match f a s with
    | Ok (s', o) => Ok (mkProc S (write_slot (insts S p) i s') (Some features), o)
    | Panic c => Panic c
    | OutOfFuel => OutOfFuel
    end.
  Proof.
    intros Hc Hn. unfold op_step. destruct (detect_cache p Hc) as (H1 & H2 & H3).
    destruct (detect S features p) as [[ip cp] v]. cbn [fst snd insts cache] in *. cbn iota. subst ip cp. rewrite Hn.
    destruct (f a s) as [[s' o]| |]; cbn [bind]; reflexivity.
  Qed.

  Lemma nth_error_write_same {X} (l : list X) i x y : nth_error l i = Some y -> nth_error (write_slot l i x) i = Some x.
  Proof. revert i. induction l as [|z l IH]; intros [|i] H; cbn in *; try discriminate; auto. Qed.

  Lemma nth_error_write_other {X} (l : list X) i j x : i <> j -> nth_error (write_slot l i x) j = nth_error l j.
  Proof.
    revert i j. induction l as [|z l IH]; intros [|i] [|j] H; cbn; try reflexivity; try congruence.
    apply IH. congruence.
  Qed.

  (* C18: in ANY global sequence of operations (any interleaving of the instances' own sequences)
     instance i observes exactly what it observes when its operations run alone from its state *)
  Theorem interleaving_projects : forall evs (p : proc) p' os i s,
    cache_ok (cache S p) -> nth_error (insts S p) i = Some s ->
    run_seq p evs = Ok (p', os) ->
    exists s', run_alone s (map snd (filter (fun x => Nat.eqb (fst x) i) evs)) = Ok (s', project O i os) /\
               nth_error (insts S p') i = Some s' /\ cache_ok (cache S p').
  Proof.
    induction evs as [|[j a] evs IH]; intros p p' os i s Hc Hn Hrun.
    - cbn in Hrun. inversion Hrun; subst. exists s. cbn. auto.
    - cbn [run_seq] in Hrun.
      destruct (nth_error (insts S p) j) as [sj|] eqn:Ej.
      2:{ unfold Concurrency.op_step in Hrun. destruct (detect_cache p Hc) as (H1 & H2 & H3).
          destruct (detect S features p) as [[iq cq] v]. cbn [fst snd insts cache] in *. cbn iota in Hrun. subst iq. rewrite Ej in Hrun. discriminate. }
      rewrite (op_step_spec p j a sj Hc Ej) in Hrun.
      destruct (f a sj) as [[sj' o]| |] eqn:Ef; cbn [bind] in Hrun; try discriminate.
      destruct (run_seq (mkProc S (write_slot (insts S p) j sj') (Some features)) evs) as [[p2 os2]| |] eqn:Er;
        cbn [bind] in Hrun; try discriminate.
      inversion Hrun; subst p' os. clear Hrun.
      cbn [filter fst map project]. unfold project. cbn [filter fst].
      destruct (Nat.eqb j i) eqn:Eji.
      + apply Nat.eqb_eq in Eji. subst j. rewrite Hn in Ej. inversion Ej; subst sj.
        destruct (IH (mkProc S (write_slot (insts S p) i sj') (Some features)) p2 os2 i sj' cache_ok_some (nth_error_write_same _ _ _ _ Hn) Er) as (s' & Ha & Hn' & Hc').
        exists s'. cbn [map snd run_alone]. rewrite Ef. cbn [bind]. unfold project in Ha. rewrite Ha. cbn [bind]. auto.
      + apply Nat.eqb_neq in Eji.
        destruct (IH (mkProc S (write_slot (insts S p) j sj') (Some features)) p2 os2 i s cache_ok_some) as (s' & Ha & Hn' & Hc'); [|exact Er|].
        { cbn [insts]. rewrite nth_error_write_other by exact Eji. exact Hn. }
        exists s'. auto.
  Qed.
End Isolation.
