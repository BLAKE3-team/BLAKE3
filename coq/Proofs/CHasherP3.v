(* C06: the lazily merged, in-place CV stack of blake3_hasher: hasher_merge_cv_stack, hasher_push_cv and the subtree
   loop of blake3_hasher_update keep it equal to the specification subtrees of the absorbed message.  Each statement is
   the Rust crate's (Proofs/HasherP.v, abstract stack / LoopState at offset 0) carried over by the simulation of
   Proofs/CSimP.v. *)
From V Require Import Proofs.ListP Proofs.ResP.
From V Require Import Base.Res Base.Word Base.MachInt gen.GenConsts gen.GenFormulas
  Spec.Compress Spec.Tree Spec.Blake3 Model.Portable Model.Platform Model.RsChunk Model.RsWide Model.RsXof Model.CHasher
  Proofs.PortableP Proofs.ChunkP Proofs.TreeP Proofs.FormulasP Proofs.WideP Proofs.C01P Proofs.XofP
  Proofs.StackArithP Proofs.HasherP Proofs.C02P Proofs.CFormulasP Proofs.CHasherP Proofs.CHasherP2 Proofs.CSimP.
From V Require Import Model.RsHasher.
Open Scope N_scope.

Lemma firstn_upd_nth_ge {A} (x : A) : forall st n i, (n <= i)%nat -> firstn n (upd_nth i x st) = firstn n st.
Proof.
  induction st as [|y st IH]; intros n i H; [destruct i; reflexivity|].
  destruct n as [|n]; [reflexivity|]. destruct i as [|i]; [lia|].
  cbn [upd_nth]. rewrite !firstn_cons. rewrite IH by lia. reflexivity.
Qed.

Definition sp (ctr : N) (bytes : list N) : tree := spec_tree wide_fuel ctr bytes.

(* sp and st (HasherP, opaque) are the same tree; rewrite with explicit instances, `rewrite !sp_st` does not end *)
Lemma sp_st ctr b : sp ctr b = st ctr b.
Proof. unfold sp. symmetry. apply st_unfold. Qed.

(* the abstract stack: (exponent, tree) per entry, bottom first *)
Fixpoint Segs (ctr : N) (l : list (N * tree)) (bytes : list N) : Prop :=
  match l with
  | [] => bytes = []
  | (e, t) :: tl =>
      1024 * 2 ^ e <= len bytes /\ t = sp ctr (take (1024 * 2 ^ e) bytes) /\
      Segs (ctr + 2 ^ e) tl (drop (1024 * 2 ^ e) bytes)
  end.

Definition exps (l : list (N * tree)) : list N := map fst l.

Lemma Segs_len : forall l ctr bytes, Segs ctr l bytes -> len bytes = 1024 * sum2 (exps l).
Proof.
  induction l as [|[e t] l IH]; intros ctr bytes H; cbn [Segs exps map sum2 fst] in *.
  - subst. reflexivity.
  - destruct H as (H1 & _ & H3). apply IH in H3. rewrite len_drop in H3. unfold exps in H3. lia.
Qed.

Lemma Segs_trees : forall l ctr bs, Segs ctr l bs -> map snd l = trees_of ctr bs (exps l).
Proof.
  induction l as [|[e t] l IH]; intros ctr bs H; [reflexivity|].
  cbn [Segs] in H. destruct H as (H1 & H2 & H3).
  cbn [map snd exps fst trees_of]. rewrite <- sp_st, <- H2. f_equal. apply IH. exact H3.
Qed.

Lemma segs_of_Segs : forall es ctr bs, len bs = 1024 * sum2 es -> Segs ctr (segs_of ctr bs es) bs.
Proof.
  induction es as [|a es IH]; intros ctr bs H; cbn [sum2 segs_of Segs] in *; [apply len_0_nil; lia|].
  pose proof (pow2_pos a). split; [lia|]. split; [symmetry; apply sp_st|]. apply IH. rewrite len_drop. lia.
Qed.

Lemma segs_of_eq : forall l ctr bs, map snd l = trees_of ctr bs (exps l) -> l = segs_of ctr bs (exps l).
Proof.
  induction l as [|[e t] l IH]; intros ctr bs H; [reflexivity|]. cbn [map snd exps fst trees_of segs_of] in *.
  injection H as -> H. f_equal. apply IH, H.
Qed.

Lemma Merges_Segs l l' : Merges l l' -> forall ctr bytes, len bytes < 2 ^ 64 -> Segs ctr l bytes -> Segs ctr l' bytes.
Proof.
  intros HM ctr bytes H64 H. pose proof (Segs_len _ _ _ H) as Hl. rewrite two64 in H64.
  rewrite (segs_of_eq l' ctr bytes).
  - apply segs_of_Segs. rewrite Hl. unfold exps. rewrite (Merges_sum2 _ _ HM). reflexivity.
  - apply (Merges_trees _ _ HM); [unfold exps in Hl; lia|unfold exps in Hl; change (2 ^ 64) with 18446744073709551616; lia|exact (Segs_trees _ _ _ H)].
Qed.

Lemma exps_length l : length (exps l) = length l.
Proof. apply map_length. Qed.

Section Refine.
  Variable p : platform.
  Hypothesis POK : PlatformOK p.
  Variables (K : list N) (F : N).

  Notation tcv := (tree_cv spec_c8 K F).
  Definition cvof (et : N * tree) : list N := tcv (snd et).

  (* 55 slots: see CSimP.Live *)
  Definition StackRel (h : c_hasher) (l : list (N * tree)) : Prop :=
    ch_stack_len h = N.of_nat (length l) /\ firstn (length l) (ch_stack h) = map cvof l /\
    length (ch_stack h) = 55%nat /\ Forall (fun et => wf_tree (snd et)) l /\ ch_key h = K /\ ch_flags h = F.

  Lemma StackRel_le h l : StackRel h l -> (length l <= 55)%nat.
  Proof.
    intros (_ & H2 & H3 & _). apply (f_equal (@length _)) in H2. rewrite firstn_length, map_length in H2. lia.
  Qed.

  Notation cvs_of := (cvs_of spec_c8 K F).

  Lemma cvs_of_cvof l : cvs_of l = rev (map cvof l).
  Proof. unfold HasherP.cvs_of. rewrite map_map. reflexivity. Qed.

  Lemma StackRel_CRel h l : StackRel h l -> CRel h (mkHasher K (ch_chunk h) 0 (cvs_of l)).
  Proof.
    intros (S1 & S2 & S3 & _ & S5 & _). unfold CRel, Live. cbn [h_key h_cs h_init h_stack].
    rewrite cvs_of_cvof, rev_length, map_length, rev_involutive. auto 10.
  Qed.

  Lemma CRel_StackRel h rh l : CRel h rh -> h_key rh = K -> h_flags rh = F -> h_stack rh = cvs_of l ->
    Forall wf_tree (map snd l) -> StackRel h l.
  Proof.
    intros (R1 & R2 & _ & L1 & L2 & L3) Hk Hf Hst W. rewrite Hst, cvs_of_cvof, rev_length, map_length in L2, L3.
    rewrite rev_involutive in L3. rewrite Forall_map in W. unfold StackRel, ch_flags. rewrite <- R1, <- R2. auto 10.
  Qed.

  Hypothesis HK : length K = 8%nat.

  Lemma StackRel_Abs h l : StackRel h l -> Dom (exps l) -> AbsStack spec_c8 K F 0 (mkHasher K (ch_chunk h) 0 (cvs_of l)) l.
  Proof.
    intros HS HD. pose proof (StackRel_le h l HS). destruct HS as (_ & _ & _ & S4 & _ & S6).
    unfold AbsStack. cbn [h_key h_init h_stack]. rewrite Forall_map. repeat split; try assumption; lia.
  Qed.

  (* Besides the merged stack (SDom, same total) the callers get: the chunk state is untouched; the segments the
     entries stand for are the same bytes; and a stack that is already merged stays as it is. *)
  Lemma c_merge_cv_stack_spec h l T :
    StackRel h l -> Dom (exps l) -> T = sum2 (exps l) -> T < 2 ^ 64 ->
    exists h' l', c_merge_cv_stack p h T = Ok h' /\ StackRel h' l' /\
      SDom (exps l') /\ sum2 (exps l') = T /\ ch_chunk h' = ch_chunk h /\
      (forall ctr bytes, len bytes < 2 ^ 64 -> Segs ctr l bytes -> Segs ctr l' bytes) /\
      (SDom (exps l) -> l' = l).
  Proof.
    intros HS HD -> HT.
    destruct (merge_cv_stack_abs spec_c8 p POK spec_c8_ok K F HK 0 _ l (StackRel_Abs h l HS HD) HT) as (l' & Hm & HM & HSD).
    destruct (c_merge_cv_stack_sim p h _ _ _ (StackRel_CRel h l HS) HT Hm) as (h' & Hrun & HR & _ & Hch).
    pose proof HS as (_ & _ & _ & S4 & _ & S6). rewrite <- Forall_map in S4.
    exists h', l'. split; [exact Hrun|]. split; [exact (CRel_StackRel h' _ l' HR eq_refl S6 eq_refl (Merges_wf _ _ HM S4))|].
    split; [exact HSD|]. split; [exact (Merges_sum2 _ _ HM)|]. split; [exact Hch|].
    split; [exact (Merges_Segs _ _ HM)|exact (Merges_sdom _ _ HM)].
  Qed.

  (* T < 2^54 = 2^64 / 1024 chunks: a merged stack has at most 54 entries, and the push fills at most slot 55 =
     BLAKE3_MAX_DEPTH + 1 of cv_stack (c/blake3.h) *)
  Lemma c_push_cv_spec h l T e t :
    StackRel h l -> Dom (exps l) -> T = sum2 (exps l) -> T < 2 ^ 54 -> wf_tree t ->
    exists h' l', c_push_cv p h (tcv t) T = Ok h' /\ StackRel h' (l' ++ [(e, t)]) /\
      SDom (exps l') /\ sum2 (exps l') = T /\ ch_chunk h' = ch_chunk h /\
      (forall ctr bytes, len bytes < 2 ^ 64 -> Segs ctr l bytes -> Segs ctr l' bytes) /\
      (SDom (exps l) -> l' = l).
  Proof.
    intros HS HD -> H54 Wt. assert (HT : sum2 (exps l) < 2 ^ 64) by (rewrite two54 in H54; rewrite two64; lia).
    destruct (push_cv_abs spec_c8 p POK spec_c8_ok K F HK 0 _ l e t (StackRel_Abs h l HS HD) HT H54) as (l' & Hm & HM & HSD).
    destruct (c_push_cv_sim p h _ _ _ _ (StackRel_CRel h l HS) HT Hm) as (h' & Hrun & HR & _ & Hch).
    pose proof HS as (_ & _ & _ & S4 & _ & S6). rewrite <- Forall_map in S4.
    exists h', l'. split; [exact Hrun|]. split.
    { apply (CRel_StackRel h' _ _ HR eq_refl S6 eq_refl). rewrite map_app. apply Forall_app.
      split; [exact (Merges_wf _ _ HM S4)|repeat constructor; exact Wt]. }
    split; [exact HSD|]. split; [exact (Merges_sum2 _ _ HM)|]. split; [exact Hch|].
    split; [exact (Merges_Segs _ _ HM)|exact (Merges_sdom _ _ HM)].
  Qed.

  (* the invariant of c_update_loop: the Rust LoopState at offset 0 seen through the simulation (LInv_LoopState) *)
  Definition LInv (h : c_hasher) (m : list N) (l : list (N * tree)) : Prop :=
    StackRel h l /\ Dom (exps l) /\ Segs 0 l m /\ ch_chunk h = mkCS K (sum2 (exps l)) c_zero_block 0 0 F.

  Notation LoopState := (LoopState spec_c8 K F 0).

  Lemma LInv_LoopState h m l : LInv h m l -> exists rh, CRel h rh /\ LoopState rh m (exps l).
  Proof.
    intros (HS & HD & HSeg & Hck). exists (mkHasher K (ch_chunk h) 0 (cvs_of l)). split; [exact (StackRel_CRel h l HS)|].
    destruct HS as (_ & _ & _ & _ & _ & S6). unfold HasherP.LoopState, StackRep, stack_of. cbn [h_key h_cs h_init h_stack].
    unfold HasherP.cvs_of. rewrite (Segs_trees _ _ _ HSeg), (Segs_len _ _ _ HSeg). repeat split; try assumption; lia.
  Qed.

  Lemma LoopState_LInv h rh bs es : CRel h rh -> LoopState rh bs es -> len bs < 2 ^ 64 -> LInv h bs (segs_of 0 bs es).
  Proof.
    intros HR ((Hk & Hf & Hi & Hst & HD & _) & Hl & Hcs) H64. unfold LInv, exps. rewrite segs_of_fst. pose proof HR as (_ & <- & _).
    split; [|split; [exact HD|split; [apply segs_of_Segs; exact Hl|exact Hcs]]].
    apply (CRel_StackRel h rh _ HR Hk Hf); unfold HasherP.cvs_of; rewrite segs_of_snd; [exact Hst|].
    apply trees_of_wf, exps_le. rewrite two64 in H64. change (2 ^ 64) with 18446744073709551616. lia.
  Qed.

  Lemma c_update_loop_small fuel h input : len input <= 1024 -> c_update_loop fuel p h input = Ok (h, input).
  Proof.
    intros H. destruct fuel; cbn [c_update_loop]; unfold nlen; fold (len input); change c_CHUNK_LEN with 1024;
      replace (len input <=? 1024) with true by lia; reflexivity.
  Qed.

  Lemma c_update_loop_spec : forall fuel h m l input,
    LInv h m l -> len (m ++ input) < 2 ^ 64 -> (N.to_nat (len input / 1024) < fuel)%nat ->
    exists h' l' k, c_update_loop fuel p h input = Ok (h', drop k input) /\ LInv h' (m ++ take k input) l' /\
      k <= len input /\ len input - k <= 1024 /\
      ((k = 0 /\ h' = h /\ l' = l) \/ (0 < k /\ (len input - k = 0 -> exists pre a, exps l' = pre ++ [a; a]))).
  Proof.
    intros fuel h m l input HI H64 Hf.
    destruct (len input <=? 1024) eqn:E.
    { exists h, l, 0. rewrite c_update_loop_small, drop_0, take_0, app_nil_r by lia.
      split; [reflexivity|]. split; [exact HI|]. split; [lia|]. split; [lia|]. left. auto. }
    destruct (LInv_LoopState h m l HI) as (rh & HR & HL). pose proof HI as ((_ & _ & _ & _ & S5 & _) & _ & HSeg & Hck).
    destruct (update_loop_spec spec_c8 p POK spec_c8_ok K F HK 0 (lim_of 0) (lim_ok 0 (pow2_pos 54)) (pow2_pos 54) (lim_al 0)
                fuel rh m (exps l) input HL ltac:(rewrite lim0; lia) H64 Hf) as (rh' & es' & k & Hrun & HL' & Hk1 & Hk2 & _ & Hk4).
    destruct (c_update_loop_sim p POK fuel h rh input rh' (drop k input) HR ltac:(rewrite S5; exact HK)) as (h' & Hrun' & HR' & _);
      [rewrite Hck; cbn [cs_ctr]; rewrite <- (Segs_len _ _ _ HSeg), <- len_app; exact H64|exact Hrun|].
    exists h', (segs_of 0 (m ++ take k input) es'), k. split; [exact Hrun'|].
    split; [apply (LoopState_LInv h' rh' _ es' HR' HL'); rewrite len_app, len_take in *; lia|].
    split; [exact Hk1|]. split; [exact Hk2|]. right. split; [lia|]. intros Hz. unfold exps. rewrite segs_of_fst. apply Hk4; lia.
  Qed.

  Notation Inv0 := (InvS K F 0).
  Notation root m := (subtree_output spec_c8 tree_height K F 0 m).

  Lemma c_update_sim_Inv0 h rh m input : CRel h rh -> Inv0 rh m -> len (m ++ input) < 2 ^ 64 ->
    exists h' rh', c_hasher_update p h input = Ok h' /\ CRel h' rh' /\ Inv0 rh' (m ++ input).
  Proof.
    intros HR HI Htot. destruct input as [|x input]; [exists h, rh; rewrite app_nil_r; auto|].
    destruct (Inv0_update p POK K F HK rh m _ HI Htot) as (rh' & Hu & HI').
    destruct HI as (es & (Hk & _ & _ & _ & _ & Hle) & HT & _). pose proof HR as (R1 & R2 & _). rewrite R2 in HT.
    destruct (c_hasher_update_sim p POK h rh (x :: input) _ rh' HR ltac:(rewrite <- R1, Hk; exact HK) ltac:(discriminate)
                (Tight_count _ _ _ _ _ _ HT)) as (h' & Hrun & HR'); [|exact Hu|exists h', rh'; auto].
    rewrite (proj1 (Tight_fields _ _ _ _ _ _ HT)), len_drop. rewrite len_app in Htot. unfold len, nlen in *. lia.
  Qed.

  Lemma c_finalize_seek_sim_Inv0 h rh m seek out_len : CRel h rh -> Inv0 rh m -> seek + out_len <= 2 ^ 64 - 1 ->
    c_hasher_finalize_seek p h seek out_len = Ok (stream spec_c64 (root m) seek (N.to_nat out_len)).
  Proof.
    intros HR HI Hmax. unfold c_hasher_finalize_seek. destruct (out_len =? 0) eqn:E0; [replace out_len with 0 by lia; reflexivity|].
    rewrite (c_final_output_sim p h rh _ HR (InvS_output p POK K F HK 0 (pow2_pos 54) rh m HI)). cbn [bind].
    apply (c_output_root_bytes_spec p POK); [|exact Hmax]. apply (root_output_wf K F m HK), (Inv_fields _ _ _ _ _ _ _ HI).
  Qed.

  Lemma CRel_init mem : length mem = 55%nat -> CRel (c_hasher_init_base mem K F) (new_internal K F).
  Proof. intros Hm. split; [reflexivity|]. split; [reflexivity|]. split; [reflexivity|]. split; [exact Hm|]. split; reflexivity. Qed.

  Theorem c_one_shot_spec mem m seek out_len :
    length mem = 55%nat -> len m < 2 ^ 64 -> seek + out_len <= 2 ^ 64 - 1 ->
    (h <- c_hasher_update p (c_hasher_init_base mem K F) m ;; c_hasher_finalize_seek p h seek out_len) =
    Ok (stream spec_c64 (root m) seek (N.to_nat out_len)).
  Proof.
    intros Hmem Hl Hmax.
    destruct (c_update_sim_Inv0 _ _ [] m (CRel_init mem Hmem) (new_internal_Inv K F) Hl) as (h & rh & -> & HR & HI).
    exact (c_finalize_seek_sim_Inv0 h rh m seek out_len HR HI Hmax).
  Qed.

  Theorem c_short_one_shot mem m seek out_len :
    len m <= 1024 -> length mem = 55%nat -> seek + out_len <= 2 ^ 64 - 1 ->
    (h <- c_hasher_update p (c_hasher_init_base mem K F) m ;; c_hasher_finalize_seek p h seek out_len) =
    Ok (stream spec_c64 (subtree_output spec_c8 tree_height K F 0 m) seek (N.to_nat out_len)).
  Proof. intros Hl Hmem. apply c_one_shot_spec; [exact Hmem|rewrite two64; lia]. Qed.
End Refine.
