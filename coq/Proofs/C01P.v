(* C01: the one-shot functions of the Rust crate model compute the specification
   (instantiating the compression-parametric development with the real
   compression function). *)
From V Require Import Proofs.ListP Proofs.ResP.
From V Require Import Base.Res Base.Word Base.MachInt gen.GenConsts gen.GenFormulas
  Spec.Compress Spec.Tree Spec.Blake3 Model.Portable Model.Platform Model.RsChunk Model.RsWide
  Proofs.WordP Proofs.PortableP Proofs.ChunkP Proofs.TreeP Proofs.FormulasP Proofs.WideP.
Open Scope N_scope.

Lemma spec_c8_cip cv b bl c f : length cv = 8%nat -> length b = 64%nat ->
  Portable.compress_in_place cv b bl c f = spec_c8 cv b bl c f.
Proof. intros. apply compress_in_place_is_spec; assumption. Qed.

Lemma spec_c8_len cv b bl c f : length cv = 8%nat -> length b = 64%nat ->
  length (spec_c8 cv b bl c f) = 8%nat.
Proof.
  intros H1 H2. unfold spec_c8. rewrite firstn_length, compress_length by assumption. reflexivity.
Qed.

Lemma spec_c8_ok : c8_ok spec_c8.
Proof. split; [exact spec_c8_cip|exact spec_c8_len]. Qed.

Lemma nth_range_32 (l : list N) : (32 <= length l)%nat ->
  map (fun i => nth (N.to_nat (i mod 64)) l 0) (nrange 0 32) = firstn 32 l.
Proof.
  intros H.
  do 32 (destruct l as [|? l]; [cbn [length] in H; lia|]).
  reflexivity.
Qed.

Lemma firstn32_bytes_of_words ws : length ws = 16%nat ->
  firstn 32 (bytes_of_words ws) = bytes_of_words (firstn 8 ws).
Proof.
  intros H. destruct (length16_inv ws H) as (a0&a1&a2&a3&a4&a5&a6&a7&a8&a9&a10&a11&a12&a13&a14&a15&->).
  reflexivity.
Qed.

Lemma stream_32 o : length (o_cv o) = 8%nat -> length (o_block o) = 64%nat ->
  stream spec_c64 o 0 32 =
  bytes_of_words (spec_c8 (o_cv o) (o_block o) (o_blen o) 0 (N.lor (o_flags o) ROOT)).
Proof.
  intros H1 H2. unfold stream, stream_byte.
  assert (Hdiv : forall i, In i (nrange 0 32) -> i / 64 = 0).
  { intros i Hi. cbn in Hi. repeat (destruct Hi as [<-|Hi]; [reflexivity|]). contradiction. }
  rewrite (map_ext_in _ (fun i => nth (N.to_nat (i mod 64)) (root_block spec_c64 o 0) 0)).
  2:{ intros i Hi. rewrite (Hdiv i Hi). reflexivity. }
  unfold root_block, spec_c64, spec_c8.
  rewrite nth_range_32.
  - apply firstn32_bytes_of_words. apply compress_length; assumption.
  - rewrite bytes_of_words_length, compress_length by assumption. lia.
Qed.

Lemma stream_length c64 o pos n : length (stream c64 o pos n) = n.
Proof.
  unfold stream. rewrite map_length. apply nrange_length.
Qed.

Lemma root_output_wf K F input : length K = 8%nat -> len input < 2 ^ 64 ->
  wf_output (subtree_output spec_c8 tree_height K F 0 input) /\
  o_ctr (subtree_output spec_c8 tree_height K F 0 input) = 0.
Proof.
  intros HK H. split; [|apply subtree_output_ctr]. apply (wf_subtree_output spec_c8 spec_c8_len K F HK).
  change (N.of_nat tree_height) with 64. rewrite two64 in H. change (1024 * 2 ^ 64) with 18889465931478580854784. lia.
Qed.

Section C01.
  Variable p : platform.
  Hypothesis POK : PlatformOK p.

  Lemma out_root_hash_spec o : wf_output o -> o_ctr o = 0 -> out_root_hash p o = Ok (stream spec_c64 o 0 32).
  Proof.
    intros [W1 W2] Hc. unfold out_root_hash. rewrite Hc. change (0 =? 0) with true. cbn [check bind].
    rewrite (ok_cip p POK), spec_c8_cip, stream_32 by assumption. reflexivity.
  Qed.

  Lemma root_hash_spec K F input :
    length K = 8%nat -> len input < 2 ^ 64 ->
    (o <- hash_all_at_once p input K F ;; out_root_hash p o) =
    Ok (stream spec_c64 (subtree_output spec_c8 tree_height K F 0 input) 0 32).
  Proof.
    intros HK H64.
    rewrite (hash_all_at_once_spec spec_c8 p POK spec_c8_cip spec_c8_len K F HK input H64). cbn [bind].
    destruct (root_output_wf K F input HK H64) as [W Hc]. apply out_root_hash_spec; assumption.
  Qed.

  Theorem rs_hash_spec input :
    len input < 2 ^ 64 -> rs_hash p input = Ok (b3_hash input).
  Proof.
    intros H. unfold rs_hash. rewrite rs_IV_is_spec.
    apply (root_hash_spec IV 0 input); [reflexivity|exact H].
  Qed.

  Theorem rs_keyed_hash_spec key input :
    length key = 32%nat -> len input < 2 ^ 64 -> rs_keyed_hash p key input = Ok (b3_keyed_hash key input).
  Proof.
    intros Hk H. unfold rs_keyed_hash.
    apply (root_hash_spec (words_of_bytes key) KEYED_HASH input); [|exact H].
    apply words_of_bytes_length. rewrite Hk. reflexivity.
  Qed.

  Theorem rs_derive_key_spec context material :
    len context < 2 ^ 64 -> len material < 2 ^ 64 ->
    rs_derive_key p context material = Ok (b3_derive_key context material).
  Proof.
    intros Hc Hm. unfold rs_derive_key, rs_hash_derive_key_context. rewrite rs_IV_is_spec.
    change rs_flag_DERIVE_KEY_CONTEXT with DERIVE_KEY_CONTEXT. change rs_flag_DERIVE_KEY_MATERIAL with DERIVE_KEY_MATERIAL.
    rewrite (root_hash_spec IV DERIVE_KEY_CONTEXT context) by (try reflexivity; exact Hc). cbn [bind].
    set (ck := stream spec_c64 _ 0 32).
    apply (root_hash_spec (words_of_bytes ck) DERIVE_KEY_MATERIAL material); [|exact Hm].
    apply words_of_bytes_length. unfold ck. rewrite stream_length. reflexivity.
  Qed.
End C01.
