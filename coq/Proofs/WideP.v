(* C01 core: the all-at-once path of the Rust crate (compress_subtree_wide and
   friends, for every SIMD degree) computes the specification's tree. *)
From V Require Import Proofs.ListP Proofs.ResP.
From V Require Import Base.Res Base.Word Base.MachInt gen.GenConsts gen.GenFormulas
  Spec.Compress Spec.Tree Model.Portable Model.Platform Model.RsChunk Model.RsWide
  Proofs.ChunkP Proofs.TreeP Proofs.FormulasP.
Open Scope N_scope.

Fixpoint leaves_n (k : nat) (ctr : N) (bytes : list N) : list tree :=
  match k with
  | O => []
  | S k' => Leaf ctr (take 1024 bytes) :: leaves_n k' (ctr + 1) (drop 1024 bytes)
  end.

Definition leaves (ctr : N) (bytes : list N) : list tree := leaves_n (N.to_nat (chunks (len bytes))) ctr bytes.

Lemma leaves_n_length k : forall ctr bytes, length (leaves_n k ctr bytes) = k.
Proof. induction k as [|k IH]; intros; cbn [leaves_n length]; [reflexivity|]. rewrite IH. reflexivity. Qed.

Lemma leaves_length ctr bytes : N.of_nat (length (leaves ctr bytes)) = chunks (len bytes).
Proof. unfold leaves. rewrite leaves_n_length. apply N2Nat.id. Qed.

Lemma leaves_n_app k1 k2 : forall ctr bytes,
  leaves_n (k1 + k2) ctr bytes =
  leaves_n k1 ctr bytes ++ leaves_n k2 (ctr + N.of_nat k1) (drop (1024 * N.of_nat k1) bytes).
Proof.
  induction k1 as [|k1 IH]; intros ctr bytes.
  - cbn [Nat.add leaves_n app]. rewrite N.add_0_r, drop_0. reflexivity.
  - cbn [Nat.add leaves_n app]. rewrite IH, drop_drop.
    replace (ctr + 1 + N.of_nat k1) with (ctr + N.of_nat (S k1)) by lia.
    replace (1024 + 1024 * N.of_nat k1) with (1024 * N.of_nat (S k1)) by lia. reflexivity.
Qed.

Lemma leaves_n_ext k : forall ctr a b, 1024 * N.of_nat k <= len a -> leaves_n k ctr (a ++ b) = leaves_n k ctr a.
Proof.
  induction k as [|k IH]; intros ctr a b H; [reflexivity|].
  cbn [leaves_n]. rewrite take_app_le, drop_app_le, IH by (rewrite ?len_drop; lia). reflexivity.
Qed.

Lemma chunks_add m n : chunks (1024 * m + n) = m + chunks n.
Proof. unfold chunks. replace (1024 * m + n + 1023) with (n + 1023 + m * 1024) by lia. rewrite N.div_add by lia. lia. Qed.

Lemma leaves_app ctr a b m : len a = 1024 * m ->
  leaves ctr (a ++ b) = leaves ctr a ++ leaves (ctr + m) b.
Proof.
  intros Ha. unfold leaves. rewrite len_app, Ha, chunks_add, N2Nat.inj_add, leaves_n_app, !N2Nat.id.
  rewrite leaves_n_ext by lia. rewrite drop_app_ge by lia. rewrite Ha, N.sub_diag, drop_0.
  replace (chunks (1024 * m)) with m by (unfold chunks; lia). reflexivity.
Qed.

Lemma leaves_one ctr bytes : 0 < len bytes <= 1024 -> leaves ctr bytes = [Leaf ctr bytes].
Proof.
  intros H. unfold leaves. replace (chunks (len bytes)) with 1 by (unfold chunks; lia).
  change (N.to_nat 1) with 1%nat. cbn [leaves_n]. rewrite take_all by lia. reflexivity.
Qed.

Lemma leaves_cond : forall h ctr bytes,
  0 < len bytes -> len bytes <= 1024 * 2 ^ N.of_nat h ->
  Cond (leaves ctr bytes) (spec_tree h ctr bytes).
Proof.
  induction h as [|h IH]; intros ctr bytes Hpos Hle.
  - change (2 ^ N.of_nat 0) with 1 in Hle. cbn [spec_tree]. rewrite leaves_one by lia. apply Cond_single.
  - destruct (N.le_gt_cases (len bytes) 1024) as [E|E].
    + rewrite spec_tree_leaf, leaves_one by lia. apply Cond_single.
    + destruct (spec_tree_split h ctr bytes E Hle) as (a & _ & Ha & Hn & ->).
      destruct (chunks_split a _ Hn) as [_ Hr].
      rewrite <- (take_drop (1024 * 2 ^ a) bytes) at 1.
      rewrite (leaves_app ctr _ _ (2 ^ a)) by (rewrite len_take; lia).
      apply (Cond_join_N a); rewrite ?leaves_length, ?len_take, ?len_drop.
      * replace (N.min (1024 * 2 ^ a) (len bytes)) with (1024 * 2 ^ a) by lia. apply chunks_pow2.
      * exact Hr.
      * apply IH; rewrite len_take; lia.
      * apply IH; rewrite len_drop; lia.
Qed.

Definition wf_output (o : output) : Prop := length (o_cv o) = 8%nat /\ length (o_block o) = 64%nat.

Fixpoint wf_tree (t : tree) : Prop :=
  match t with
  | Leaf _ b => len b <= 1024
  | Node l r => wf_tree l /\ wf_tree r
  end.

Lemma pairT_wf : forall ts, Forall wf_tree ts -> Forall wf_tree (pairT ts).
Proof.
  fix IH 1. intros [|a [|b tl]] H; [exact H|exact H|].
  inversion H as [|? ? Ha H']; subst. inversion H' as [|? ? Hb H'']; subst.
  cbn [pairT]. constructor; [split; assumption|apply IH; exact H''].
Qed.

Lemma leaves_wf ctr bytes : Forall wf_tree (leaves ctr bytes).
Proof.
  unfold leaves. generalize (N.to_nat (chunks (len bytes))) as k. intros k. revert ctr bytes.
  induction k as [|k IH]; intros ctr bytes; cbn [leaves_n]; constructor; [|apply IH].
  cbn [wf_tree]. rewrite len_take. lia.
Qed.

Lemma spec_tree_wf : forall h ctr bs, len bs <= 1024 * 2 ^ N.of_nat h -> wf_tree (spec_tree h ctr bs).
Proof.
  induction h as [|h IH]; intros ctr bs H.
  - change (2 ^ N.of_nat 0) with 1 in H. exact H.
  - destruct (N.le_gt_cases (len bs) 1024) as [E|E]; [rewrite spec_tree_leaf by exact E; exact E|].
    destruct (spec_tree_split h ctr bs E H) as (a & _ & Ha & Hn & ->).
    split; apply IH; rewrite ?len_take, ?len_drop; lia.
Qed.

Lemma chunk_go_ctr c8 F T : forall fuel cv first bs, o_ctr (chunk_go c8 fuel F T cv first bs) = T.
Proof.
  induction fuel as [|fuel IH]; intros; cbn [chunk_go]; [reflexivity|].
  destruct (len bs <=? 64); [reflexivity|apply IH].
Qed.

Lemma subtree_output_ctr c8 h K F input : o_ctr (subtree_output c8 h K F 0 input) = 0.
Proof.
  destruct h as [|h]; cbn [subtree_output]; [apply chunk_go_ctr|].
  destruct (len input <=? 1024); [apply chunk_go_ctr|reflexivity].
Qed.

Section WellFormed.
  Variable c8 : list N -> list N -> N -> N -> N -> list N.
  Hypothesis Hc8len : forall cv b bl c f, length cv = 8%nat -> length b = 64%nat ->
    length (c8 cv b bl c f) = 8%nat.
  Variables (K : list N) (F : N).
  Hypothesis HK : length K = 8%nat.

  Lemma chaining_value_length o : wf_output o -> length (chaining_value c8 o) = 32%nat.
  Proof.
    intros [H1 H2]. unfold chaining_value. rewrite bytes_of_words_length, Hc8len by assumption. reflexivity.
  Qed.

  Lemma wf_chunk_output T bs : len bs <= 1024 -> wf_output (chunk_output c8 K F T bs).
  Proof.
    intros H. unfold chunk_output.
    set (q := (len bs - 1) / 64).
    (* 16 = 1024 / 64, the fuel of chunk_output *)
    rewrite (chunk_go_cvfold c8 F T (N.to_nat q) 16); rewrite ?N2Nat.id; try (unfold q; lia).
    split; cbn [final o_cv o_block].
    - apply cvfold_len; [exact Hc8len|exact HK|]. unfold q. lia.
    - pose proof (pad64_length (drop (64 * q) bs)) as Hp. rewrite len_drop in Hp. unfold q, len in *. lia.
  Qed.

  Lemma wf_parent_output l r : length l = 32%nat -> length r = 32%nat -> wf_output (parent_output K F l r).
  Proof. intros Hl Hr. split; [exact HK|]. cbn [parent_output o_block]. rewrite app_length, Hl, Hr. reflexivity. Qed.

  Lemma wf_tree_out t : wf_tree t -> wf_output (tree_out c8 K F t).
  Proof.
    induction t as [c b|l IHl r IHr]; intros H; [exact (wf_chunk_output c b H)|].
    destruct H as [Hl Hr]. cbn [tree_out].
    apply wf_parent_output; rewrite tree_cv_out; apply chaining_value_length; auto.
  Qed.

  Lemma tree_cv_length t : wf_tree t -> length (tree_cv c8 K F t) = 32%nat.
  Proof. intros H. rewrite tree_cv_out. apply chaining_value_length, wf_tree_out, H. Qed.

  Lemma wf_subtree_output h ctr bs : len bs <= 1024 * 2 ^ N.of_nat h -> wf_output (subtree_output c8 h K F ctr bs).
  Proof. intros H. rewrite subtree_output_tree. apply wf_tree_out, spec_tree_wf, H. Qed.
End WellFormed.

Lemma pow2_le16 d : is_pow2 d = true -> d <= 16 -> exists j, d = 2 ^ j /\ j <= 4 /\ MachInt.popcount d = 1.
Proof.
  intros H1 H2.
  assert (Hs : forallb (fun d => negb (is_pow2 d) ||
                existsb (fun j => (d =? 2 ^ j) && (MachInt.popcount d =? 1)) [0;1;2;3;4])
                (map N.of_nat (seq 0 17)) = true) by (vm_compute; reflexivity).
  rewrite forallb_forall in Hs. specialize (Hs d).
  rewrite H1 in Hs. cbn [negb orb] in Hs.
  assert (Hin : In d (map N.of_nat (seq 0 17))).
  { apply in_map_iff. exists (N.to_nat d). split; [lia|]. apply in_seq. lia. }
  specialize (Hs Hin). apply existsb_exists in Hs. destruct Hs as (j & Hj & Hd).
  apply andb_true_iff in Hd. destruct Hd as [Hd Hp]. exists j. repeat split; try lia.
  cbn in Hj. lia.
Qed.

Lemma pow2_even_N j : 1 <= j -> exists q, 2 ^ j = 2 * q /\ 1 <= q.
Proof.
  intros H. exists (2 ^ (j - 1)). split; [apply pow2_half, H|]. pose proof (pow2_pos (j - 1)). lia.
Qed.

(* the side conditions of the two recursive calls of compress_subtree_wide on n bytes split at
   1024 * 2^a, the left call with capacity w *)
Lemma wide_halves_ok n a h ctr D M w :
  1024 * 2 ^ a < n <= 2 * (1024 * 2 ^ a) -> 2 ^ a <= 2 ^ N.of_nat h -> n < 2 ^ 64 -> ctr + chunks n < 2 ^ 64 ->
  D <= M -> 1 <= w <= D -> N.min D (2 ^ a) <= w ->
  (0 < 1024 * 2 ^ a /\ 1024 * 2 ^ a <= 1024 * 2 ^ N.of_nat h /\ 1024 * 2 ^ a < 2 ^ 64 /\
   ctr + chunks (1024 * 2 ^ a) < 2 ^ 64 /\ N.min D (chunks (1024 * 2 ^ a)) <= w) /\
  (0 < n - 1024 * 2 ^ a /\ n - 1024 * 2 ^ a <= 1024 * 2 ^ N.of_nat h /\ n - 1024 * 2 ^ a < 2 ^ 64 /\
   ctr + 2 ^ a + chunks (n - 1024 * 2 ^ a) < 2 ^ 64 /\ N.min D (chunks (n - 1024 * 2 ^ a)) <= 2 * M - w).
Proof. intros Hn Ha H64 Hc HDM Hw Hmin. destruct (chunks_split a n Hn) as [Hc1 Hc2]. rewrite chunks_pow2. lia. Qed.

(* c8 is the chaining-value half of the portable compression function *)
Definition c8_ok (c8 : list N -> list N -> N -> N -> N -> list N) : Prop :=
  (forall cv b bl c f, length cv = 8%nat -> length b = 64%nat ->
     Portable.compress_in_place cv b bl c f = c8 cv b bl c f) /\
  (forall cv b bl c f, length cv = 8%nat -> length b = 64%nat -> length (c8 cv b bl c f) = 8%nat).

Section WideProof.
  Variable c8 : list N -> list N -> N -> N -> N -> list N.
  Variable p : platform.
  Hypothesis POK : PlatformOK p.
  Hypothesis Hpcip : forall cv b bl c f, length cv = 8%nat -> length b = 64%nat ->
    Portable.compress_in_place cv b bl c f = c8 cv b bl c f.
  Hypothesis Hc8len : forall cv b bl c f, length cv = 8%nat -> length b = 64%nat ->
    length (c8 cv b bl c f) = 8%nat.
  Variables (K : list N) (F : N).
  Hypothesis HK : length K = 8%nat.

  Lemma cip_is_c8 : forall cv b bl c f, length cv = 8%nat -> length b = 64%nat ->
    p_compress_in_place p cv b bl c f = c8 cv b bl c f.
  Proof. intros. rewrite (ok_cip p POK). apply Hpcip; assumption. Qed.

  Notation tcv := (tree_cv c8 K F).

  Lemma wf_chaining_value o : wf_output o -> out_chaining_value p o = chaining_value c8 o.
  Proof. intros [H1 H2]. unfold out_chaining_value, chaining_value. rewrite cip_is_c8 by assumption. reflexivity. Qed.

  Lemma out_cv_tree t : wf_tree t -> out_chaining_value p (tree_out c8 K F t) = tcv t.
  Proof.
    intros W. rewrite wf_chaining_value by (apply (wf_tree_out c8 Hc8len K F HK), W). symmetry. apply tree_cv_out.
  Qed.

  Lemma chunk_state_leaf T bs : len bs <= 1024 ->
    exists cs, cs_update p (cs_new K T F) bs = Ok cs /\ cs_output cs = chunk_output c8 K F T bs.
  Proof.
    intros H. destruct (cs_update_spec c8 p cip_is_c8 Hc8len K F T HK _ [] bs (Tight_cs_new c8 K F T) H) as (cs & Hu & HT).
    exists cs. split; [exact Hu|]. exact (cs_output_chunk c8 K F T cs bs HT).
  Qed.

  Lemma hash1_go_chunk : forall n fuel cv first input T bf,
    bf = N.lor F (start_flag first) ->
    (n < fuel)%nat -> length cv = 8%nat -> len input = 64 * (N.of_nat n + 1) ->
    hash1_go fuel cv input T F bf rs_flag_CHUNK_END =
    c8 (fst (cvfold c8 F T n cv first input)) (drop (64 * N.of_nat n) input) 64 T
       (N.lor (N.lor F (start_flag (snd (cvfold c8 F T n cv first input)))) CHUNK_END).
  Proof.
    induction n as [|n IH]; intros fuel cv first input T bf Hbf Hf Hcv Hl; subst bf.
    - destruct fuel as [|fuel]; [lia|]. cbn [hash1_go cvfold fst snd].
      change rs_BLOCK_LEN with 64. fold (len input).
      replace (len input <? 64) with false by lia. replace (len input =? 64) with true by lia.
      rewrite firstn_N, skipn_N. rewrite take_all by lia. rewrite drop_all by lia.
      rewrite Hpcip; [|exact Hcv|unfold len in Hl; lia].
      change (64 * N.of_nat 0) with 0. rewrite drop_0.
      destruct fuel; reflexivity.
    - destruct fuel as [|fuel]; [lia|]. cbn [hash1_go cvfold].
      change rs_BLOCK_LEN with 64. fold (len input).
      replace (len input <? 64) with false by lia. replace (len input =? 64) with false by lia.
      rewrite firstn_N, skipn_N.
      assert (Ht : length (take 64 input) = 64%nat) by (pose proof (len_take 64 input); unfold len in *; lia).
      rewrite Hpcip by assumption.
      rewrite (IH fuel _ false).
      2:{ symmetry; apply N.lor_0_r. }
      2:{ lia. }
      2:{ apply Hc8len; assumption. }
      2:{ rewrite len_drop; lia. }
      rewrite drop_drop. replace (64 + 64 * N.of_nat n) with (64 * N.of_nat (S n)) by lia. reflexivity.
  Qed.

  Lemma hash1_chunk T chunk : len chunk = 1024 ->
    hash1 chunk K T F rs_flag_CHUNK_START rs_flag_CHUNK_END = Ok (tcv (Leaf T chunk)).
  Proof.
    intros Hl. unfold hash1. change rs_BLOCK_LEN with 64. fold (len chunk).
    replace (len chunk mod 64 =? 0) with true by (rewrite Hl; reflexivity). cbn [check bind].
    f_equal. cbn [tree_cv]. unfold chaining_value, chunk_output. f_equal.
    rewrite (chunk_go_cvfold c8 F T 15 16) by lia.
    change rs_flag_CHUNK_START with (start_flag true).
    rewrite (hash1_go_chunk 15 _ _ true) by (try reflexivity; try assumption; try lia; unfold len in Hl; lia).
    unfold final. cbn [o_cv o_block o_blen o_ctr o_flags].
    rewrite pad64_full by (rewrite len_drop; lia). rewrite len_drop.
    repeat f_equal. lia.
  Qed.

  (* The chunk length stays N.to_nat 1024: as a nat literal it is costly for lia. *)
  Lemma hash_many_chunks : forall q fuel input ctr, (q < fuel)%nat ->
    1024 * N.of_nat q <= len input < 1024 * N.of_nat q + 1024 -> ctr + N.of_nat q < 2 ^ 64 ->
    exists cs, chunks_exact fuel (N.to_nat 1024) input = (cs, drop (1024 * N.of_nat q) input) /\ length cs = q /\
      hash_many_go cs K ctr true F rs_flag_CHUNK_START rs_flag_CHUNK_END = Ok (map tcv (leaves_n q ctr input)).
  Proof.
    induction q as [|q IH]; intros fuel input ctr Hf Hl Hc; (destruct fuel as [|fuel]; [lia|]); cbn [chunks_exact].
    - replace (Nat.ltb (length input) (N.to_nat 1024)) with true by (symmetry; apply Nat.ltb_lt; unfold len in Hl; lia).
      exists []. rewrite drop_0. repeat split.
    - replace (Nat.ltb (length input) (N.to_nat 1024)) with false by (symmetry; apply Nat.ltb_ge; unfold len in Hl; lia).
      rewrite firstn_N, skipn_N.
      destruct (IH fuel (drop 1024 input) (ctr + 1)) as (cs & -> & Hlen & Hrun); [rewrite ?len_drop; lia..|].
      exists (take 1024 input :: cs). rewrite drop_drop.
      split; [do 2 f_equal; lia|]. split; [cbn [length]; lia|].
      cbn [hash_many_go leaves_n map]. rewrite hash1_chunk by (rewrite len_take; lia). cbn [bind].
      rewrite add_small by lia. cbn [bind]. rewrite Hrun. reflexivity.
  Qed.

  Lemma hash1_parent l r : length l = 32%nat -> length r = 32%nat ->
    hash1 (l ++ r) K 0 (N.lor F rs_flag_PARENT) 0 0 = Ok (chaining_value c8 (parent_output K F l r)).
  Proof.
    intros Hl Hr. unfold hash1. change rs_BLOCK_LEN with 64. rewrite app_length, Hl, Hr.
    change (N.of_nat (32 + 32) mod 64 =? 0) with true. cbn [check bind].
    change (S (Nat.div (32 + 32) 64)) with 2%nat. cbn [hash1_go]. rewrite app_length, Hl, Hr.
    change rs_BLOCK_LEN with 64. change (N.of_nat (32 + 32) <? 64) with false.
    change (N.of_nat (32 + 32) =? 64) with true. cbn iota.
    rewrite firstn_all2 by (rewrite app_length; lia).
    rewrite skipn_all2 by (rewrite app_length; lia). cbn [length].
    change (N.of_nat 0 <? 64) with true. cbn iota.
    rewrite Hpcip by (try exact HK; rewrite app_length; lia).
    unfold chaining_value, parent_output. cbn [o_cv o_block o_blen o_ctr o_flags].
    rewrite !N.lor_0_r. reflexivity.
  Qed.

  Lemma parents_layer : forall ts, Forall wf_tree ts ->
    let '(ps, odd) := pair_blocks (map tcv ts) in
    exists outs, hash_many_go ps K 0 false (N.lor F rs_flag_PARENT) 0 0 = Ok outs /\
                 outs ++ (match odd with Some cv => [cv] | None => [] end) = map tcv (pairT ts) /\
                 length ps = Nat.div (length ts) 2 /\
                 length ts = (2 * length ps + match odd with Some _ => 1 | None => 0 end)%nat.
  Proof.
    fix IH 1. intros [|a [|b tl]] H.
    - cbn. exists []. auto.
    - cbn. exists []. auto.
    - inversion H as [|? ? Ha H']; subst. inversion H' as [|? ? Hb H'']; subst.
      cbn [map pair_blocks]. specialize (IH tl H'').
      destruct (pair_blocks (map tcv tl)) as [ps odd].
      destruct IH as (outs & Hrun & Hout & Hlen & Hpar).
      cbn [hash_many_go]. rewrite hash1_parent by (apply (tree_cv_length c8 Hc8len K F HK); assumption). cbn [bind].
      rewrite Hrun. cbn [bind]. eexists. split; [reflexivity|]. split; [|split].
      + cbn [pairT map app tree_cv]. rewrite <- Hout. reflexivity.
      + cbn [length]. rewrite Hlen.
        replace (S (S (length tl))) with (length tl + 1 * 2)%nat by lia.
        rewrite Nat.div_add by lia. lia.
      + cbn [length]. lia.
  Qed.

  (* `cmp::max(platform.simd_degree(), 2)` of compress_subtree_wide (src/lib.rs): the slots it gives the left half,
     and so the most CVs a call returns, except at the two-chunk leaf of a degree-1 platform (wide_degree) *)
  Definition dD : N := N.max (p_degree p) 2.

  Lemma degree_pow2 :
    exists j, p_degree p = 2 ^ j /\ MachInt.popcount (p_degree p) = 1 /\ 1 <= p_degree p /\
              exists j2, dD = 2 ^ j2 /\ 1 <= j2 /\ dD <= max_degree_or_2 p /\
              exists j3, max_degree_or_2 p = 2 ^ j3 /\ 1 <= j3 /\ p_degree p <= p_max_degree p.
  Proof using POK.
    clear Hpcip Hc8len HK c8 K F.
    destruct (pow2_le16 (p_degree p) (ok_degree_pow2 p POK)) as (j & Hj & Hj4 & Hpc).
    { pose proof (ok_degree_le p POK). pose proof (ok_max_le p POK). lia. }
    destruct (pow2_le16 (p_max_degree p) (ok_max_pow2 p POK) (ok_max_le p POK)) as (jm & Hjm & _ & _).
    pose proof (ok_degree_le p POK) as Hle.
    exists j. split; [exact Hj|]. split; [exact Hpc|]. split; [rewrite Hj; pose proof (pow2_pos j); lia|].
    unfold dD, max_degree_or_2.
    destruct (N.eq_dec j 0) as [->|Hj0].
    - exists 1. rewrite Hj. change (2 ^ 0) with 1. change (N.max 1 2) with 2. change (2 ^ 1) with 2.
      split; [reflexivity|]. split; [lia|]. split; [lia|].
      destruct (N.eq_dec jm 0) as [->|Hm0].
      + exists 1. rewrite Hjm. change (2 ^ 0) with 1. change (N.max 1 2) with 2. split; [reflexivity|]. lia.
      + exists jm. rewrite Hjm.
        assert (2 ^ 1 <= 2 ^ jm) by (apply N.pow_le_mono_r; lia). change (2 ^ 1) with 2 in *.
        split; [lia|]. lia.
    - exists j. assert (H2 : 2 ^ 1 <= 2 ^ j) by (apply N.pow_le_mono_r; lia). change (2 ^ 1) with 2 in H2.
      rewrite Hj. split; [lia|]. split; [lia|]. split; [rewrite <- Hj; lia|].
      exists jm. rewrite Hjm. rewrite Hj, Hjm in Hle. split; [lia|]. split; [|lia].
      destruct (N.eq_dec jm 0) as [->|]; [change (2 ^ 0) with 1 in Hle; lia|lia].
  Qed.

  Lemma degree_is_pow2 : exists j, p_degree p = 2 ^ j.
  Proof using POK. destruct degree_pow2 as (j & Hj & _). eauto. Qed.

  Lemma degree_popcount : MachInt.popcount (p_degree p) = 1.
  Proof using POK. destruct degree_pow2 as (_ & _ & H & _). exact H. Qed.

  Lemma degree_pos : 1 <= p_degree p.
  Proof using POK. destruct degree_pow2 as (_ & _ & _ & H & _). exact H. Qed.

  Lemma dD_is_pow2 : exists j, dD = 2 ^ j /\ 1 <= j.
  Proof using POK. destruct degree_pow2 as (_ & _ & _ & _ & j & H & Hj & _). eauto. Qed.

  Lemma dD_le_max : dD <= max_degree_or_2 p.
  Proof using POK. destruct degree_pow2 as (_ & _ & _ & _ & _ & _ & _ & H & _). exact H. Qed.

  Lemma max2_is_pow2 : exists j, max_degree_or_2 p = 2 ^ j /\ 1 <= j.
  Proof using POK. destruct degree_pow2 as (_ & _ & _ & _ & _ & _ & _ & _ & j & H & Hj & _). eauto. Qed.

  Lemma ccp_spec input ctr cap :
    0 < len input -> len input <= p_max_degree p * 1024 -> ctr + chunks (len input) < 2 ^ 64 ->
    chunks (len input) <= cap ->
    compress_chunks_parallel p input K ctr F cap = Ok (map tcv (leaves ctr input)).
  Proof.
    intros Hpos Hmax Hctr Hcap. unfold compress_chunks_parallel, chunks_exact_of.
    unfold nlen. fold (len input). change rs_CHUNK_LEN with 1024.
    replace (len input =? 0) with false by lia. cbn [negb check bind].
    rewrite check_leb by lia.
    set (q := N.to_nat (len input / 1024)).
    assert (Hq : 1024 * N.of_nat q <= len input < 1024 * N.of_nat q + 1024) by (unfold q; lia).
    assert (Hc : chunks (len input) = N.of_nat q + (if len input - 1024 * N.of_nat q =? 0 then 0 else 1)).
    { unfold chunks. destruct (len input - 1024 * N.of_nat q =? 0) eqn:E; lia. }
    rewrite Hc in Hctr, Hcap. unfold leaves. rewrite Hc. clearbody q.
    destruct (hash_many_chunks q (S (Nat.div (length input) (N.to_nat 1024))) input ctr) as (cs & -> & Hl & Hrun);
      [pose proof (div_fuel input 1024); lia|exact Hq|lia|].
    unfold nlen_l. rewrite Hl. rewrite check_leb by lia.
    rewrite (ok_hm p POK) by lia.
    unfold hash_many. rewrite Hl, check_leb, Hrun by lia. cbn [bind].
    fold (len (drop (1024 * N.of_nat q) input)). rewrite len_drop.
    destruct (len input - 1024 * N.of_nat q =? 0) eqn:E; cbn [negb].
    - rewrite N.add_0_r, Nat2N.id. reflexivity.
    - rewrite add_small by lia. cbn [bind].
      destruct (chunk_state_leaf (ctr + N.of_nat q) (drop (1024 * N.of_nat q) input)) as (cs' & -> & Ho); [rewrite len_drop; lia|].
      cbn [bind]. rewrite Ho, check_leb by lia.
      rewrite N2Nat.inj_add, Nat2N.id, leaves_n_app, map_app. change (N.to_nat 1) with 1%nat. cbn [leaves_n map].
      rewrite take_all by (rewrite len_drop; lia). do 3 f_equal.
      refine (out_cv_tree (Leaf (ctr + N.of_nat q) _) _). cbn [wf_tree]. rewrite len_drop. lia.
  Qed.

  Lemma cpp_spec ts cap :
    Forall wf_tree ts -> 2 <= N.of_nat (length ts) <= 2 * max_degree_or_2 p ->
    (N.of_nat (length ts) + 1) / 2 <= cap ->
    compress_parents_parallel p (map tcv ts) K F cap = Ok (map tcv (pairT ts)).
  Proof.
    intros Hwf Hn Hcap. unfold compress_parents_parallel. rewrite map_length.
    rewrite !check_leb by lia.
    pose proof (parents_layer ts Hwf) as HL.
    destruct (pair_blocks (map tcv ts)) as [ps odd].
    destruct HL as (outs & Hrun & Hout & Hlen & Hpar).
    assert (Hps : N.of_nat (length ps) = N.of_nat (length ts) / 2).
    { rewrite Hlen. rewrite Nat2N.inj_div. reflexivity. }
    rewrite check_leb by lia.
    rewrite (ok_hm p POK) by (rewrite two64; pose proof (ok_max_le p POK); unfold max_degree_or_2 in *; lia).
    unfold hash_many. rewrite check_leb by lia.
    rewrite Hrun. cbn [bind].
    destruct odd as [cv|].
    - rewrite check_leb by lia.
      rewrite <- Hout. reflexivity.
    - rewrite <- Hout, app_nil_r. reflexivity.
  Qed.

  (* compress_subtree_wide on n bytes whose tree is t returns the CVs of trees ts with wide_post n t ts
     (wide_spec, the theorem DESIGN.md names for this function, is stated with these conjuncts written out, to be
     read without this definition).  The last two are what the callers need beyond Cond:
     compress_subtree_to_parent_node asserts that there are two CVs to pair, and wide_merge that the left half, a
     full one, filled its wide_degree slots. *)
  Definition wide_post (n : N) (t : tree) (ts : list tree) : Prop :=
    Forall wf_tree ts /\ Cond ts t /\
    1 <= N.of_nat (length ts) <= N.min dD (chunks n) /\
    (2 <= chunks n -> 2 <= N.of_nat (length ts)) /\
    (forall k, n = 1024 * 2 ^ k -> dD <= 2 ^ k -> N.of_nat (length ts) = dD).

  Lemma wide_batch fuel h input ctr cap :
    0 < len input -> len input <= p_degree p * 1024 -> len input <= 1024 * 2 ^ N.of_nat h ->
    ctr + chunks (len input) < 2 ^ 64 -> N.min dD (chunks (len input)) <= cap ->
    compress_subtree_wide fuel p input K ctr F cap = Ok (map tcv (leaves ctr input)) /\
    wide_post (len input) (spec_tree h ctr input) (leaves ctr input).
  Proof.
    intros Hpos Hsmall Hle Hctr Hcap.
    pose proof (ok_degree_le p POK) as Hdle.
    assert (Hn : chunks (len input) <= p_degree p /\ p_degree p <= dD) by (unfold chunks, dD; lia).
    split.
    - replace (compress_subtree_wide fuel p input K ctr F cap) with (compress_chunks_parallel p input K ctr F cap).
      + apply ccp_spec; lia.
      + destruct fuel; cbn [compress_subtree_wide]; unfold nlen; fold (len input); change rs_CHUNK_LEN with 1024;
          replace (len input <=? p_degree p * 1024) with true by lia; reflexivity.
    - split; [apply leaves_wf|]. split; [apply leaves_cond; assumption|].
      rewrite leaves_length. split; [unfold chunks in *; lia|]. split; [lia|].
      intros k Hk HDk. rewrite Hk, chunks_pow2 in *. lia.
  Qed.

  (* what compress_subtree_wide does with the CVs of the two halves *)
  Definition wide_merge (degree cap : N) (lcvs rcvs : list (list N)) : res (list (list N)) :=
    assert! (N.of_nat (length lcvs) =? degree) code 1207 ;;
    assert! ((1 <=? N.of_nat (length rcvs)) && (N.of_nat (length rcvs) <=? N.of_nat (length lcvs))) code 1208 ;;
    if N.of_nat (length lcvs) =? 1 then
      assert! (2 <=? cap) code 36 ;;
      Ok (firstn 2 (lcvs ++ rcvs))
    else
      compress_parents_parallel p (lcvs ++ rcvs) K F cap.

  (* the capacity it gives the left half, of 2^a chunks *)
  Definition wide_degree (a : N) : N := if 2 ^ a =? 1 then 1 else dD.

  Lemma csw_unfold fuel input ctr cap a :
    left_len (len input) = 1024 * 2 ^ a -> 1024 * 2 ^ a < len input -> len input < 2 ^ 64 ->
    ctr + 2 ^ a < 2 ^ 64 -> p_degree p * 1024 < len input -> p_degree p <= 2 ^ a ->
    compress_subtree_wide (S fuel) p input K ctr F cap =
    lcvs <- compress_subtree_wide fuel p (take (1024 * 2 ^ a) input) K ctr F (wide_degree a) ;;
    rcvs <- compress_subtree_wide fuel p (drop (1024 * 2 ^ a) input) K (ctr + 2 ^ a) F
              (2 * max_degree_or_2 p - wide_degree a) ;;
    wide_merge (wide_degree a) cap lcvs rcvs.
  Proof.
    intros Hl Hlo H64 Hctr Hbig Hda.
    pose proof degree_popcount as Hpc. pose proof degree_pos as Hd1. pose proof dD_le_max as HDmax.
    cbn [compress_subtree_wide]. unfold nlen. fold (len input). change rs_CHUNK_LEN with 1024.
    replace (len input <=? p_degree p * 1024) with false by lia.
    rewrite Hpc. change (1 =? 1) with true. cbn [check bind].
    rewrite check_ltb by lia. rewrite rs_left_subtree_len_spec by lia. cbn [bind]. rewrite Hl.
    rewrite check_leb by lia.
    rewrite rs_right_chunk_counter_spec by (rewrite ?mul_div_l by lia; lia). rewrite mul_div_l by lia. cbn [bind].
    replace (if 1024 * 2 ^ a =? 1024 then assert! (p_degree p =? 1) code 1206 ;; Ok 1 else Ok (N.max (p_degree p) 2))
      with (Ok (wide_degree a) : res N).
    2:{ unfold wide_degree. replace (1024 * 2 ^ a =? 1024) with (2 ^ a =? 1) by lia.
        destruct (2 ^ a =? 1) eqn:E; [|reflexivity]. rewrite check_eqb by lia. reflexivity. }
    cbn [bind]. rewrite check_leb by (unfold wide_degree, max_degree_or_2 in *; destruct (2 ^ a =? 1); lia).
    rewrite !firstn_N, !skipn_N. reflexivity.
  Qed.

  Lemma wide_merge_spec a n cap tsl tsr tl tr :
    1024 * 2 ^ a < n <= 2 * (1024 * 2 ^ a) -> p_degree p <= 2 ^ a -> N.min dD (chunks n) <= cap ->
    wide_post (1024 * 2 ^ a) tl tsl -> wide_post (n - 1024 * 2 ^ a) tr tsr ->
    exists ts, wide_merge (wide_degree a) cap (map tcv tsl) (map tcv tsr) = Ok (map tcv ts) /\
               wide_post n (Node tl tr) ts.
  Proof.
    intros Hn Hda Hcap (Wl & Cl & Nl & _ & El) (Wr & Cr & Nr & _ & Er).
    rewrite chunks_pow2 in Nl. specialize (El a eq_refl). specialize (Er a). unfold wide_post.
    pose proof degree_pos as Hd1. destruct dD_is_pow2 as (j2 & HD & Hj2). pose proof dD_le_max as HDmax.
    assert (HD2 : 2 <= dD) by (unfold dD; lia).
    destruct (chunks_split a _ Hn) as [Hc HcR].
    assert (Wlr : Forall wf_tree (tsl ++ tsr)) by (apply Forall_app; split; assumption).
    unfold wide_merge, wide_degree. rewrite !map_length, <- map_app.
    destruct (2 ^ a =? 1) eqn:Ea.
    - (* two chunks on a platform of degree 1: returned unmerged *)
      assert (Hl1 : N.of_nat (length tsl) = 1 /\ N.of_nat (length tsr) = 1) by lia. destruct Hl1 as [Hl1 Hr1].
      rewrite Hl1, Hr1. cbn [N.eqb Pos.eqb N.leb N.compare Pos.compare Pos.compare_cont andb check bind].
      rewrite check_leb by lia.
      exists (tsl ++ tsr). rewrite firstn_all2 by (rewrite map_length, app_length; lia).
      split; [reflexivity|]. split; [exact Wlr|].
      split; [apply (Cond_join_N 0); try assumption; change (2 ^ 0) with 1; lia|].
      rewrite app_length, Nat2N.inj_add, Hl1, Hr1.
      split; [lia|]. split; [lia|].
      intros k Hk HDk. rewrite Hk, chunks_pow2 in Hc. lia.
    - (* one layer of parents over left ++ right *)
      assert (HDa : dD <= 2 ^ a).
      { destruct (N.eq_dec a 0) as [->|Ha0]; [discriminate Ea|].
        assert (2 ^ 1 <= 2 ^ a) by (apply N.pow_le_mono_r; lia). change (2 ^ 1) with 2 in *. unfold dD. lia. }
      specialize (El HDa). destruct (pow2_even_N j2 Hj2) as (q & Hq & Hq1). rewrite <- HD in Hq.
      rewrite check_eqb by exact El.
      replace ((1 <=? N.of_nat (length tsr)) && (N.of_nat (length tsr) <=? N.of_nat (length tsl))) with true by lia.
      replace (N.of_nat (length tsl) =? 1) with false by lia. cbn [check bind].
      assert (Hlen : N.of_nat (length (tsl ++ tsr)) = dD + N.of_nat (length tsr)) by (rewrite app_length; lia).
      rewrite cpp_spec by (try exact Wlr; rewrite Hlen; lia).
      exists (pairT (tsl ++ tsr)). split; [reflexivity|]. split; [apply pairT_wf, Wlr|].
      split; [apply Cond_pairT, (Cond_join_N j2); try assumption; lia|].
      rewrite pairT_length, Nat2N.inj_div, Nat2N.inj_add, Hlen. change (N.of_nat 2) with 2. change (N.of_nat 1) with 1.
      split; [lia|]. split; [lia|].
      intros k Hk HDk. rewrite Hk, chunks_pow2 in Hc.
      (* 2^k = 2^a + c with 1 <= c <= 2^a forces c = 2^a *)
      assert (Hka : 2 ^ k = 2 * 2 ^ a).
      { assert (Hlt : 2 ^ a < 2 ^ k) by lia. apply N.pow_lt_mono_r_iff in Hlt; [|lia].
        assert (Hle : 2 ^ N.succ a <= 2 ^ k) by (apply N.pow_le_mono_r; lia). rewrite N.pow_succ_r' in Hle. lia. }
      rewrite Er by lia. lia.
  Qed.

  Lemma wide_spec : forall fuel input ctr cap,
    0 < len input -> len input <= 1024 * 2 ^ N.of_nat fuel -> len input < 2 ^ 64 ->
    ctr + chunks (len input) < 2 ^ 64 ->
    N.min dD (chunks (len input)) <= cap ->
    exists ts, compress_subtree_wide fuel p input K ctr F cap = Ok (map tcv ts) /\
      Forall wf_tree ts /\ Cond ts (spec_tree fuel ctr input) /\
      1 <= N.of_nat (length ts) <= N.min dD (chunks (len input)) /\
      (2 <= chunks (len input) -> 2 <= N.of_nat (length ts)) /\
      (forall k, len input = 1024 * 2 ^ k -> dD <= 2 ^ k -> N.of_nat (length ts) = dD).
  Proof.
    destruct degree_is_pow2 as (j & Hdj). pose proof degree_pos as Hd1. pose proof dD_le_max as HDmax.
    induction fuel as [|fuel IH]; intros input ctr cap Hpos Hle H64 Hctr Hcap.
    - exists (leaves ctr input). apply wide_batch; try assumption.
      change (2 ^ N.of_nat 0) with 1 in Hle. lia.
    - destruct (N.le_gt_cases (len input) (p_degree p * 1024)) as [Hsmall|Hbig].
      { exists (leaves ctr input). apply wide_batch; assumption. }
      destruct (spec_tree_split fuel ctr input ltac:(lia) Hle) as (a & Hl & Hafuel & Hn & ->).
      assert (Hda : p_degree p <= 2 ^ a) by (rewrite Hdj in *; apply pow2_lt_le; lia).
      assert (Hdeg : 1 <= wide_degree a <= dD /\ N.min dD (2 ^ a) <= wide_degree a).
      { unfold wide_degree, dD. destruct (2 ^ a =? 1) eqn:E; lia. }
      rewrite (csw_unfold fuel input ctr cap a) by (destruct (chunks_split a _ Hn); lia).
      destruct (wide_halves_ok _ a fuel ctr dD (max_degree_or_2 p) (wide_degree a) Hn Hafuel H64 Hctr HDmax)
        as [(L1 & L2 & L3 & L4 & L5) (R1 & R2 & R3 & R4 & R5)]; try apply Hdeg.
      assert (HlenL : len (take (1024 * 2 ^ a) input) = 1024 * 2 ^ a) by (rewrite len_take; lia).
      destruct (IH (take (1024 * 2 ^ a) input) ctr (wide_degree a)) as (tsl & Hrl & Hpl);
        rewrite ?HlenL; try assumption.
      destruct (IH (drop (1024 * 2 ^ a) input) (ctr + 2 ^ a) (2 * max_degree_or_2 p - wide_degree a))
        as (tsr & Hrr & Hpr); rewrite ?len_drop; try assumption.
      rewrite Hrl. cbn [bind]. rewrite Hrr. cbn [bind]. rewrite HlenL in Hpl. rewrite len_drop in Hpr.
      exact (wide_merge_spec a (len input) cap tsl tsr _ _ Hn Hda Hcap Hpl Hpr).
  Qed.

  Lemma condense_loop_spec : forall fuel ts t,
    Forall wf_tree ts -> Cond ts t ->
    2 <= N.of_nat (length ts) -> N.of_nat (length ts) <= 2 * 2 ^ N.of_nat fuel ->
    N.of_nat (length ts) <= max_degree_or_2 p ->
    exists ta tb, condense_loop fuel p (map tcv ts) K F = Ok [tcv ta; tcv tb] /\
                  t = Node ta tb /\ wf_tree ta /\ wf_tree tb.
  Proof.
    destruct max2_is_pow2 as (j3 & Hm2 & Hj3).
    destruct (pow2_even_N j3 Hj3) as (q & Hq & Hq1). rewrite <- Hm2 in Hq.
    assert (Hpair : forall ts t, Forall wf_tree ts -> Cond ts t -> 2 <= N.of_nat (length ts) <= 2 ->
      exists ta tb, ts = [ta; tb] /\ t = Node ta tb /\ wf_tree ta /\ wf_tree tb).
    { intros ts t Hwf HC Hl. destruct ts as [|ta [|tb [|? ?]]]; cbn [length] in Hl; try lia.
      exists ta, tb. inversion Hwf as [|? ? Ha H']; subst. inversion H' as [|? ? Hb _]; subst.
      split; [reflexivity|]. split; [|auto]. symmetry. apply Cond_single_inv, (Cond_pairT [ta; tb]), HC. }
    induction fuel as [|fuel IH]; intros ts t Hwf HC Hlo Hhi Hmax.
    - change (2 ^ N.of_nat 0) with 1 in Hhi.
      destruct (Hpair ts t Hwf HC ltac:(lia)) as (ta & tb & -> & Ht). exists ta, tb. auto.
    - cbn [condense_loop]. rewrite map_length.
      destruct (N.of_nat (length ts) <=? 2) eqn:E.
      + destruct (Hpair ts t Hwf HC ltac:(lia)) as (ta & tb & -> & Ht). exists ta, tb. auto.
      + rewrite cpp_spec by (try assumption; lia). cbn [bind].
        rewrite Nat2N.inj_succ, N.pow_succ_r' in Hhi.
        apply IH; [apply pairT_wf, Hwf|apply Cond_pairT, HC|..];
          rewrite pairT_length, Nat2N.inj_div, Nat2N.inj_add; change (N.of_nat 2) with 2; change (N.of_nat 1) with 1; lia.
  Qed.

  Lemma to_parent_node_spec input ctr :
    1024 < len input -> len input < 2 ^ 64 -> ctr + chunks (len input) < 2 ^ 64 ->
    exists ta tb, compress_subtree_to_parent_node p input K ctr F = Ok (tcv ta ++ tcv tb) /\
                  spec_tree wide_fuel ctr input = Node ta tb /\ wf_tree ta /\ wf_tree tb.
  Proof.
    intros Hlo H64 Hctr.
    pose proof dD_le_max as HDmax.
    unfold compress_subtree_to_parent_node. unfold nlen. fold (len input). change rs_CHUNK_LEN with 1024.
    rewrite check_ltb by exact Hlo.
    destruct (wide_spec wide_fuel input ctr (max_degree_or_2 p)) as (ts & Hrun & Hwf & HC & Hn & Hn2 & _); try lia.
    { change (N.of_nat wide_fuel) with 64. rewrite two64 in H64.
      change (1024 * 2 ^ 64) with 18889465931478580854784. lia. }
    rewrite Hrun. cbn [bind]. rewrite map_length.
    specialize (Hn2 ltac:(unfold chunks; lia)).
    rewrite check_leb by exact Hn2.
    (* 8 is the model's fuel for the condensing loop, enough for 2 * 2^8 = 512 CVs; there are at most 16 *)
    destruct (condense_loop_spec 8 ts _ Hwf HC) as (ta & tb & Hloop & Ht & Hwa & Hwb); try lia.
    { change (2 * 2 ^ N.of_nat 8) with 512. pose proof (ok_max_le p POK). unfold max_degree_or_2 in *. lia. }
    rewrite Hloop. cbn [bind]. exists ta, tb. auto.
  Qed.

  Theorem hash_all_at_once_spec input :
    len input < 2 ^ 64 ->
    hash_all_at_once p input K F = Ok (subtree_output c8 tree_height K F 0 input).
  Proof.
    intros H64. unfold hash_all_at_once. unfold nlen. fold (len input). change rs_CHUNK_LEN with 1024.
    destruct (len input <=? 1024) eqn:E.
    - destruct (chunk_state_leaf 0 input) as (cs' & -> & Ho); [lia|]. cbn [bind]. rewrite Ho.
      rewrite tree_height_S, subtree_output_unfold, E. reflexivity.
    - destruct (to_parent_node_spec input 0) as (ta & tb & Hrun & Ht & Hwa & Hwb); try lia.
      { rewrite two64 in *. unfold chunks. lia. }
      rewrite Hrun. cbn [bind]. rewrite subtree_output_tree.
      change tree_height with wide_fuel. rewrite Ht. reflexivity.
  Qed.
End WideProof.
