(* C06: reset is hasher_init_base again, the two derive-key initialisers agree, zero-length calls do nothing,
   finalize is a pure query. *)
From V Require Import Proofs.ListP.
From V Require Import Base.Res Base.Word Base.MachInt gen.GenConsts gen.GenFormulas
  Spec.Compress Spec.Tree Spec.Blake3 Model.Portable Model.Platform Model.RsChunk Model.RsWide Model.RsXof Model.CHasher
  Proofs.PortableP Proofs.ChunkP Proofs.TreeP Proofs.FormulasP Proofs.WideP Proofs.C01P Proofs.XofP
  Proofs.StackArithP Proofs.ResP Proofs.CFormulasP Proofs.CHasherP.
Open Scope N_scope.

Section Simple.
  Variable p : platform.

  Theorem c_update_zero h : c_hasher_update p h [] = Ok h.
  Proof. reflexivity. Qed.

  Theorem c_finalize_seek_zero h seek : c_hasher_finalize_seek p h seek 0 = Ok [].
  Proof. reflexivity. Qed.

  Theorem c_finalize_zero h : c_hasher_finalize p h 0 = Ok [].
  Proof. reflexivity. Qed.

  Theorem c_output_root_bytes_zero o seek : c_output_root_bytes p o seek 0 = Ok [].
  Proof. reflexivity. Qed.

  Lemma c_fill_buf_fields cs input cs' t : c_cs_fill_buf cs input = Ok (cs', t) ->
    cs_flags cs' = cs_flags cs /\ cs_ctr cs' = cs_ctr cs.
  Proof.
    unfold c_cs_fill_buf. intros H. inv_bind H w Ew. cbn zeta in H. inv_check H E1. inv_bind H bl Eb.
    inversion H; subst. split; reflexivity.
  Qed.

  Lemma c_cs_update_loop_fields : forall fuel cs input cs' rest,
    c_cs_update_loop fuel p cs input = Ok (cs', rest) -> cs_flags cs' = cs_flags cs /\ cs_ctr cs' = cs_ctr cs.
  Proof.
    induction fuel as [|fuel IH]; intros cs input cs' rest H; cbn [c_cs_update_loop] in H.
    - destruct (nlen input <=? c_BLOCK_LEN); [inversion H; subst; auto|discriminate].
    - destruct (nlen input <=? c_BLOCK_LEN); [inversion H; subst; auto|].
      cbn zeta in H. inv_bind H bl Eb. apply IH in H. cbn [cs_flags cs_ctr] in H. exact H.
  Qed.

  Lemma c_cs_update_fields cs input cs' : c_cs_update p cs input = Ok cs' ->
    cs_flags cs' = cs_flags cs /\ cs_ctr cs' = cs_ctr cs.
  Proof.
    unfold c_cs_update. intros H. inv_bind H r1 E1. destruct r1 as [cs1 in1].
    assert (H1 : cs_flags cs1 = cs_flags cs /\ cs_ctr cs1 = cs_ctr cs).
    { destruct (0 <? cs_buf_len cs); [|inversion E1; subst; auto].
      inv_bind E1 r0 E0. destruct r0 as [cs0 t0]. apply c_fill_buf_fields in E0. cbn zeta in E1.
      destruct (0 <? nlen (skipn (N.to_nat t0) input)).
      - inv_bind E1 bl Eb. inversion E1; subst. cbn [cs_flags cs_ctr]. exact E0.
      - inversion E1; subst. exact E0. }
    inv_bind H r2 E2. destruct r2 as [cs2 in2]. apply c_cs_update_loop_fields in E2.
    inv_bind H r3 E3. destruct r3 as [cs3 t3]. apply c_fill_buf_fields in E3. inversion H; subst.
    destruct H1, E2, E3. split; congruence.
  Qed.

  Lemma upd_nth_length {A} (x : A) : forall l i, length (upd_nth i x l) = length l.
  Proof. induction l as [|y l IH]; intros [|i]; cbn [upd_nth length]; auto. Qed.

  Lemma c_merge_loop_fields : forall fuel h post h', c_merge_loop fuel p h post = Ok h' ->
    ch_key h' = ch_key h /\ ch_chunk h' = ch_chunk h /\ length (ch_stack h') = length (ch_stack h).
  Proof.
    induction fuel as [|fuel IH]; intros h post h' H; cbn [c_merge_loop] in H.
    - destruct (ch_stack_len h <=? post); [inversion H; subst; auto|discriminate].
    - destruct (ch_stack_len h <=? post); [inversion H; subst; auto|].
      inv_check H E1. cbn zeta in H. inv_check H E2. inv_bind H l' El. apply IH in H.
      cbn [ch_key ch_chunk ch_stack] in H. rewrite upd_nth_length in H. exact H.
  Qed.

  Lemma c_merge_cv_stack_fields h t h' : c_merge_cv_stack p h t = Ok h' ->
    ch_key h' = ch_key h /\ ch_chunk h' = ch_chunk h /\ length (ch_stack h') = length (ch_stack h).
  Proof.
    unfold c_merge_cv_stack, c_popcnt, mu, mi_popcount, mi_cast. cbn [bind]. intros H.
    apply c_merge_loop_fields in H. exact H.
  Qed.

  Lemma c_push_cv_fields h cv t h' : c_push_cv p h cv t = Ok h' ->
    ch_key h' = ch_key h /\ ch_chunk h' = ch_chunk h /\ length (ch_stack h') = length (ch_stack h).
  Proof.
    unfold c_push_cv. intros H. inv_bind H h1 E1. apply c_merge_cv_stack_fields in E1.
    inv_check H E2. inv_bind H l' El. inversion H; subst. cbn [ch_key ch_chunk ch_stack]. rewrite upd_nth_length. exact E1.
  Qed.

  Lemma c_update_loop_fields : forall fuel h input h' rest, c_update_loop fuel p h input = Ok (h', rest) ->
    ch_key h' = ch_key h /\ ch_flags h' = ch_flags h /\ length (ch_stack h') = length (ch_stack h).
  Proof.
    induction fuel as [|fuel IH]; intros h input h' rest H; cbn [c_update_loop] in H.
    - destruct (nlen input <=? c_CHUNK_LEN); [inversion H; subst; auto|discriminate].
    - destruct (nlen input <=? c_CHUNK_LEN); [inversion H; subst; auto|].
      cbn zeta in H. inv_bind H sl0 E0. inv_bind H csf E1. inv_bind H sl E2. inv_bind H sc E3. inv_check H E4.
      inv_bind H h1 E5.
      assert (Hh1 : ch_key h1 = ch_key h /\ ch_chunk h1 = ch_chunk h /\ length (ch_stack h1) = length (ch_stack h)).
      { destruct (sl <=? c_CHUNK_LEN).
        - inv_bind E5 cs1 Ec. apply c_push_cv_fields in E5. exact E5.
        - inv_bind E5 cvp Ep. inv_bind E5 h2 E6. apply c_push_cv_fields in E6. inv_bind E5 rc Er.
          apply c_push_cv_fields in E5. destruct E5 as (A1 & A2 & A3), E6 as (B1 & B2 & B3).
          repeat split; congruence. }
      inv_bind H c' Ec. apply IH in H. unfold ch_flags, ch_with_chunk in *. cbn [ch_key ch_chunk ch_stack cs_flags] in H.
      destruct H as (A1 & A2 & A3), Hh1 as (B1 & B2 & B3). repeat split; congruence.
  Qed.

  Theorem c_hasher_update_fields h input h' : c_hasher_update p h input = Ok h' ->
    ch_key h' = ch_key h /\ ch_flags h' = ch_flags h /\ length (ch_stack h') = length (ch_stack h).
  Proof.
    unfold c_hasher_update. intros H. destruct (nlen input =? 0); [inversion H; subst; auto|].
    inv_bind H clen Ecl. inv_bind H r Er. destruct r as [[h1 in1] done].
    assert (H1 : ch_key h1 = ch_key h /\ ch_flags h1 = ch_flags h /\ length (ch_stack h1) = length (ch_stack h)).
    { destruct (0 <? clen); [|inversion Er; subst; auto].
      inv_bind Er tk Et. cbn zeta in Er. inv_bind Er cs Ecs. apply c_cs_update_fields in Ecs. destruct Ecs as [F1 F2].
      destruct (0 <? nlen (skipn (N.to_nat (N.min tk (nlen input))) input)).
      - inv_bind Er h2 Ep. apply c_push_cv_fields in Ep. inv_bind Er c' Ec. inversion Er; subst.
        unfold ch_flags, ch_with_chunk, c_cs_reset in *. cbn [ch_key ch_chunk ch_stack cs_flags] in *.
        destruct Ep as (A1 & A2 & A3). repeat split; congruence.
      - inversion Er; subst. unfold ch_flags, ch_with_chunk. cbn [ch_key ch_chunk ch_stack]. auto. }
    destruct done; [inversion H; subst; exact H1|].
    inv_bind H r2 E2. destruct r2 as [h2 in2]. apply c_update_loop_fields in E2.
    destruct H1 as (A1 & A2 & A3), E2 as (B1 & B2 & B3).
    destruct (0 <? nlen in2); [|inversion H; subst; repeat split; congruence].
    inv_bind H cs Ecs. apply c_cs_update_fields in Ecs. destruct Ecs as [F1 F2].
    apply c_merge_cv_stack_fields in H. unfold ch_flags, ch_with_chunk in *. cbn [ch_key ch_chunk ch_stack] in H.
    destruct H as (C1 & C2 & C3). rewrite C2. repeat split; congruence.
  Qed.

  Inductive c_reach (h0 : c_hasher) : c_hasher -> Prop :=
  | reach_init : c_reach h0 h0
  | reach_update h input h' : c_reach h0 h -> c_hasher_update p h input = Ok h' -> c_reach h0 h'
  | reach_reset h : c_reach h0 h -> c_reach h0 (c_hasher_reset h).

  Lemma c_reach_fields h0 h : c_reach h0 h ->
    ch_key h = ch_key h0 /\ ch_flags h = ch_flags h0 /\ length (ch_stack h) = length (ch_stack h0).
  Proof.
    induction 1 as [|h input h' _ IH Hu|h _ IH]; [auto| |].
    - apply c_hasher_update_fields in Hu. destruct IH as (A1 & A2 & A3), Hu as (B1 & B2 & B3). repeat split; congruence.
    - exact IH.
  Qed.

  Theorem c_reset_is_init_base mem key flags h :
    c_reach (c_hasher_init_base mem key flags) h ->
    c_hasher_reset h = c_hasher_init_base (ch_stack h) key flags.
  Proof.
    intros HR. apply c_reach_fields in HR. destruct HR as (A1 & A2 & _).
    unfold c_hasher_reset, c_hasher_init_base, c_cs_reset, c_cs_init, ch_flags in *.
    cbn [ch_key ch_chunk cs_flags] in *. rewrite A1, A2. reflexivity.
  Qed.

  Lemma c_strlen_prefix_spec ctx rest : Forall (fun b => b <> 0) ctx -> c_strlen_prefix (ctx ++ 0 :: rest) = Ok ctx.
  Proof.
    induction ctx as [|b ctx IH]; intros H; [reflexivity|].
    inversion H; subst. cbn [app c_strlen_prefix]. replace (b =? 0) with false by lia.
    rewrite IH by assumption. reflexivity.
  Qed.

  Theorem c_derive_key_agree mem ctx rest : Forall (fun b => b <> 0) ctx ->
    c_hasher_init_derive_key p mem (ctx ++ 0 :: rest) = c_hasher_init_derive_key_raw p mem ctx.
  Proof. intros H. unfold c_hasher_init_derive_key. rewrite c_strlen_prefix_spec by exact H. reflexivity. Qed.

  Lemma list_eqb_refl {A} (eqb : A -> A -> bool) : (forall x, eqb x x = true) -> forall l, list_eqb eqb l l = true.
  Proof. intros H. induction l as [|x l IH]; [reflexivity|]. cbn [list_eqb]. rewrite H, IH. reflexivity. Qed.

  Lemma c_hasher_eqb_refl h : c_hasher_eqb h h = true.
  Proof.
    unfold c_hasher_eqb, cs_eqb. rewrite !(list_eqb_refl N.eqb N.eqb_refl), !N.eqb_refl.
    rewrite (list_eqb_refl (list_eqb N.eqb) (list_eqb_refl N.eqb N.eqb_refl)). reflexivity.
  Qed.

  Theorem c_finalize_pure m st o st' obs :
    (exists i n, o = COpFinalize i n) \/ (exists i s n, o = COpFinalizeSeek i s n) \/ (exists i, o = COpFinalize0 i) ->
    c_step p m st o = Ok (st', obs) -> st' = st.
  Proof.
    intros [(i & n & ->)|[(i & s & n & ->)|(i & ->)]] H; cbn [c_step] in H.
    - inv_bind H h Eh. inv_bind H bs Eb. inversion H; reflexivity.
    - inv_bind H h Eh. inv_bind H bs Eb. inversion H; reflexivity.
    - inv_bind H h Eh. inv_bind H b1 E1. inv_bind H b2 E2. inversion H; reflexivity.
  Qed.

  (* what the harness observes: clone, finalize the original, memcmp original and clone *)
  Theorem c_clone_finalize_cmp m st i n h bs :
    c_get st i = Ok h -> c_hasher_finalize p h n = Ok bs ->
    c_run_ops p m st [COpClone i; COpFinalize i n; COpCmp i (length st)] [] = ([CObXof bs; CObSame true], Ok tt).
  Proof.
    intros Hg Hf. cbn [c_run_ops c_step]. rewrite Hg. cbn [bind rev app].
    assert (Hg1 : c_get (st ++ [h]) i = Ok h).
    { unfold c_get in *. destruct (nth_error st i) as [x|] eqn:E; [|discriminate].
      rewrite nth_error_app1 by (apply nth_error_Some; congruence). rewrite E. exact Hg. }
    assert (Hg2 : c_get (st ++ [h]) (length st) = Ok h).
    { unfold c_get. rewrite nth_error_app2 by lia. rewrite Nat.sub_diag. reflexivity. }
    rewrite Hg1. cbn [bind]. rewrite Hf. cbn [bind rev app]. rewrite Hg1, Hg2. cbn [bind rev app].
    rewrite c_hasher_eqb_refl. reflexivity.
  Qed.
End Simple.

