(* The small expression-bodied functions of src/lib.rs as TRANSLATED from the source text (gen/GenLibSmall.v:
   Output::chaining_value / root_hash / root_output_block, ChunkState::start_flag, parent_node_output,
   platform::le_bytes_from_words_32) equal the hand-written definitions of Model/RsChunk.v and the specification's
   parent_output the models use, for all arguments.  The source keeps the platform inside Output / ChunkState, the
   models pass it separately: the records are related by out_of_lib / cs_of_lib plus the platform field.
   (ChunkState::new and Hasher::new_internal are the models' by conversion: Props/C02.v.) *)
From Coq Require Import NArith List Bool Lia Arith.
From V Require Import Base.Res Base.Word Base.MachInt Base.Arr gen.GenConsts gen.GenLibSmall
  Spec.Compress Spec.Tree Model.Portable Model.Platform Model.RsChunk Model.RsHasher Proofs.ListP Proofs.PortableP.
Import ListNotations.
Open Scope N_scope.

Definition out_of_lib (o : lib_Output) : output :=
  mkOutput (lib_Output_input_chaining_value o) (lib_Output_block o) (lib_Output_block_len o)
           (lib_Output_counter o) (lib_Output_flags o).

Definition cs_of_lib (c : lib_ChunkState) : chunk_state :=
  mkCS (lib_ChunkState_cv c) (lib_ChunkState_chunk_counter c) (lib_ChunkState_buf c) (lib_ChunkState_buf_len c)
       (lib_ChunkState_blocks_compressed c) (lib_ChunkState_flags c).

Lemma lib_le_bytes_from_words_32_eq words : length words = 8%nat ->
  lib_le_bytes_from_words_32 words = bytes_of_words words.
Proof. intros H. destruct_list words 8. reflexivity. Qed.

Lemma p_cip_length p cv block bl ctr fl : PlatformOK p -> length cv = 8%nat ->
  length (p_compress_in_place p cv block bl ctr fl) = 8%nat.
Proof. intros OK H. rewrite (ok_cip p OK). apply compress_in_place_length. exact H. Qed.

(* Hcip and not PlatformOK: the callers have only this much of the platform (the field wf_cip of GenLibWideP.plat_wf,
   GenCHasherLoopsP.compress_len8); p_cip_length gives it on a PlatformOK platform *)
Section Len8.
  Variable p : platform.
  Hypothesis Hcip : forall cv block bl ctr fl, length cv = 8%nat -> length (p_compress_in_place p cv block bl ctr fl) = 8%nat.

  Lemma out_chaining_value_length o : length (o_cv o) = 8%nat -> length (out_chaining_value p o) = 32%nat.
  Proof. intros H. unfold out_chaining_value. rewrite bytes_of_words_length, Hcip by exact H. reflexivity. Qed.

  Lemma out_root_hash_length o h : length (o_cv o) = 8%nat -> out_root_hash p o = Ok h -> length h = 32%nat.
  Proof.
    intros Ho H. unfold out_root_hash in H. destruct (o_ctr o =? 0); cbn [check bind] in H; [|discriminate].
    inversion H; subst. rewrite bytes_of_words_length, Hcip by exact Ho. reflexivity.
  Qed.
End Len8.

Lemma lib_Output_chaining_value_eq o :
  PlatformOK (lib_Output_platform o) -> length (lib_Output_input_chaining_value o) = 8%nat ->
  lib_Output_chaining_value o = out_chaining_value (lib_Output_platform o) (out_of_lib o).
Proof.
  intros OK H. unfold lib_Output_chaining_value, out_chaining_value, out_of_lib.
  cbn [o_cv o_block o_blen o_ctr o_flags]. cbv zeta.
  apply lib_le_bytes_from_words_32_eq. apply p_cip_length; assumption.
Qed.

(* the model's assert 1300 is the source's debug_assert_eq!(self.counter, 0) *)
Lemma lib_Output_root_hash_eq o :
  PlatformOK (lib_Output_platform o) -> length (lib_Output_input_chaining_value o) = 8%nat ->
  out_root_hash (lib_Output_platform o) (out_of_lib o) =
  if lib_Output_root_hash_debug_assert o then Ok (lib_Output_root_hash o) else Panic 1300.
Proof.
  intros OK H. unfold out_root_hash, lib_Output_root_hash_debug_assert, lib_Output_root_hash, out_of_lib.
  cbn [o_cv o_block o_blen o_ctr o_flags]. cbv zeta.
  destruct (lib_Output_counter o =? 0); [|reflexivity]. cbn [check bind].
  apply (f_equal (@Ok (list N))). symmetry.
  apply lib_le_bytes_from_words_32_eq. apply p_cip_length; assumption.
Qed.

Lemma lib_Output_root_output_block_eq o :
  lib_Output_root_output_block o = out_root_output_block (lib_Output_platform o) (out_of_lib o).
Proof. reflexivity. Qed.

Lemma lib_ChunkState_start_flag_eq c :
  lib_ChunkState_start_flag c = Ok (cs_start_flag (cs_of_lib c)).
Proof.
  unfold lib_ChunkState_start_flag, cs_start_flag, cs_of_lib, mcmp. cbn [cs_blocks bind].
  destruct (lib_ChunkState_blocks_compressed c =? 0); reflexivity.
Qed.

Lemma lib_parent_node_output_eq l r key fl p : length l = 32%nat -> length r = 32%nat ->
  out_of_lib (lib_parent_node_output l r key fl p) = parent_output key fl l r /\
  lib_Output_platform (lib_parent_node_output l r key fl p) = p.
Proof. intros Hl Hr. destruct_list l 32. destruct_list r 32. split; reflexivity. Qed.

(* the translation keeps cv_stack as an ArrayVec in index order (Base/ArrayVec.v: the last pushed element last), the
   model keeps the stack with its top at the head: hence `rev` *)
Definition hasher_of_lib (h : lib_Hasher) : hasher :=
  mkHasher (lib_Hasher_key h) (cs_of_lib (lib_Hasher_chunk_state h)) (lib_Hasher_initial_chunk_counter h)
           (rev (lib_Hasher_cv_stack h)).

