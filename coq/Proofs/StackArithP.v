(* Arithmetic of the CV stack (lazily merged in src/lib.rs and c/blake3.c, eagerly in
   reference_impl.rs): lists of exponents (bottom of the stack first); entry i has size 2^(a_i) chunks.
     Dom  : every entry is at least as large as everything above it together
     SDom : strictly larger  (then the sizes are the binary representation of
            the total, so the length is its popcount)
   Under Dom only the top two entries can be equal; merging them preserves Dom. *)
From V Require Import Proofs.ListP.
From V Require Import Base.Res Base.MachInt.
Open Scope N_scope.

Fixpoint sum2 (l : list N) : N :=
  match l with [] => 0 | a :: tl => 2 ^ a + sum2 tl end.

Fixpoint Dom (l : list N) : Prop :=
  match l with [] => True | a :: tl => sum2 tl <= 2 ^ a /\ Dom tl end.

Fixpoint SDom (l : list N) : Prop :=
  match l with [] => True | a :: tl => sum2 tl < 2 ^ a /\ SDom tl end.

Lemma sum2_app l1 l2 : sum2 (l1 ++ l2) = sum2 l1 + sum2 l2.
Proof. induction l1 as [|a l1 IH]; cbn [app sum2]; [reflexivity|]. rewrite IH. lia. Qed.

Lemma SDom_Dom l : SDom l -> Dom l.
Proof. induction l as [|a l IH]; cbn; [auto|]. intros [H1 H2]. split; [lia|auto]. Qed.

Lemma popcount_double x : popcount (2 * x) = popcount x.
Proof. destruct x; reflexivity. Qed.

Lemma popcount_double_1 x : popcount (2 * x + 1) = 1 + popcount x.
Proof. destruct x as [|p]; [reflexivity|]. cbn. reflexivity. Qed.

Lemma popcount_pow2_add : forall a r, r < 2 ^ a -> popcount (2 ^ a + r) = 1 + popcount r.
Proof.
  intros a. induction a as [|a IH] using N.peano_ind; intros r Hr.
  - change (2 ^ 0) with 1 in *. replace r with 0 by lia. reflexivity.
  - rewrite N.pow_succ_r' in *.
    destruct (N.even r) eqn:E.
    + apply N.even_spec in E. destruct E as [q ->].
      replace (2 * 2 ^ a + 2 * q) with (2 * (2 ^ a + q)) by lia.
      rewrite !popcount_double. apply IH. lia.
    + assert (Ho : N.odd r = true) by (rewrite <- N.negb_even, E; reflexivity).
      apply N.odd_spec in Ho. destruct Ho as [q ->].
      replace (2 * 2 ^ a + (2 * q + 1)) with (2 * (2 ^ a + q) + 1) by lia.
      rewrite !popcount_double_1. rewrite IH by lia. lia.
Qed.

Lemma sdom_popcount l : SDom l -> popcount (sum2 l) = N.of_nat (length l).
Proof.
  induction l as [|a l IH]; [reflexivity|].
  cbn [SDom sum2 length]. intros [H1 H2]. rewrite popcount_pow2_add by exact H1. rewrite IH by exact H2. lia.
Qed.

Lemma pow2_le_cases a b : 2 ^ b <= 2 ^ a -> b = a \/ 2 * 2 ^ b <= 2 ^ a.
Proof.
  intros H. apply N.pow_le_mono_r_iff in H; [|lia].
  destruct (N.eq_dec b a) as [->|Hne]; [left; reflexivity|right].
  rewrite <- N.pow_succ_r'. apply N.pow_le_mono_r; lia.
Qed.

Lemma dom_cases : forall l, Dom l -> (exists pre a, l = pre ++ [a; a]) \/ SDom l.
Proof.
  induction l as [|a l IH]; intros HD; [right; exact I|].
  cbn [Dom] in HD. destruct HD as [H1 H2].
  destruct l as [|b l'].
  - right. cbn. split; [apply pow2_pos|exact I].
  - destruct (IH H2) as [(pre & c & Hl)|HS].
    + left. exists (a :: pre), c. rewrite Hl. reflexivity.
    + destruct l' as [|c l''].
      * (* exactly two entries: equal or strict *)
        cbn [sum2] in H1. rewrite N.add_0_r in H1.
        destruct (pow2_le_cases a b H1) as [->|Hlt].
        -- left. exists [], a. reflexivity.
        -- right. cbn [SDom sum2]. pose proof (pow2_pos b). repeat split; lia.
      * (* three or more: the sum above b is positive and < 2^b, so 2^a > it strictly *)
        right. cbn [SDom]. split; [|exact HS].
        cbn [SDom] in HS. destruct HS as [Hs1 _].
        cbn [sum2] in H1, Hs1 |- *.
        pose proof (pow2_pos c) as Hc.
        destruct (N.eq_dec (2 ^ b + (2 ^ c + sum2 l'')) (2 ^ a)) as [Heq|Hne]; [|lia].
        pose proof (pow2_lt_le a b). lia.
Qed.

Lemma dom_app_inv l1 l2 : Dom (l1 ++ l2) -> Dom l2.
Proof. induction l1 as [|a l1 IH]; cbn [app Dom]; [auto|]. intros [_ H]. auto. Qed.

Lemma dom_merge pre a : Dom (pre ++ [a; a]) -> Dom (pre ++ [a + 1]) /\ sum2 (pre ++ [a + 1]) = sum2 (pre ++ [a; a]).
Proof.
  induction pre as [|b pre IH]; cbn [app Dom sum2].
  - intros _. rewrite N.add_1_r, N.pow_succ_r'. repeat split; lia.
  - intros [H1 H2]. destruct (IH H2) as [IH1 IH2]. rewrite IH2. repeat split; assumption.
Qed.

Lemma popcount_le_length : forall n l, length l = n -> Dom l -> popcount (sum2 l) <= N.of_nat (length l).
Proof.
  induction n as [|n IH]; intros l Hl HD.
  - destruct l; [cbn; lia|discriminate].
  - destruct (dom_cases l HD) as [(pre & a & ->)|HS].
    + destruct (dom_merge pre a HD) as [HD' Hs]. rewrite <- Hs.
      specialize (IH (pre ++ [a + 1])). rewrite !app_length in *. cbn [length] in *.
      specialize (IH ltac:(lia) HD'). lia.
    + rewrite sdom_popcount by exact HS. lia.
Qed.

Lemma dom_needs_merge l : Dom l -> popcount (sum2 l) < N.of_nat (length l) -> exists pre a, l = pre ++ [a; a].
Proof.
  intros HD Hlt. destruct (dom_cases l HD) as [H|HS]; [exact H|].
  rewrite sdom_popcount in Hlt by exact HS. lia.
Qed.

Lemma dom_merged l : Dom l -> N.of_nat (length l) <= popcount (sum2 l) -> SDom l.
Proof.
  intros HD Hle. destruct (dom_cases l HD) as [(pre & a & ->)|HS]; [|exact HS].
  exfalso. destruct (dom_merge pre a HD) as [HD' Hs].
  pose proof (popcount_le_length _ _ eq_refl HD') as Hp. rewrite Hs in Hp.
  rewrite !app_length in *. cbn [length] in *. lia.
Qed.

Lemma sdom_divides b : forall l, SDom l -> (2 ^ b | sum2 l) -> Forall (fun a => b <= a) l.
Proof.
  induction l as [|a l IH]; intros HS Hdiv; [constructor|].
  cbn [SDom sum2] in *. destruct HS as [H1 H2].
  destruct (N.le_gt_cases b a) as [Hba|Hab].
  - constructor; [exact Hba|]. apply IH; [exact H2|].
    apply (N.divide_add_cancel_r _ _ _ (pow2_divides b a Hba) Hdiv).
  - (* a < b: then 2^a + sum2 l < 2^(a+1) <= 2^b, and it is positive: not divisible *)
    exfalso. destruct Hdiv as [q Hq].
    assert (Hpa : 2 * 2 ^ a <= 2 ^ b) by (rewrite <- N.pow_succ_r'; apply N.pow_le_mono_r; lia).
    pose proof (pow2_pos a). destruct q as [|q]; [lia|].
    assert (2 ^ b <= N.pos q * 2 ^ b) by nia. lia.
Qed.

Lemma forall_ge_divides b : forall l, Forall (fun a => b <= a) l -> (2 ^ b | sum2 l).
Proof.
  induction l as [|a l IH]; intros H; [exists 0; reflexivity|].
  inversion H; subst. cbn [sum2]. apply N.divide_add_r; [apply pow2_divides; assumption|auto].
Qed.

Lemma sdom_gap b a l : SDom (a :: l) -> (2 ^ b | sum2 (a :: l)) -> (2 ^ b | sum2 l) /\ sum2 l + 2 ^ b <= 2 ^ a.
Proof.
  intros HS Hdiv. pose proof (sdom_divides b _ HS Hdiv) as Hall. inversion Hall as [|? ? Hba Hall']; subst.
  destruct HS as [H1 _]. pose proof (forall_ge_divides b l Hall') as Hdl. split; [exact Hdl|].
  assert (Hdd : (2 ^ b | 2 ^ a - sum2 l)) by (apply N.divide_sub_r; [apply pow2_divides; exact Hba|exact Hdl]).
  pose proof (N.divide_pos_le (2 ^ b) (2 ^ a - sum2 l) ltac:(lia) Hdd). lia.
Qed.

Lemma dom_push : forall l b, SDom l -> (2 ^ b | sum2 l) -> Dom (l ++ [b]).
Proof.
  induction l as [|a l IH]; intros b HS Hdiv; [cbn; split; [lia|exact I]|].
  destruct (sdom_gap b a l HS Hdiv) as [Hdl Hgap]. destruct HS as [_ HS].
  cbn [app Dom]. rewrite sum2_app. cbn [sum2]. split; [lia|apply IH; assumption].
Qed.

Lemma sdom_push_half : forall l b, SDom l -> (2 ^ (b + 1) | sum2 l) -> SDom (l ++ [b]).
Proof.
  induction l as [|a l IH]; intros b HS Hdiv; [cbn; split; [apply pow2_pos|exact I]|].
  destruct (sdom_gap (b + 1) a l HS Hdiv) as [Hdl Hgap]. destruct HS as [_ HS].
  rewrite N.add_1_r, N.pow_succ_r' in Hgap. pose proof (pow2_pos b).
  cbn [app SDom]. rewrite sum2_app. cbn [sum2]. split; [lia|apply IH; assumption].
Qed.

Lemma sdom_length_bound : forall l m, SDom l -> sum2 l < 2 ^ m -> N.of_nat (length l) <= m.
Proof.
  induction l as [|a l IH]; intros m HS Hm; [cbn; lia|].
  cbn [SDom sum2 length] in *. destruct HS as [H1 H2].
  assert (Ham : a < m).
  { apply (N.pow_lt_mono_r_iff 2); [lia|]. pose proof (pow2_pos a). lia. }
  specialize (IH a H2 H1). lia.
Qed.

Lemma dom_length_bound : forall l m, Dom l -> sum2 l <= 2 ^ m -> N.of_nat (length l) <= m + 2.
Proof.
  induction l as [|x l IH]; intros m HD Hs; [cbn; lia|].
  cbn [Dom sum2 length] in *. destruct HD as [H1 H2].
  destruct l as [|y l']; [cbn [length]; lia|].
  assert (Hpos : 0 < sum2 (y :: l')) by (cbn [sum2]; pose proof (pow2_pos y); lia).
  assert (Hx : x < m) by (apply (N.pow_lt_mono_r_iff 2); lia).
  specialize (IH x H2 H1). lia.
Qed.

Lemma dom_below : forall l m k, Dom (l ++ m) -> 2 ^ k <= sum2 m -> Forall (fun b => k <= b) l.
Proof.
  induction l as [|b l IH]; intros m k HD Hm; [constructor|].
  cbn [app Dom] in HD. destruct HD as [H1 H2]. rewrite sum2_app in H1.
  constructor; [apply (N.pow_le_mono_r_iff 2); lia|exact (IH m k H2 Hm)].
Qed.

Lemma sdom_below : forall l m k, SDom (l ++ m) -> 2 ^ k <= sum2 m -> Forall (fun b => k + 1 <= b) l.
Proof.
  induction l as [|b l IH]; intros m k HD Hm; [constructor|].
  cbn [app SDom] in HD. destruct HD as [H1 H2]. rewrite sum2_app in H1.
  constructor; [|exact (IH m k H2 Hm)]. assert (k < b) by (apply (N.pow_lt_mono_r_iff 2); lia). lia.
Qed.

Lemma low_bit l k r : Forall (fun b => k + 1 <= b) l -> N.land ((sum2 l + 2 ^ k * r) / 2 ^ k) 1 = r mod 2.
Proof.
  intros H. destruct (forall_ge_divides (k + 1) l H) as [q Hq]. rewrite Hq, N.add_1_r, N.pow_succ_r'.
  replace (q * (2 * 2 ^ k) + 2 ^ k * r) with (2 ^ k * (r + q * 2)) by lia.
  rewrite mul_div_l by (apply N.pow_nonzero; discriminate).
  change 1 with (N.ones 1). rewrite N.land_ones. change (2 ^ 1) with 2. apply N.mod_add. discriminate.
Qed.
