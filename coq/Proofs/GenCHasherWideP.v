(* The wide core of c/blake3.c as TRANSLATED from the source text (gen/GenCHasherWide.v: compress_chunks_parallel,
   compress_parents_parallel, blake3_compress_subtree_wide, compress_subtree_to_parent_node,
   blake3_hasher_update_base, output_root_bytes) against the hand-written models of Model/CHasher.v.

   Representation.  As in GenLibWideP.v for the Rust side: the models return lists of chaining values and take the
   capacity of `out` in CVs, the translation threads the byte buffer: for the CVs `cvs` a model returns, the translation
   returns (arr_store out 0 (concat cvs), number of CVs), capacity (length out) / 32: the relation CvR out of
   GenLibWideP.v.  A C `(pointer, length)` pair is the list of all bytes from the pointer on plus the length: the model
   sees firstn length of it.  The array of input pointers handed to blake3_hash_many is a list of such lists;
   m_c_hash_many takes `blocks * 64` bytes at each of the first num_inputs pointers and stores the model's CVs at
   offset 0 of `out`.  blake3_simd_degree() is p_degree p; the build constants are the x86-64 values c_MAX_SIMD_DEGREE
   (= p_max_degree of c_platform).  Hashers are read through hasher_of_flat (GenCHasherLoopsP.v).

   Method.  Every translated function is related to its model by ONE simulation (ResP.rsim: the same outcome, results
   related) whose relation says how the result is represented AND what the callers need to know of it (32-byte CVs
   within the capacity, array lengths): the walk through the two texts is made once, and the equations that
   Props/C06.v states are its projections (CvR_eq_c, rsim_res_map).

   Fuel.  One fuel for every loop / recursion / callee in the translation; the c_*_with functions are the models with
   that discipline.  The two `while` loops that collect input pointers need one unit per pointer: the model has no such
   loop, the *_with model says `OutOfFuel` when the fuel is below the number of pointers.

   Uninitialised reads.  The model flags reading stack bytes nobody wrote (Panic 306 / 307 in
   blake3_compress_subtree_wide, 309 in compress_subtree_to_parent_node); C has no such check and the translation
   (zero-filled locals) none either.  rsimU says: the model's result is one of these flags, or the translation
   simulates the model; 309 is a disjunct of uninit_flag like the other two (nothing here shows it unreachable). *)
From V Require Import Proofs.ListP.
From V Require Import Base.Res Base.Word Base.MachInt Base.Arr Base.Slice gen.GenConsts gen.GenFormulas
  gen.GenCHasherSmall gen.GenCHasherLoops gen.GenCHasherWide Spec.Tree Model.Portable Model.Platform Model.RsChunk
  Model.RsWide Model.CHasher Proofs.ResP Proofs.CFormulasP Proofs.KernelsXofP Proofs.CHasherP Proofs.GenCHasherSmallP Proofs.GenCHasherLoopsP
  Proofs.GenLibWideP.
Import ListNotations.
Open Scope N_scope.

(* GenLibWideP.v brings GenLibLoopsP.res_map into scope as well (see there, at res_map) *)
Local Notation res_map := GenCHasherSmallP.res_map.

Definition m_c_hash_many (p : platform) (inputs : list (list N)) (num_inputs blocks : N) (key : list N) (counter : N)
    (incr : bool) (flags flags_start flags_end : N) (out : list N) : res (list N) :=
  cvs <- p_hash_many p (map (firstn (N.to_nat (blocks * 64))) (firstn (N.to_nat num_inputs) inputs)) key counter incr
           flags flags_start flags_end (nlen out / 32) ;;
  Ok (arr_store out 0 (concat cvs)).

Definition c_cs_update_with (fuel : nat) (p : platform) (cs : chunk_state) (input : list N) : res chunk_state :=
  '(cs, input) <-
    (if 0 <? cs_buf_len cs then
       '(cs, take) <- c_cs_fill_buf cs input ;;
       let input := skipn (N.to_nat take) input in
       if 0 <? nlen input then
         let cv := p_compress_in_place p (cs_cv cs) (cs_buf cs) c_BLOCK_LEN (cs_ctr cs)
                     (N.lor (cs_flags cs) (c_cs_start_flag cs)) in
         blocks <- mi_add 8 (cs_blocks cs) 1 ;;
         Ok (mkCS cv (cs_ctr cs) c_zero_block 0 blocks (cs_flags cs), input)
       else Ok (cs, input)
     else Ok (cs, input)) ;;
  '(cs, input) <- c_cs_update_loop fuel p cs input ;;
  '(cs, _) <- c_cs_fill_buf cs input ;;
  Ok cs.

Definition c_compress_chunks_parallel_with (fuel : nat) (p : platform) (input key : list N) (chunk_counter flags cap : N)
  : res (list (list N)) :=
  assert! (0 <? nlen input) code 1600 ;;
  assert! (nlen input <=? p_max_degree p * c_CHUNK_LEN) code 1601 ;;
  let '(chunks, rem) := chunks_exact_of c_CHUNK_LEN input in
  if Nat.ltb fuel (length chunks) then OutOfFuel else              (* the chunks_array loop: one unit per chunk *)
  assert! (nlen_l chunks <=? p_max_degree p) code 301 ;;
  cvs <- p_hash_many p chunks key chunk_counter true flags c_flag_CHUNK_START c_flag_CHUNK_END cap ;;
  let chunks_array_len := nlen_l chunks in
  if 0 <? nlen rem then
    counter <- mi_add 64 chunk_counter chunks_array_len ;;
    let cs0 := c_cs_init key flags in
    let cs0 := mkCS (cs_cv cs0) counter (cs_buf cs0) (cs_buf_len cs0) (cs_blocks cs0) (cs_flags cs0) in
    cs <- c_cs_update_with fuel p cs0 rem ;;
    assert! (chunks_array_len + 1 <=? cap) code 302 ;;
    Ok (cvs ++ [c_output_chaining_value p (c_cs_output cs)])
  else Ok cvs.

Definition c_compress_parents_parallel_with (fuel : nat) (p : platform) (child_cvs : list (list N)) (key : list N)
    (flags cap : N) : res (list (list N)) :=
  let num := nlen_l child_cvs in
  assert! (2 <=? num) code 1602 ;;
  assert! (num <=? 2 * max_degree_or_2 p) code 1603 ;;
  let '(parents, odd) := pair_blocks child_cvs in
  if Nat.ltb fuel (length parents) then OutOfFuel else             (* the parents_array loop: one unit per parent *)
  assert! (nlen_l parents <=? max_degree_or_2 p) code 303 ;;
  outs <- p_hash_many p parents key 0 false (N.lor flags c_flag_PARENT) 0 0 cap ;;
  match odd with
  | Some cv =>
      assert! (nlen_l parents + 1 <=? cap) code 304 ;;
      Ok (outs ++ [cv])
  | None => Ok outs
  end.

Fixpoint c_compress_subtree_wide_with (fuel : nat) (p : platform) (input key : list N) (chunk_counter flags cap : N)
  : res (list (list N)) :=
  if nlen input <=? p_degree p * c_CHUNK_LEN then
    c_compress_chunks_parallel_with fuel p input key chunk_counter flags cap
  else match fuel with
  | O => OutOfFuel
  | S fuel' =>
      left_len <- c_left_subtree_len (nlen input) ;;
      _ <- mi_sub 64 (nlen input) left_len ;;
      let left := firstn (N.to_nat left_len) input in
      let right := skipn (N.to_nat left_len) input in
      right_counter <- mi_add 64 chunk_counter (left_len / c_CHUNK_LEN) ;;
      let array_cap := 2 * max_degree_or_2 p in
      let degree := if (c_CHUNK_LEN <? left_len) && (p_degree p =? 1) then 2 else p_degree p in
      assert! (degree <=? array_cap) code 305 ;;
      lcvs <- c_compress_subtree_wide_with fuel' p left key chunk_counter flags degree ;;
      rcvs <- c_compress_subtree_wide_with fuel' p right key right_counter flags (array_cap - degree) ;;
      let left_n := nlen_l lcvs in
      let right_n := nlen_l rcvs in
      assert! (left_n =? degree) code 306 ;;
      if left_n =? 1 then
        assert! (1 <=? right_n) code 307 ;;
        assert! (2 <=? cap) code 308 ;;
        Ok (firstn 2 (lcvs ++ rcvs))
      else
        c_compress_parents_parallel_with fuel' p (lcvs ++ rcvs) key flags cap
  end.

Fixpoint c_condense_loop_with (fuel : nat) (p : platform) (cvs : list (list N)) (key : list N) (flags : N)
  : res (list (list N)) :=
  if nlen_l cvs <=? 2 then Ok cvs
  else match fuel with
       | O => OutOfFuel
       | S fuel' =>
           outs <- c_compress_parents_parallel_with fuel' p cvs key flags (max_degree_or_2 p / 2) ;;
           c_condense_loop_with fuel' p outs key flags
       end.

Definition c_compress_subtree_to_parent_node_with (fuel : nat) (p : platform) (input key : list N) (chunk_counter flags : N)
  : res (list N) :=
  assert! (c_CHUNK_LEN <? nlen input) code 1604 ;;
  cvs <- c_compress_subtree_wide_with fuel p input key chunk_counter flags (max_degree_or_2 p) ;;
  assert! (nlen_l cvs <=? max_degree_or_2 p) code 1605 ;;
  cvs <- (if 2 <? max_degree_or_2 p then c_condense_loop_with fuel p cvs key flags else Ok cvs) ;;
  match cvs with
  | a :: b :: _ => Ok (a ++ b)
  | _ => Panic 309
  end.

(* the i-th run of s bytes of X: what blake3_hash_many reads at the pointer `&X[s * i]` that a collecting loop stored *)
Definition piece_at (s : nat) (X : list N) (i : nat) : list N := firstn s (skipn (s * i) X).

Lemma chunks_exact_seq s : (0 < s)%nat -> forall f X, (length X / s < f)%nat ->
  chunks_exact f s X = (map (piece_at s X) (seq 0 (length X / s)), skipn (s * (length X / s)) X).
Proof.
  intros Hs. induction f as [|f IH]; intros X Hf; [exfalso; exact (Nat.nlt_0_r _ Hf)|]. cbn [chunks_exact].
  destruct (Nat.ltb (length X) s) eqn:E.
  - apply Nat.ltb_lt in E. rewrite (Nat.div_small _ _ E). cbn [seq map]. rewrite Nat.mul_0_r. reflexivity.
  - apply Nat.ltb_ge in E.
    assert (Hq : (length X / s = S (length (skipn s X) / s))%nat).
    { rewrite skipn_length. replace (length X) with ((length X - s) + 1 * s)%nat at 1 by lia.
      rewrite Nat.div_add by lia. apply Nat.add_1_r. }
    remember (length (skipn s X) / s)%nat as q eqn:Eq. rewrite Hq in Hf |- *.
    rewrite (IH (skipn s X)) by (rewrite <- Eq; apply Nat.succ_lt_mono; exact Hf). rewrite <- Eq. cbn [seq map]. f_equal.
    + f_equal; [unfold piece_at; rewrite Nat.mul_0_r; reflexivity|].
      rewrite <- seq_shift, map_map. apply map_ext. intros i. unfold piece_at. rewrite skipn_skipn. f_equal. f_equal. lia.
    + rewrite skipn_skipn. f_equal. lia.
Qed.

Lemma chunks_exact_of_seq (s : N) X : 0 < s ->
  chunks_exact_of s X = (map (piece_at (N.to_nat s) X) (seq 0 (length X / N.to_nat s)),
                         skipn (N.to_nat s * (length X / N.to_nat s)) X).
Proof. intros Hs. unfold chunks_exact_of. apply chunks_exact_seq; [lia|apply Nat.lt_succ_diag_r]. Qed.

Lemma piece_at_firstn s n X i : (s * i + s <= n)%nat -> piece_at s (firstn n X) i = piece_at s X i.
Proof.
  intros H. unfold piece_at. rewrite skipn_firstn_comm, firstn_firstn. f_equal. lia.
Qed.

Lemma pa_set_length {A} (a : list A) i v : length (pa_set a i v) = length a.
Proof. revert i. induction a as [|h tl IH]; intros [|i]; cbn [pa_set length]; try reflexivity. rewrite IH. reflexivity. Qed.

Lemma firstn_pa_set_snoc {A} (a : list A) i v : (i < length a)%nat -> firstn (S i) (pa_set a i v) = firstn i a ++ [v].
Proof.
  revert i. induction a as [|h tl IH]; intros [|i] H; cbn [length] in H; try lia; cbn [pa_set]; [reflexivity|].
  rewrite !firstn_cons. cbn [app]. rewrite IH by lia. reflexivity.
Qed.

Lemma firstn_pa_set_before {A} (a : list A) i j v : (j <= i)%nat -> firstn j (pa_set a i v) = firstn j a.
Proof.
  revert i j. induction a as [|h tl IH]; intros [|i] [|j] H; cbn [pa_set]; try reflexivity; try lia.
  rewrite !firstn_cons. rewrite IH by lia. reflexivity.
Qed.

Definition cs_shape_m (cs : chunk_state) : Prop := length (cs_cv cs) = 8%nat /\ length (cs_buf cs) = 64%nat.

Lemma cs_shape_of_src s : cs_shape s <-> cs_shape_m (cs_of_src s).
Proof. destruct s; reflexivity. Qed.

Lemma wf_len8 p : plat_wf p -> compress_len8 p.
Proof. intros WF cv block bl ctr fl H. apply (wf_cip p WF). exact H. Qed.

Lemma csu_with_sim p (WF : plat_wf p) fuel self input n : cs_shape self -> n <= nlen input ->
  rsim CsR (c_cs_update_with fuel p (cs_of_src self) (firstn (N.to_nat n) input))
       (src_chunk_state_update (p_compress_in_place p) fuel self input n).
Proof. exact (csu_shape_sim p fuel self input n (wf_len8 p WF)). Qed.

(* the pointer array after k rounds of `while (..) { arr[len] = &input[pos]; pos += stride; len += 1; }` (the
   chunks_array / parents_array loops): a pointer is the list of all bytes from it on *)
Fixpoint fill_ptrs (stride : N) (input : list N) (arr : list (list N)) (pos len : N) (k : nat) : list (list N) :=
  match k with
  | O => arr
  | S k' => fill_ptrs stride input (pa_set arr (N.to_nat len) (skipn (N.to_nat pos) input)) (pos + stride) (len + 1) k'
  end.

Lemma fill_ptrs_length stride input : forall k arr pos len, length (fill_ptrs stride input arr pos len k) = length arr.
Proof. induction k as [|k IH]; intros arr pos len; cbn [fill_ptrs]; [reflexivity|]. rewrite IH. apply pa_set_length. Qed.

Lemma fill_ptrs_firstn stride input : forall k arr pos len, (N.to_nat len + k <= length arr)%nat ->
  firstn (N.to_nat len + k) (fill_ptrs stride input arr pos len k)
  = firstn (N.to_nat len) arr ++ map (fun i => skipn (N.to_nat (pos + stride * N.of_nat i)) input) (seq 0 k).
Proof.
  induction k as [|k IH]; intros arr pos len H; cbn [fill_ptrs].
  - rewrite Nat.add_0_r. cbn [seq map]. rewrite app_nil_r. reflexivity.
  - replace (N.to_nat len + S k)%nat with (N.to_nat (len + 1) + k)%nat by lia.
    rewrite IH by (rewrite pa_set_length; lia).
    replace (N.to_nat (len + 1)) with (S (N.to_nat len)) by lia. rewrite firstn_pa_set_snoc by lia.
    rewrite <- app_assoc. f_equal. cbn [seq map app]. f_equal; [f_equal; lia|].
    rewrite <- seq_shift, map_map. apply map_ext. intros i. f_equal. lia.
Qed.

Lemma chunks_loop1_eq input input_len : input_len < 2 ^ 64 -> forall k fuel arr pos len,
  pos + 1024 * N.of_nat k <= input_len -> input_len < pos + 1024 * (N.of_nat k + 1) -> len + N.of_nat k <= 16 ->
  src_compress_chunks_parallel_loop1 fuel input input_len arr pos len
  = if Nat.ltb fuel k then OutOfFuel
    else Ok (fill_ptrs 1024 input arr pos len k, pos + 1024 * N.of_nat k, len + N.of_nat k).
Proof.
  intros Hlt. change (2 ^ 64) with 18446744073709551616 in Hlt.
  induction k as [|k IH]; intros fuel arr pos len H1 H2 H3.
  - assert (E1 : (pos <=? input_len) = true) by (apply N.leb_le; lia).
    assert (E2 : (c_CHUNK_LEN <=? input_len - pos) = false) by (apply N.leb_gt; change c_CHUNK_LEN with 1024; lia).
    replace (Nat.ltb fuel 0) with false by (destruct fuel; reflexivity).
    destruct fuel; cbn [src_compress_chunks_parallel_loop1]; unfold mi_sub; rewrite E1; cbn [bind]; rewrite E2; cbn [fill_ptrs];
      (replace (pos + 1024 * N.of_nat 0) with pos by lia); (replace (len + N.of_nat 0) with len by lia); reflexivity.
  - destruct fuel as [|fuel]; cbn [src_compress_chunks_parallel_loop1]; unfold mi_sub;
      (replace (pos <=? input_len) with true by lia); cbn [bind];
      (replace (c_CHUNK_LEN <=? input_len - pos) with true by (change c_CHUNK_LEN with 1024; lia));
      [reflexivity|].
    replace (len <? 16) with true by lia. cbn [check bind].
    change c_CHUNK_LEN with 1024.
    rewrite (add_small 64) by (change (2 ^ 64) with 18446744073709551616; lia). cbn [bind].
    rewrite (add_small 64) by (change (2 ^ 64) with 18446744073709551616; lia). cbn [bind].
    rewrite IH by lia. cbn [fill_ptrs]. change (Nat.ltb (S fuel) (S k)) with (Nat.ltb fuel k).
    destruct (Nat.ltb fuel k); [reflexivity|]. f_equal. f_equal; [f_equal|]; lia.
Qed.

Lemma src_fresh_chunk_state key fl ctr : length key = 8%nat ->
  let s := set_blake3_chunk_state_chunk_counter (src_chunk_state_init uninit_blake3_chunk_state key fl) ctr in
  cs_of_src s = mkCS key ctr c_zero_block 0 0 fl /\ cs_shape s.
Proof.
  intros Hkey s. assert (H : cs_of_src s = mkCS key ctr c_zero_block 0 0 fl).
  { pose proof (src_chunk_state_init_eq uninit_blake3_chunk_state key fl (conj eq_refl eq_refl) Hkey) as E. unfold s.
    destruct (src_chunk_state_init uninit_blake3_chunk_state key fl). injection E as -> _ -> -> -> ->. reflexivity. }
  split; [exact H|]. apply cs_shape_of_src. rewrite H. split; [exact Hkey|reflexivity].
Qed.

Lemma src_chunk_state_output_cv s : cs_shape s -> length (output_t_input_cv (src_chunk_state_output s)) = 8%nat.
Proof. intros Hs. rewrite output_t_input_cv_of_src, (src_chunk_state_output_eq s Hs). destruct Hs as [A _]. destruct s; exact A. Qed.

Lemma c_chunk_cv_len p (WF : plat_wf p) s : cs_shape s ->
  length (c_output_chaining_value p (c_cs_output (cs_of_src s))) = 32%nat.
Proof.
  intros Hs. rewrite <- (src_chunk_state_output_eq s Hs).
  apply c_output_chaining_value_length; [apply wf_len8; exact WF|apply src_chunk_state_output_cv; exact Hs].
Qed.

Lemma src_chunk_cv p (WF : plat_wf p) s cv : cs_shape s -> length cv = 32%nat ->
  src_output_chaining_value (p_compress_in_place p) (src_chunk_state_output s) cv
  = c_output_chaining_value p (c_cs_output (cs_of_src s)).
Proof.
  intros Hs Hcv. pose proof (src_chunk_state_output_cv s Hs) as H8. rewrite <- (src_chunk_state_output_eq s Hs).
  apply src_output_chaining_value_eq; [exact H8|exact Hcv|apply (wf_cip p WF); exact H8].
Qed.


Lemma CvR_eq_c out m s : rsim (CvR out) m s -> s = res_map (fun cvs => (arr_store out 0 (concat cvs), nlen_l cvs)) m.
Proof. exact (rsim_eq _ _ m s). Qed.

Theorem src_chunks_sim p (WF : plat_wf p) fuel input input_len key cc fl out :
  p_max_degree p = c_MAX_SIMD_DEGREE -> length key = 8%nat -> input_len <= nlen input -> nlen input < 2 ^ 64 ->
  rsim (CvR out) (c_compress_chunks_parallel_with fuel p (firstn (N.to_nat input_len) input) key cc fl (nlen out / 32))
       (src_compress_chunks_parallel (m_c_hash_many p) (p_compress_in_place p) fuel input input_len key cc fl out).
Proof.
  intros Hmax Hkey Hle Hin. unfold src_compress_chunks_parallel, c_compress_chunks_parallel_with.
  set (X := firstn (N.to_nat input_len) input).
  assert (HlX : length X = N.to_nat input_len) by (unfold X, nlen in *; rewrite firstn_length; lia).
  replace (nlen X) with input_len by (unfold nlen; lia). rewrite Hmax. change (c_MAX_SIMD_DEGREE * c_CHUNK_LEN) with 16384.
  apply rsim_check. intros _. apply rsim_check. intros E1601. apply N.leb_le in E1601.
  rewrite (chunks_exact_of_seq c_CHUNK_LEN X eq_refl).
  set (CL := N.to_nat c_CHUNK_LEN). assert (HCL : N.of_nat CL = 1024) by reflexivity. clearbody CL.
  set (k := (length X / CL)%nat).
  pose proof (Nat.mul_div_le (length X) CL ltac:(lia)) as Hk1. pose proof (Nat.mul_succ_div_gt (length X) CL ltac:(lia)) as Hk2.
  fold k in Hk1, Hk2. assert (Hk16 : N.of_nat k <= 16) by nia.
  rewrite (chunks_loop1_eq input input_len ltac:(unfold nlen in *; lia) k fuel (repeat [] 16%nat) 0 0) by nia.
  rewrite map_length, seq_length.
  destruct (Nat.ltb fuel k); cbn [bind rsim]; [reflexivity|].
  unfold nlen_l. rewrite map_length, seq_length.
  replace (N.of_nat k <=? c_MAX_SIMD_DEGREE) with true by (change c_MAX_SIMD_DEGREE with 16; lia). cbn [check bind].
  change (0 + 1024 * N.of_nat k) with (1024 * N.of_nat k). change (0 + N.of_nat k) with (N.of_nat k).
  change (m_c_hash_many p ?a ?n ?b) with (m_hash_many p (map (firstn (N.to_nat (b * 64))) (firstn (N.to_nat n) a))).
  replace (map (firstn (N.to_nat (16 * 64))) (firstn (N.to_nat (N.of_nat k)) (fill_ptrs 1024 input (repeat [] 16%nat) 0 0 k)))
    with (map (piece_at CL X) (seq 0 k)).
  2:{ rewrite Nat2N.id. pose proof (fill_ptrs_firstn 1024 input k (repeat [] 16%nat) 0 0) as HF.
      change (N.to_nat 0) with 0%nat in HF. cbn [Nat.add firstn app] in HF. rewrite HF by (rewrite repeat_length; lia).
      rewrite map_map. apply map_ext_in. intros i Hi. apply in_seq in Hi.
      unfold X. rewrite piece_at_firstn by nia. unfold piece_at. f_equal; [lia|f_equal; lia]. }
  apply (rsim_bind _ _ _ _ _ _ (hash_many_sim p WF _ key cc true fl _ _ out Hkey)). intros cvs o HC.
  unfold nlen_l in HC. rewrite map_length, seq_length in HC.
  replace (nlen (skipn (CL * k) X)) with (input_len - 1024 * N.of_nat k) by (unfold nlen; rewrite skipn_length; nia).
  replace (0 <? input_len - 1024 * N.of_nat k) with (1024 * N.of_nat k <? input_len).
  2:{ destruct (1024 * N.of_nat k <? input_len) eqn:E; symmetry; [apply N.ltb_lt in E; apply N.ltb_lt; lia|apply N.ltb_ge in E; apply N.ltb_ge; lia]. }
  destruct (1024 * N.of_nat k <? input_len) eqn:Erem; [|apply rsim_ret; exact HC].
  apply N.ltb_lt in Erem. apply rsim_same. intros counter _. rewrite (sub_small 64) by lia. cbn [bind].
  destruct (src_fresh_chunk_state key fl counter Hkey) as [HS0 HshS0].
  set (S0 := set_blake3_chunk_state_chunk_counter _ counter) in *.
  pose proof (csu_with_sim p WF fuel S0 (skipn (N.to_nat (1024 * N.of_nat k)) input) (input_len - 1024 * N.of_nat k) HshS0
                ltac:(unfold nlen in *; rewrite skipn_length; lia)) as HU.
  rewrite HS0 in HU.
  replace (firstn (N.to_nat (input_len - 1024 * N.of_nat k)) (skipn (N.to_nat (1024 * N.of_nat k)) input))
    with (skipn (CL * k) X) in HU
    by (unfold X; rewrite skipn_firstn_comm; f_equal; [lia|f_equal; lia]).
  apply (rsim_bind _ _ _ _ _ _ HU). intros cs s [-> Hs].
  rewrite (mul_small 64) by (change c_OUT_LEN with 32; clear -Hk16; word_lia). cbn [bind]. change c_OUT_LEN with 32.
  apply (CvR_push out cvs o _ _ _ 302 HC); [clear -Hk16; word_lia|]. intros E302.
  split; [|exact (c_chunk_cv_len p WF s Hs)]. apply (src_chunk_cv p WF s _ Hs).
  destruct (CvR_front _ _ _ _ HC) as (Hlo & _ & _). apply cap_fits in E302. rewrite firstn_length, skipn_length, Hlo. unfold nlen in *. lia.
Qed.

Lemma parents_loop1_eq ccv num : num < 2 ^ 32 -> forall j fuel arr len,
  2 * (len + N.of_nat j) <= num -> num < 2 * (len + N.of_nat j) + 2 -> len + N.of_nat j <= 16 ->
  src_compress_parents_parallel_loop1 fuel ccv num arr len
  = if Nat.ltb fuel j then OutOfFuel else Ok (fill_ptrs 64 ccv arr (64 * len) len j, len + N.of_nat j).
Proof.
  intros Hlt. change (2 ^ 32) with 4294967296 in Hlt.
  induction j as [|j IH]; intros fuel arr len H1 H2 H3.
  - assert (E2 : (2 <=? num - 2 * len) = false) by (apply N.leb_gt; lia).
    replace (Nat.ltb fuel 0) with false by (destruct fuel; reflexivity).
    destruct fuel; cbn [src_compress_parents_parallel_loop1];
      (rewrite (mul_small 64) by (change (2 ^ 64) with 18446744073709551616; lia)); cbn [bind]; unfold mi_sub;
      (replace (2 * len <=? num) with true by lia); cbn [bind]; rewrite E2; cbn [fill_ptrs];
      (replace (len + N.of_nat 0) with len by lia); reflexivity.
  - assert (E2 : (2 <=? num - 2 * len) = true) by (apply N.leb_le; lia).
    destruct fuel as [|fuel]; cbn [src_compress_parents_parallel_loop1];
      (rewrite (mul_small 64) by (change (2 ^ 64) with 18446744073709551616; lia)); cbn [bind]; unfold mi_sub;
      (replace (2 * len <=? num) with true by lia); cbn [bind]; rewrite E2; [reflexivity|].
    rewrite (mul_small 64) by (change c_OUT_LEN with 32; change (2 ^ 64) with 18446744073709551616; lia). cbn [bind].
    replace (len <? 16) with true by lia. cbn [check bind].
    rewrite (add_small 64) by (change (2 ^ 64) with 18446744073709551616; lia). cbn [bind].
    rewrite IH by lia. cbn [fill_ptrs]. change (Nat.ltb (S fuel) (S j)) with (Nat.ltb fuel j).
    destruct (Nat.ltb fuel j); [reflexivity|]. change c_OUT_LEN with 32.
    f_equal. f_equal; [|lia]. f_equal; [f_equal; f_equal; f_equal; lia|lia].
Qed.

Theorem src_parents_sim p (WF : plat_wf p) fuel child_cvs ccv key fl out :
  p_max_degree p = c_MAX_SIMD_DEGREE -> length key = 8%nat -> cvs32 child_cvs ->
  firstn (32 * length child_cvs) ccv = concat child_cvs ->
  rsim (CvR out) (c_compress_parents_parallel_with fuel p child_cvs key fl (nlen out / 32))
       (src_compress_parents_parallel (m_c_hash_many p) fuel ccv (nlen_l child_cvs) key fl out).
Proof.
  intros Hmax Hkey H32 Hccv. unfold src_compress_parents_parallel, c_compress_parents_parallel_with. cbv zeta.
  unfold max_degree_or_2. rewrite Hmax. change (N.max c_MAX_SIMD_DEGREE 2) with 16. change (2 * 16) with 32.
  unfold nlen_l. set (num := N.of_nat (length child_cvs)).
  apply rsim_check. intros E2. apply N.leb_le in E2. apply rsim_check. intros E32. apply N.leb_le in E32.
  pose proof (pair_blocks_chunks_of _ H32) as HPB.
  rewrite (chunks_exact_of_seq rs_BLOCK_LEN (concat child_cvs) eq_refl) in HPB. change (N.to_nat rs_BLOCK_LEN) with 64%nat in HPB.
  assert (HlC : length (concat child_cvs) = (32 * length child_cvs)%nat) by apply (concat_length32 _ H32).
  set (k := (length (concat child_cvs) / 64)%nat) in HPB.
  assert (Hk : (length child_cvs = 2 * k + length child_cvs mod 2)%nat).
  { unfold k. rewrite HlC. replace (32 * length child_cvs)%nat with (length child_cvs * 32)%nat by lia.
    change 64%nat with (2 * 32)%nat. rewrite Nat.div_mul_cancel_r by lia. apply Nat.div_mod. lia. }
  pose proof (Nat.mod_upper_bound (length child_cvs) 2 ltac:(lia)) as Hmod.
  destruct (pair_blocks_32 child_cvs H32) as [_ Hodd32].
  destruct (pair_blocks_div2 child_cvs) as [_ Hodd].
  destruct (pair_blocks child_cvs) as [parents odd]. cbn [fst snd] in HPB, Hodd, Hodd32.
  pose proof (f_equal fst HPB) as Hpar. pose proof (f_equal snd HPB) as Hob. cbn [fst snd] in Hpar, Hob. clear HPB. subst parents.
  rewrite map_length, seq_length.
  rewrite (parents_loop1_eq ccv num ltac:(change (2 ^ 32) with 4294967296; lia) k fuel (repeat [] 16%nat) 0) by (unfold num; lia).
  destruct (Nat.ltb fuel k); cbn [bind rsim]; [reflexivity|].
  replace (N.of_nat k <=? 16) with true by (unfold num in *; lia). cbn [check bind].
  change (0 + N.of_nat k) with (N.of_nat k). change (64 * 0) with 0.
  change (m_c_hash_many p ?a ?n ?b) with (m_hash_many p (map (firstn (N.to_nat (b * 64))) (firstn (N.to_nat n) a))).
  replace (map (firstn (N.to_nat (1 * 64))) (firstn (N.to_nat (N.of_nat k)) (fill_ptrs 64 ccv (repeat [] 16%nat) 0 0 k)))
    with (map (piece_at 64 (concat child_cvs)) (seq 0 k)).
  2:{ rewrite Nat2N.id. pose proof (fill_ptrs_firstn 64 ccv k (repeat [] 16%nat) 0 0) as HF.
      change (N.to_nat 0) with 0%nat in HF. cbn [Nat.add firstn app] in HF.
      rewrite HF by (rewrite repeat_length; unfold num in *; lia).
      rewrite map_map. apply map_ext_in. intros i Hi. apply in_seq in Hi.
      rewrite <- Hccv. rewrite piece_at_firstn by lia. unfold piece_at. change (N.to_nat (1 * 64)) with 64%nat. f_equal. f_equal. lia. }
  apply (rsim_bind _ _ _ _ _ _ (hash_many_sim p WF _ key 0 false _ 0 0 out Hkey)). intros cvs o HC.
  unfold nlen_l in HC. rewrite map_length, seq_length in HC.
  rewrite (mul_small 64) by (change (2 ^ 64) with 18446744073709551616; unfold num in *; lia). cbn [bind].
  destruct odd as [cv|].
  - assert (Hm1 : (length child_cvs mod 2 = 1)%nat) by exact Hodd.
    replace (2 * N.of_nat k <? num) with true by (unfold num; lia). cbn [bind].
    rewrite !(mul_small 64) by (change c_OUT_LEN with 32; change (2 ^ 64) with 18446744073709551616; unfold num in *; lia). cbn [bind].
    change c_OUT_LEN with 32. cbn [odd_bytes] in Hob.
    replace (firstn 32 (skipn (N.to_nat (2 * N.of_nat k * 32)) ccv)) with cv
      by (rewrite <- Hob, <- Hccv, skipn_firstn_comm; f_equal; [lia|f_equal; lia]).
    apply (CvR_push out cvs o _ cv cv 304 HC); [unfold num in *; word_lia|]. intros _. split; [reflexivity|exact (Hodd32 cv eq_refl)].
  - assert (Hm0 : (length child_cvs mod 2 = 0)%nat) by exact Hodd.
    replace (2 * N.of_nat k <? num) with false by (unfold num; lia). apply rsim_ret. exact HC.
Qed.

(* the model's flags for reads of stack bytes nobody wrote: no counterpart in the C text *)
Definition uninit_flag {A} (r : res A) : Prop := r = Panic 306 \/ r = Panic 307 \/ r = Panic 309.

Lemma uninit_flag_bind {A B} (m : res A) (k : A -> res B) : uninit_flag m -> uninit_flag (bind m k).
Proof. intros [H|[H|H]]; rewrite H; cbn [bind]; unfold uninit_flag; auto. Qed.

Definition rsimU {A B} (R : A -> B -> Prop) (m : res A) (s : res B) : Prop := uninit_flag m \/ rsim R m s.

Lemma rsimU_bind {A B A' B'} (R : A -> B -> Prop) (Q : A' -> B' -> Prop) m s k k' :
  rsimU R m s -> (forall a b, R a b -> rsimU Q (k a) (k' b)) -> rsimU Q (bind m k) (bind s k').
Proof.
  intros [HF|H] Hk; [left; apply uninit_flag_bind, HF|].
  destruct s as [b| |]; cbn [rsim] in H; [destruct H as (a & -> & HR); apply Hk, HR|right; rewrite H; reflexivity..].
Qed.

Lemma rsimU_same {A B C} (R : A -> B -> Prop) (m : res C) k k' :
  (forall c, m = Ok c -> rsimU R (k c) (k' c)) -> rsimU R (bind m k) (bind m k').
Proof. destruct m; intros H; [apply H|right..]; reflexivity. Qed.

Lemma rsimU_check {A B} (R : A -> B -> Prop) (b : bool) c (k : unit -> res A) (k' : unit -> res B) :
  (b = true -> rsimU R (k tt) (k' tt)) -> rsimU R (bind (check b c) k) (bind (check b c) k').
Proof. intros H. destruct b; [exact (H eq_refl)|right; reflexivity]. Qed.

(* an assert of the model that the C text does not have: a read of stack bytes nobody wrote *)
Lemma rsimU_flag {A B} (R : A -> B -> Prop) (b : bool) c (k : unit -> res A) (s : res B) :
  c = 306 \/ c = 307 \/ c = 309 -> (b = true -> rsimU R (k tt) s) -> rsimU R (bind (check b c) k) s.
Proof.
  intros Hc H. destruct b; [exact (H eq_refl)|]. left. cbn [check bind].
  destruct Hc as [Hc|[Hc|Hc]]; rewrite Hc; unfold uninit_flag; auto.
Qed.

Lemma rsimU_CvR_eq out m s : rsimU (CvR out) m s ->
  uninit_flag m \/ s = res_map (fun cvs => (arr_store out 0 (concat cvs), nlen_l cvs)) m.
Proof. intros [H|H]; [left; exact H|right; exact (CvR_eq_c out m s H)]. Qed.

Lemma rsimU_id_eq {A} (P : A -> Prop) (m s : res A) : rsimU (img (fun a => a) P) m s -> uninit_flag m \/ s = m.
Proof. intros [H|H]; [left; exact H|right]. rewrite (rsim_eq _ _ _ _ H). apply ResP.res_map_id. reflexivity. Qed.

Theorem src_wide_sim p (WF : plat_wf p) key fl : p_max_degree p = c_MAX_SIMD_DEGREE -> length key = 8%nat ->
  forall fuel input input_len cc out use_tbb, input_len <= nlen input -> nlen input < 2 ^ 64 ->
  rsimU (CvR out)
    (c_compress_subtree_wide_with fuel p (firstn (N.to_nat input_len) input) key cc fl (nlen out / 32))
    (src_blake3_compress_subtree_wide (p_degree p) (m_c_hash_many p) (p_compress_in_place p) fuel input input_len key cc fl out use_tbb).
Proof.
  intros Hmax Hkey. pose proof (wf_deg p WF) as Hdeg.
  assert (Hor : max_degree_or_2 p = 16) by (unfold max_degree_or_2; rewrite Hmax; reflexivity).
  induction fuel as [|fuel IH]; intros input input_len cc out use_tbb Hle Hin;
    cbn [src_blake3_compress_subtree_wide c_compress_subtree_wide_with]; rewrite (nlen_firstn_le _ _ Hle);
    (rewrite (mul_small 64) by (clear -Hdeg; change c_CHUNK_LEN with 1024; word_lia)); cbn [bind];
    (destruct (input_len <=? p_degree p * c_CHUNK_LEN);
     [rewrite ResP.bind_ret_pair; right; apply src_chunks_sim; assumption|]); [right; reflexivity|].
  apply rsimU_same. intros ll _. apply rsimU_same. intros ril Eril. destruct (mi_sub_Ok _ _ _ _ Eril) as [-> Hll].
  apply rsimU_same. intros rcc _. cbv zeta. rewrite Hor.
  set (degree := if (c_CHUNK_LEN <? ll) && (p_degree p =? 1) then 2 else p_degree p).
  replace (if (c_CHUNK_LEN <? ll) && (p_degree p =? 1) then Ok 2 else Ok (p_degree p)) with (Ok degree : res N)
    by (unfold degree; destruct ((c_CHUNK_LEN <? ll) && (p_degree p =? 1)); reflexivity).
  assert (Hdg : degree < 2 ^ 32) by (unfold degree; destruct ((c_CHUNK_LEN <? ll) && (p_degree p =? 1)); [reflexivity|exact Hdeg]).
  cbn [bind]. rewrite (mul_small 64) by (clear -Hdg; change c_OUT_LEN with 32; word_lia). cbn [bind].
  change (N.of_nat (length (repeat 0 1024%nat))) with (32 * 32). change c_OUT_LEN with 32. change (2 * 16) with 32.
  rewrite leb_mul32. apply rsimU_check. intros E305. apply N.leb_le in E305.
  set (cv0 := repeat 0 1024%nat).
  (* right_cvs = &cv_array[degree * BLAKE3_OUT_LEN]: the two recursive calls write into lo and ro *)
  set (lo := firstn (N.to_nat (degree * 32)) cv0). set (ro := skipn (N.to_nat (degree * 32)) cv0).
  assert (Hlo : length lo = N.to_nat (degree * 32)) by (unfold lo, cv0; rewrite firstn_length, repeat_length; lia).
  assert (Hro : length ro = N.to_nat ((32 - degree) * 32)) by (unfold ro, cv0; rewrite skipn_length, repeat_length; lia).
  rewrite firstn_firstn_le, skipn_firstn_comm by lia.
  replace (N.to_nat input_len - N.to_nat ll)%nat with (N.to_nat (input_len - ll)) by lia.
  pose proof (IH input ll cc lo use_tbb ltac:(lia) Hin) as HLs. rewrite (nlen_div32 lo degree Hlo) in HLs.
  apply (rsimU_bind _ _ _ _ _ _ HLs). intros lcvs [l ln] HL.
  pose proof (IH (skipn (N.to_nat ll) input) (input_len - ll) rcc ro use_tbb
           ltac:(unfold nlen in *; rewrite skipn_length; lia) ltac:(unfold nlen in *; rewrite skipn_length; lia)) as HRs.
  rewrite (nlen_div32 ro (32 - degree) Hro) in HRs. apply (rsimU_bind _ _ _ _ _ _ HRs).
  intros rcvs [r rn] HR. clear IH.
  destruct (CvR_front _ _ _ _ HL) as (_ & -> & _). destruct (CvR_front _ _ _ _ HR) as (_ & -> & _).
  apply rsimU_flag; [left; reflexivity|]. intros E306. apply N.eqb_eq in E306.
  destruct (CvR_join lo ro lcvs rcvs l r _ _ HL HR ltac:(unfold nlen_l in E306; lia)) as [Hjoin H32].
  destruct (nlen_l lcvs =? 1) eqn:E1.
  - apply rsimU_flag; [right; left; reflexivity|]. intros E307. apply N.eqb_eq in E1. apply N.leb_le in E307.
    change (0 + 64 <=? N.of_nat (length out)) with (1 * 32 + 32 <=? N.of_nat (length out)). rewrite fits_cv.
    apply rsimU_check. intros E308. apply N.leb_le in E308. right. apply rsim_ret.
    apply (CvR_take out (l ++ r) (lcvs ++ rcvs) 2 H32 Hjoin); [rewrite app_length; unfold nlen_l in *; lia|exact E308].
  - rewrite (add_small 64) by (destruct HR as (_ & _ & Hrc); rewrite (nlen_div32 ro _ Hro) in Hrc; clear -E306 E305 Hrc; word_lia). cbn [bind]. rewrite ResP.bind_ret_pair.
    replace (nlen_l lcvs + nlen_l rcvs) with (nlen_l (lcvs ++ rcvs)) by (unfold nlen_l; rewrite app_length; lia).
    right; apply src_parents_sim; assumption.
Qed.

Lemma c_tpn_loop_sim p (WF : plat_wf p) key fl : p_max_degree p = c_MAX_SIMD_DEGREE -> length key = 8%nat ->
  forall fuel cvs ca oa k, Holds 512 cvs ca k -> nlen_l cvs <= 16 -> length oa = 256%nat ->
  rsim (fun cvs' '(ca', k', _) => Holds 512 cvs' ca' k')
    (c_condense_loop_with fuel p cvs key fl) (src_compress_subtree_to_parent_node_loop1 (m_c_hash_many p) fuel key fl ca k oa).
Proof.
  intros Hmax Hkey. assert (Hor : max_degree_or_2 p = 16) by (unfold max_degree_or_2; rewrite Hmax; reflexivity).
  induction fuel as [|fuel IH]; intros cvs ca oa k HH Hn Hoa; pose proof HH as (-> & Hca & Hfirst & H32);
    cbn [c_condense_loop_with src_compress_subtree_to_parent_node_loop1]; rewrite N.ltb_antisym;
    (destruct (nlen_l cvs <=? 2); cbn [negb]; [apply rsim_ret; exact HH|]); [reflexivity|].
  pose proof (src_parents_sim p WF fuel cvs ca key fl oa Hmax Hkey H32 Hfirst) as HP.
  replace (nlen oa / 32) with (max_degree_or_2 p / 2) in HP by (unfold nlen; rewrite Hoa, Hor; reflexivity).
  apply (rsim_bind _ _ _ _ _ _ HP). intros outs [o n] HC.
  assert (Hocap : nlen_l outs <= 8) by (destruct HC as (_ & _ & Hc); unfold nlen in Hc; rewrite Hoa in Hc; exact Hc).
  destruct (CvR_front _ _ _ _ HC) as (Hlo & En & _). rewrite (mul_small 64) by (subst n; clear -Hocap; change c_OUT_LEN with 32; word_lia).
  cbn [bind]. change c_OUT_LEN with 32.
  apply IH; [apply (Holds_copy 512 ca oa outs o n HC Hca); unfold nlen_l in Hocap; lia|lia|rewrite Hlo; exact Hoa].
Qed.

Theorem src_tpn_sim p (WF : plat_wf p) fuel input input_len key cc fl out use_tbb :
  p_max_degree p = c_MAX_SIMD_DEGREE -> length key = 8%nat -> length out = 64%nat ->
  input_len <= nlen input -> nlen input < 2 ^ 64 ->
  rsimU (img (fun a => a) (fun a => length a = 64%nat))
    (c_compress_subtree_to_parent_node_with fuel p (firstn (N.to_nat input_len) input) key cc fl)
    (src_compress_subtree_to_parent_node (p_degree p) (m_c_hash_many p) (p_compress_in_place p) fuel input input_len key cc fl
       out use_tbb).
Proof.
  intros Hmax Hkey Hout Hle Hin. assert (Hor : max_degree_or_2 p = 16) by (unfold max_degree_or_2; rewrite Hmax; reflexivity).
  unfold src_compress_subtree_to_parent_node, c_compress_subtree_to_parent_node_with.
  rewrite (nlen_firstn_le _ _ Hle), Hor. apply rsimU_check. intros _. set (cv0 := repeat 0 512%nat).
  apply (rsimU_bind _ _ _ _ _ _ (src_wide_sim p WF key fl Hmax Hkey fuel input input_len cc cv0 use_tbb Hle Hin)).
  intros cvs [ca n] HC. destruct (CvR_front _ _ _ _ HC) as (Hca & -> & Hfirst). pose proof HC as (_ & H32 & Hcap).
  change c_MAX_SIMD_DEGREE_OR_2 with 16. apply rsimU_check. intros _. change (2 <? 16) with true. cbv iota.
  apply (rsimU_bind (fun cvs' '(ca', k') => Holds 512 cvs' ca' k')).
  { right. refine (rsim_bind_r _ _ _ _ _ (c_tpn_loop_sim p WF key fl Hmax Hkey fuel cvs ca (repeat 0 256%nat) _ _ Hcap eq_refl) _).
    - split; [reflexivity|]. split; [exact Hca|]. split; [exact Hfirst|exact H32].
    - intros cvs' [[ca' k'] oa'] HH. apply rsim_ret. exact HH. }
  intros cvs' [ca' k'] (_ & Hca' & Hf' & H32').
  destruct cvs' as [|a [|b tl]]; [left; right; right; reflexivity..|]. right. apply rsim_ret.
  assert (Hab : firstn 64 ca' = a ++ b).
  { change 64%nat with (32 * 2)%nat. rewrite <- (firstn_firstn_le (32 * 2) (32 * length (a :: b :: tl)) ca'), Hf', (concat_firstn32 _ H32') by (cbn [length]; lia). cbn [firstn concat]. rewrite app_nil_r. reflexivity. }
  assert (Hl : length (a ++ b) = 64%nat) by (rewrite <- Hab, firstn_length; lia).
  rewrite Hab, arr_store_whole by lia. split; [reflexivity|exact Hl].
Qed.

Definition c_merge_cv_stack_with (fuel : nat) (p : platform) (h : c_hasher) (total_len : N) : res c_hasher :=
  post <- c_popcnt total_len ;;
  c_merge_loop fuel p h post.

Definition c_push_cv_with (fuel : nat) (p : platform) (h : c_hasher) (new_cv : list N) (chunk_counter : N) : res c_hasher :=
  h <- c_merge_cv_stack_with fuel p h chunk_counter ;;
  assert! (ch_stack_len h <? c_cv_stack_slots) code 322 ;;
  len' <- mi_add 8 (ch_stack_len h) 1 ;;
  Ok (mkCH (ch_key h) (ch_chunk h) len' (upd_nth (N.to_nat (ch_stack_len h)) new_cv (ch_stack h))).

Fixpoint c_update_loop_with (fuel : nat) (p : platform) (h : c_hasher) (input : list N) : res (c_hasher * list N) :=
  if nlen input <=? c_CHUNK_LEN then Ok (h, input)
  else match fuel with
  | O => OutOfFuel
  | S fuel' =>
      let cs := ch_chunk h in
      subtree_len <- c_round_down_to_power_of_2 (nlen input) ;;
      count_so_far <- c_count_so_far (cs_ctr cs) ;;
      subtree_len <- c_shrink_loop fuel' subtree_len count_so_far ;;
      subtree_chunks <- c_subtree_chunks subtree_len ;;
      assert! (subtree_len <=? nlen input) code 323 ;;
      h <- (if subtree_len <=? c_CHUNK_LEN then
              let cs0 := c_cs_init (ch_key h) (cs_flags cs) in
              let cs0 := mkCS (cs_cv cs0) (cs_ctr cs) (cs_buf cs0) (cs_buf_len cs0) (cs_blocks cs0) (cs_flags cs0) in
              cs1 <- c_cs_update_with fuel' p cs0 (firstn (N.to_nat subtree_len) input) ;;
              c_push_cv_with fuel' p h (c_output_chaining_value p (c_cs_output cs1)) (cs_ctr cs1)
            else
              cv_pair <- c_compress_subtree_to_parent_node_with fuel' p (firstn (N.to_nat subtree_len) input) (ch_key h)
                           (cs_ctr cs) (cs_flags cs) ;;
              h <- c_push_cv_with fuel' p h (firstn 32 cv_pair) (cs_ctr cs) ;;
              rc <- c_right_cv_counter (cs_ctr cs) subtree_chunks ;;
              c_push_cv_with fuel' p h (firstn 32 (skipn 32 cv_pair)) rc) ;;
      ctr' <- mi_add 64 (cs_ctr cs) subtree_chunks ;;
      let cs' := mkCS (cs_cv cs) ctr' (cs_buf cs) (cs_buf_len cs) (cs_blocks cs) (cs_flags cs) in
      c_update_loop_with fuel' p (ch_with_chunk h cs') (skipn (N.to_nat subtree_len) input)
  end.

Definition c_hasher_update_with (fuel : nat) (p : platform) (h : c_hasher) (input : list N) : res c_hasher :=
  if nlen input =? 0 then Ok h else
  clen <- c_cs_len (ch_chunk h) ;;
  r <- (if 0 <? clen then
          take <- mi_sub 64 c_CHUNK_LEN clen ;;
          let take := N.min take (nlen input) in
          cs <- c_cs_update_with fuel p (ch_chunk h) (firstn (N.to_nat take) input) ;;
          let input := skipn (N.to_nat take) input in
          if 0 <? nlen input then
            let chunk_cv := c_output_chaining_value p (c_cs_output cs) in
            h <- c_push_cv_with fuel p (ch_with_chunk h cs) chunk_cv (cs_ctr cs) ;;
            ctr' <- mi_add 64 (cs_ctr cs) 1 ;;
            Ok (ch_with_chunk h (c_cs_reset cs (ch_key h) ctr'), input, false)
          else Ok (ch_with_chunk h cs, input, true)
        else Ok (h, input, false)) ;;
  let '(h, input, done) := r in
  if done then Ok h else
  '(h, input) <- c_update_loop_with fuel p h input ;;
  if 0 <? nlen input then
    cs <- c_cs_update_with fuel p (ch_chunk h) input ;;
    c_merge_cv_stack_with fuel p (ch_with_chunk h cs) (cs_ctr cs)
  else Ok h.

Lemma merge_with_sim p fuel (self : src_flat_hasher) total_len : compress_len8 p -> flat_shape self ->
  rsim (FlatR self) (c_merge_cv_stack_with fuel p (hasher_of_flat self) total_len)
       (src_hasher_merge_cv_stack (p_compress_in_place p) fuel self total_len).
Proof. exact (merge_sim p fuel self total_len). Qed.

(* hasher_push_cv copies BLAKE3_OUT_LEN bytes of new_cv: a longer array may be passed *)
Lemma push_with_sim p fuel (self : src_flat_hasher) new_cv cv cc :
  compress_len8 p -> flat_shape self -> length cv = 32%nat -> firstn 32 new_cv = cv ->
  rsim (FlatR self) (c_push_cv_with fuel p (hasher_of_flat self) cv cc)
       (src_hasher_push_cv (p_compress_in_place p) fuel self new_cv cc).
Proof.
  intros HP HS Hn Hf. apply (rsim_bind (FlatR self)); [apply merge_with_sim; assumption|].
  intros h s HR. apply push_cv_tail_sim; assumption.
Qed.

Lemma src_hasher_push_cv_with p fuel (self : src_flat_hasher) new_cv chunk_counter :
  compress_len8 p -> flat_shape self -> length new_cv = 32%nat ->
  res_map hasher_of_flat (src_hasher_push_cv (p_compress_in_place p) fuel self new_cv chunk_counter)
  = c_push_cv_with fuel p (hasher_of_flat self) new_cv chunk_counter.
Proof.
  intros HP HS Hn. apply (rsim_res_map (FlatR self)); [intros h s H; apply H|].
  apply push_with_sim; [exact HP|exact HS|exact Hn|apply firstn_all2; lia].
Qed.

Lemma c_shrink_loop_le : forall fuel sl csf sl', c_shrink_loop fuel sl csf = Ok sl' -> sl' <= sl.
Proof.
  induction fuel as [|fuel IH]; intros sl csf sl' H; cbn [c_shrink_loop] in H;
    destruct (c_shrink_cond sl csf) as [[|]| |]; cbn [bind] in H; try discriminate; try (inversion H; lia).
  apply IH in H. pose proof (N.div_le_upper_bound sl 2 sl ltac:(discriminate) ltac:(lia)). lia.
Qed.

Lemma src_shrink_loop_eq : forall fuel sl csf, sl < 2 ^ 64 ->
  src_blake3_hasher_update_base_loop2 fuel sl csf = c_shrink_loop fuel sl csf.
Proof.
  induction fuel as [|fuel IH]; intros sl csf Hsl; cbn [src_blake3_hasher_update_base_loop2 c_shrink_loop];
    unfold c_shrink_cond, mcmp, mb, mu, mi_and; cbn [bind]; destruct (mi_sub 64 sl 1) as [t| |] eqn:Et; cbn [bind]; try reflexivity;
    (assert (Htl : t < 2 ^ 64) by (destruct (mi_sub_Ok _ _ _ _ Et) as [-> _]; lia));
    rewrite (cast_small 64 _ Htl); cbn [bind]; unfold nneb; destruct (N.land t csf =? 0); cbn [negb]; try reflexivity.
  apply IH. pose proof (N.div_le_upper_bound sl 2 sl ltac:(discriminate) ltac:(lia)). lia.
Qed.

Lemma hasher_of_flat_set_chunk (s : src_flat_hasher) c :
  hasher_of_flat (set_blake3_hasher_chunk s c) = ch_with_chunk (hasher_of_flat s) (cs_of_src c).
Proof. destruct s; reflexivity. Qed.

Lemma flat_shape_set_chunk (s : src_flat_hasher) c : flat_shape s -> cs_shape c -> flat_shape (set_blake3_hasher_chunk s c).
Proof. intros [[Hk _] Hst] Hc. destruct s. split; [split; assumption|exact Hst]. Qed.

Lemma push_chunk_sim p (WF : plat_wf p) fuel (self : src_flat_hasher) cs : flat_shape self -> cs_shape cs ->
  rsim (FlatR self)
    (c_push_cv_with fuel p (hasher_of_flat self) (c_output_chaining_value p (c_cs_output (cs_of_src cs))) (cs_ctr (cs_of_src cs)))
    (src_hasher_push_cv (p_compress_in_place p) fuel self
       (src_output_chaining_value (p_compress_in_place p) (src_chunk_state_output cs) (repeat 0 32%nat))
       (blake3_chunk_state_chunk_counter cs)).
Proof.
  intros HS Hcs. rewrite (src_chunk_cv p WF cs (repeat 0 32%nat) Hcs eq_refl). pose proof (c_chunk_cv_len p WF cs Hcs) as Hcv.
  apply push_with_sim; [apply wf_len8; exact WF|exact HS|exact Hcv|apply firstn_all2; lia].
Qed.

Definition LoopR (x : c_hasher * list N) (y : src_flat_hasher * N * list N) : Prop :=
  let '(s, n, i) := y in x = (hasher_of_flat s, firstn (N.to_nat n) i) /\ flat_shape s /\ n <= nlen i /\ nlen i < 2 ^ 64.

Lemma src_update_loop_sim p (WF : plat_wf p) use_tbb : p_max_degree p = c_MAX_SIMD_DEGREE ->
  forall fuel (self : src_flat_hasher) input input_len, flat_shape self -> input_len <= nlen input -> nlen input < 2 ^ 64 ->
  rsimU LoopR (c_update_loop_with fuel p (hasher_of_flat self) (firstn (N.to_nat input_len) input))
    (src_blake3_hasher_update_base_loop1 (p_compress_in_place p) (p_degree p) (m_c_hash_many p) fuel self input_len use_tbb input).
Proof.
  intros Hmax. pose proof (wf_len8 p WF) as HP.
  induction fuel as [|fuel IH]; intros self input input_len HS Hle Hin;
    cbn [src_blake3_hasher_update_base_loop1 c_update_loop_with];
    (replace (nlen (firstn (N.to_nat input_len) input)) with input_len by (unfold nlen in *; rewrite firstn_length; lia));
    rewrite N.ltb_antisym; destruct (input_len <=? c_CHUNK_LEN) eqn:Elen; cbn [negb];
    try (right; apply rsim_ret; exact (conj eq_refl (conj HS (conj Hle Hin)))); try (right; reflexivity).
  apply N.leb_gt in Elen. change c_CHUNK_LEN with 1024 in *.
  assert (Hil : input_len < 2 ^ 64) by (unfold nlen in *; lia).
  rewrite (CFormulasP.c_round_down_spec input_len ltac:(lia) Hil). cbn [bind].
  assert (Hsl0 : 2 ^ N.log2 input_len <= input_len) by (apply N.log2_spec; lia).
  pose proof HS as [[Hk Hcs] Hst].
  change (ch_key (hasher_of_flat self)) with (blake3_hasher_key self).
  change (cs_flags (ch_chunk (hasher_of_flat self))) with (blake3_chunk_state_flags (blake3_hasher_chunk self)).
  change (cs_ctr (ch_chunk (hasher_of_flat self))) with (blake3_chunk_state_chunk_counter (blake3_hasher_chunk self)).
  set (KEY := blake3_hasher_key self) in *. set (FL := blake3_chunk_state_flags (blake3_hasher_chunk self)).
  set (CTR := blake3_chunk_state_chunk_counter (blake3_hasher_chunk self)).
  change (mi_mul 64 CTR 1024) with (c_count_so_far CTR). apply rsimU_same. intros csf _.
  rewrite src_shrink_loop_eq by lia. apply rsimU_same. intros sl Esh. apply c_shrink_loop_le in Esh.
  rewrite CFormulasP.c_subtree_chunks_spec. cbn [bind].
  replace (sl <=? input_len) with true by lia. cbn [check bind]. cbv zeta.
  rewrite !firstn_firstn_le by lia.
  apply (rsimU_bind (FlatR self)).
  - destruct (sl <=? 1024) eqn:Esl.
    + (* one chunk *)
      right. destruct (src_fresh_chunk_state KEY FL CTR Hk) as [HS0 HshS0].
      set (S0 := set_blake3_chunk_state_chunk_counter _ CTR) in *.
      change (mkCS _ CTR _ _ _ _) with (mkCS KEY CTR c_zero_block 0 0 FL). rewrite <- HS0.
      apply (rsim_bind CsR); [apply csu_with_sim; [exact WF|exact HshS0|lia]|]. intros cs s1 [-> Hs1].
      apply rsim_ret_r, push_chunk_sim; assumption.
    + (* a subtree: two CVs *)
      apply (rsimU_bind _ _ _ _ _ _ (src_tpn_sim p WF fuel input sl KEY CTR FL (repeat 0 64%nat) use_tbb Hmax Hk eq_refl ltac:(lia) Hin)).
      intros pair ? [-> Hpl]. right.
      apply (rsim_bind (FlatR self)); [apply push_with_sim; [exact HP|exact HS|rewrite firstn_length; lia|reflexivity]|].
      intros h1 s1 (-> & HS1 & A1 & B1). rewrite A1. fold CTR.
      change (mi_add 64 CTR (sl / 1024 / 2)) with (c_right_cv_counter CTR (sl / 1024)). apply rsim_same. intros rc _.
      apply rsim_ret_r. refine (rsim_impl _ _ _ _ _ (push_with_sim p fuel s1 _ _ rc HP HS1 _ (firstn_firstn _ _ _))).
      * intros h2 s2 (E & HS2 & A2 & B2). repeat split; [exact E|apply HS2..|congruence|congruence].
      * rewrite firstn_length, skipn_length. lia.
  - intros h s' (-> & HS' & Hch' & Hk'). rewrite Hch'. fold CTR. apply rsimU_same. intros ctr' _.
    unfold mi_sub. replace (sl <=? input_len) with true by lia. cbn [bind].
    rewrite skipn_firstn_comm. replace (N.to_nat input_len - N.to_nat sl)%nat with (N.to_nat (input_len - sl)) by lia.
    refine (eq_ind _ (fun h => rsimU LoopR (c_update_loop_with fuel p h _) _)
              (IH (set_blake3_hasher_chunk s' (set_blake3_chunk_state_chunk_counter (blake3_hasher_chunk self) ctr'))
                  (skipn (N.to_nat sl) input) (input_len - sl) _ _ _) _ (hasher_of_flat_set_chunk _ _)).
    + apply flat_shape_set_chunk; [exact HS'|]. destruct Hcs as [A B]. destruct (blake3_hasher_chunk self); split; assumption.
    + unfold nlen in *. rewrite skipn_length. lia.
    + unfold nlen in *. rewrite skipn_length. lia.
Qed.

Lemma min_if a b : (if b <? a then b else a) = N.min a b.
Proof. destruct (b <? a) eqn:E; [apply N.ltb_lt in E|apply N.ltb_ge in E]; lia. Qed.

(* the subtree loop, the final partial chunk and the extra merge *)
Lemma src_update_tail_sim p (WF : plat_wf p) use_tbb fuel (s1 : src_flat_hasher) in1 n1 :
  p_max_degree p = c_MAX_SIMD_DEGREE -> flat_shape s1 -> n1 <= nlen in1 -> nlen in1 < 2 ^ 64 ->
  rsimU (fun h s => h = hasher_of_flat s)
    ('(h, input) <- c_update_loop_with fuel p (hasher_of_flat s1) (firstn (N.to_nat n1) in1) ;;
     if 0 <? nlen input then
       cs <- c_cs_update_with fuel p (ch_chunk h) input ;;
       c_merge_cv_stack_with fuel p (ch_with_chunk h cs) (cs_ctr cs)
     else Ok h)
    ('(self, input_len, input_bytes) <- src_blake3_hasher_update_base_loop1 (p_compress_in_place p) (p_degree p)
                                          (m_c_hash_many p) fuel s1 n1 use_tbb in1 ;;
     self <- (if (0 <? input_len) then
         t11 <- src_chunk_state_update (p_compress_in_place p) fuel (blake3_hasher_chunk self) input_bytes input_len ;;
         let self := set_blake3_hasher_chunk self t11 in
         self <- src_hasher_merge_cv_stack (p_compress_in_place p) fuel self
                   (blake3_chunk_state_chunk_counter (blake3_hasher_chunk self)) ;;
         Ok self
       else Ok self) ;;
     Ok self).
Proof.
  intros Hmax HS1 Hle1 Hin1.
  apply (rsimU_bind _ _ _ _ _ _ (src_update_loop_sim p WF use_tbb Hmax fuel s1 in1 n1 HS1 Hle1 Hin1)).
  intros [h rest] [[s2 n2] in2] (E & HS2 & Hle2 & Hin2). injection E as -> ->. right.
  replace (nlen (firstn (N.to_nat n2) in2)) with n2 by (unfold nlen in *; rewrite firstn_length; lia).
  apply rsim_ret_r. destruct (0 <? n2); [|apply rsim_ret; reflexivity].
  apply (rsim_bind CsR); [apply csu_with_sim; [exact WF|apply HS2|exact Hle2]|]. intros cs c3 [-> Hc3]. cbv zeta.
  rewrite <- hasher_of_flat_set_chunk. apply rsim_ret_r.
  refine (rsim_impl _ _ _ _ _ (merge_with_sim p fuel (set_blake3_hasher_chunk s2 c3) _ (wf_len8 p WF) (flat_shape_set_chunk s2 c3 HS2 Hc3))).
  intros h s HR. apply HR.
Qed.

Theorem src_blake3_hasher_update_base_eq p (WF : plat_wf p) fuel (self : src_flat_hasher) input input_len use_tbb :
  p_max_degree p = c_MAX_SIMD_DEGREE -> flat_shape self -> input_len <= nlen input -> nlen input < 2 ^ 64 ->
  uninit_flag (c_hasher_update_with fuel p (hasher_of_flat self) (firstn (N.to_nat input_len) input)) \/
  res_map hasher_of_flat
    (src_blake3_hasher_update_base (p_compress_in_place p) (p_degree p) (m_c_hash_many p) fuel self input input_len use_tbb)
  = c_hasher_update_with fuel p (hasher_of_flat self) (firstn (N.to_nat input_len) input).
Proof.
  intros Hmax HS Hle Hin. pose proof (wf_len8 p WF) as HP.
  enough (H : rsimU (fun h s => h = hasher_of_flat s)
                (c_hasher_update_with fuel p (hasher_of_flat self) (firstn (N.to_nat input_len) input))
                (src_blake3_hasher_update_base (p_compress_in_place p) (p_degree p) (m_c_hash_many p) fuel self input input_len use_tbb))
    by (destruct H as [H|H]; [left; exact H|right; exact (rsim_res_map _ _ _ _ (fun h s E => E) H)]).
  unfold src_blake3_hasher_update_base, c_hasher_update_with.
  replace (nlen (firstn (N.to_nat input_len) input)) with input_len by (unfold nlen in *; rewrite firstn_length; lia).
  destruct (input_len =? 0); [right; apply rsim_ret; reflexivity|]. cbv zeta.
  change (c_cs_len (ch_chunk (hasher_of_flat self)))
    with (c_chunk_state_len (blake3_chunk_state_blocks_compressed (blake3_hasher_chunk self))
            (blake3_chunk_state_buf_len (blake3_hasher_chunk self))).
  apply rsimU_same. intros clen Eclen.
  apply (rsimU_bind (fun '(h, rest, done) '(s, n, i, early) => LoopR (h, rest) (s, n, i) /\ done = early)).
  2:{ intros [[h rest] done] [[[s n] i] early] [(E & HSs & Hn & Hi) ->]. injection E as -> ->.
      destruct early; [right; apply rsim_ret; reflexivity|]. apply src_update_tail_sim; assumption. }
  right. destruct (0 <? clen); [|apply rsim_ret; exact (conj (conj eq_refl (conj HS (conj Hle Hin))) eq_refl)].
  rewrite Eclen. cbn [bind]. apply rsim_same. intros want _.
  replace (if input_len <? want then Ok input_len else Ok want) with (Ok (N.min want input_len) : res N)
    by (rewrite <- min_if; destruct (input_len <? want); reflexivity).
  cbn [bind]. set (take := N.min want input_len).
  assert (Htake : take <= input_len) by apply N.le_min_r. clearbody take.
  rewrite firstn_firstn_le by lia.
  apply (rsim_bind CsR); [apply csu_with_sim; [exact WF|apply HS|lia]|]. intros cs c1 [-> Hc1]. cbv zeta.
  unfold mi_sub. replace (take <=? input_len) with true by lia. cbn [bind].
  rewrite skipn_firstn_comm. replace (N.to_nat input_len - N.to_nat take)%nat with (N.to_nat (input_len - take)) by lia.
  replace (nlen (firstn (N.to_nat (input_len - take)) (skipn (N.to_nat take) input))) with (input_len - take)
    by (unfold nlen in *; rewrite firstn_length, skipn_length; lia).
  pose proof (flat_shape_set_chunk self c1 HS Hc1) as HS1. rewrite <- hasher_of_flat_set_chunk.
  assert (Hrest : input_len - take <= nlen (skipn (N.to_nat take) input) /\ nlen (skipn (N.to_nat take) input) < 2 ^ 64)
    by (unfold nlen in *; rewrite skipn_length; lia).
  destruct (0 <? input_len - take); cbn [bind]; [|apply rsim_ret; exact (conj (conj eq_refl (conj HS1 Hrest)) eq_refl)].
  change (blake3_hasher_chunk (set_blake3_hasher_chunk self c1)) with c1. rewrite !bind_assoc.
  apply (rsim_bind (FlatR (set_blake3_hasher_chunk self c1))); [apply push_chunk_sim; assumption|].
  intros h s2 (-> & HS2 & A2 & B2). rewrite A2. change (blake3_hasher_chunk (set_blake3_hasher_chunk self c1)) with c1.
  rewrite bind_assoc. apply rsim_same. intros ctr' _. cbn [bind]. apply rsim_ret.
  assert (Hk2 : length (blake3_hasher_key s2) = 8%nat) by (rewrite B2; apply HS1).
  assert (Hr : cs_of_src (src_chunk_state_reset c1 (blake3_hasher_key s2) ctr') = c_cs_reset (cs_of_src c1) (blake3_hasher_key s2) ctr')
    by (apply src_chunk_state_reset_eq; assumption).
  split; [split; [|split; [|exact Hrest]]|reflexivity].
  - rewrite hasher_of_flat_set_chunk, Hr. reflexivity.
  - apply flat_shape_set_chunk; [exact HS2|]. apply cs_shape_of_src. rewrite Hr. split; [exact Hk2|reflexivity].
Qed.

(* the c_*_with models against Model/CHasher.v: with enough fuel they agree, up to the models' own OutOfFuel.
   16: the pointer-collecting loops make at most MAX_SIMD_DEGREE rounds; 17: that, and the block loop of a chunk at a
   leaf (1024 <= 64 * 16; 17 is the Rust side's bound, GenLibWideP.cs_update_with_small); 81 = wide_fuel (64) + 17 as in
   GenLibWideP.tpn_with_refines; 256 = c_merge_fuel, the model's fuel for the merge loop of push_cv, which covers the 81 *)
Lemma c_cs_update_with_enough p F cs input : (length input <= 64 * F)%nat -> c_cs_update_with F p cs input = c_cs_update p cs input.
Proof. exact (c_cs_update_fuel p F cs input). Qed.

Lemma c_chunks_with_enough p F input key cc fl cap : p_max_degree p <= 16 -> (17 <= F)%nat ->
  c_compress_chunks_parallel_with F p input key cc fl cap = c_compress_chunks_parallel p input key cc fl cap.
Proof.
  intros Hmax HF. unfold c_compress_chunks_parallel_with, c_compress_chunks_parallel.
  destruct (0 <? nlen input); cbn [check bind]; [|reflexivity].
  destruct (nlen input <=? p_max_degree p * c_CHUNK_LEN) eqn:E; cbn [check bind]; [|reflexivity]. apply N.leb_le in E.
  rewrite (chunks_exact_of_seq c_CHUNK_LEN input eq_refl).
  set (CL := N.to_nat c_CHUNK_LEN). assert (HCL : N.of_nat CL = 1024) by reflexivity. clearbody CL.
  rewrite map_length, seq_length. set (k := (length input / CL)%nat).
  assert (Hk : (k <= 16)%nat).
  { apply Nat.div_le_upper_bound; [lia|]. unfold nlen in E. change c_CHUNK_LEN with 1024 in E. lia. }
  replace (Nat.ltb F k) with false by (symmetry; apply Nat.ltb_ge; lia).
  destruct (nlen_l (map (piece_at CL input) (seq 0 k)) <=? p_max_degree p); cbn [check bind]; [|reflexivity].
  destruct (p_hash_many p (map (piece_at CL input) (seq 0 k)) key cc true fl c_flag_CHUNK_START c_flag_CHUNK_END cap);
    cbn [bind]; try reflexivity.
  destruct (0 <? nlen (skipn (CL * k) input)); [|reflexivity].
  destruct (mi_add 64 cc (nlen_l (map (piece_at CL input) (seq 0 k)))); cbn [bind]; try reflexivity.
  rewrite c_cs_update_with_enough; [reflexivity|]. rewrite skipn_length.
  pose proof (Nat.mul_succ_div_gt (length input) CL ltac:(lia)). fold k in H. lia.
Qed.

Lemma c_parents_with_enough p F cvs key fl cap : max_degree_or_2 p <= 16 -> (16 <= F)%nat ->
  c_compress_parents_parallel_with F p cvs key fl cap = c_compress_parents_parallel p cvs key fl cap.
Proof.
  intros Hmax HF. unfold c_compress_parents_parallel_with, c_compress_parents_parallel. cbv zeta.
  destruct (2 <=? nlen_l cvs); cbn [check bind]; [|reflexivity].
  destruct (nlen_l cvs <=? 2 * max_degree_or_2 p) eqn:E; cbn [check bind]; [|reflexivity]. apply N.leb_le in E.
  destruct (pair_blocks_div2 cvs) as [Hpl _]. destruct (pair_blocks cvs) as [parents odd]. cbn [fst] in Hpl.
  replace (Nat.ltb F (length parents)) with false; [reflexivity|]. symmetry. apply Nat.ltb_ge. rewrite Hpl.
  assert (length cvs / 2 <= 16)%nat; [|lia]. apply Nat.div_le_upper_bound; [lia|]. unfold nlen_l in E. lia.
Qed.

Lemma c_wide_with_refines p key fl : p_max_degree p <= 16 -> forall f F input cc cap, (f + 17 <= F)%nat ->
  refines (c_compress_subtree_wide f p input key cc fl cap) (c_compress_subtree_wide_with F p input key cc fl cap).
Proof.
  intros Hmax. assert (Hor : max_degree_or_2 p <= 16) by (unfold max_degree_or_2; lia).
  induction f as [|f IH]; intros F input cc cap HF.
  - destruct F as [|F]; [lia|]. cbn [c_compress_subtree_wide c_compress_subtree_wide_with].
    destruct (nlen input <=? p_degree p * c_CHUNK_LEN); [|left; reflexivity].
    rewrite c_chunks_with_enough by (assumption || lia). apply refines_refl.
  - destruct F as [|F]; [lia|]. cbn [c_compress_subtree_wide c_compress_subtree_wide_with].
    destruct (nlen input <=? p_degree p * c_CHUNK_LEN).
    { rewrite c_chunks_with_enough by (assumption || lia). apply refines_refl. }
    apply refines_bind; [apply refines_refl|intros ll]. apply refines_bind; [apply refines_refl|intros ril].
    apply refines_bind; [apply refines_refl|intros rc]. cbv zeta. apply refines_check; intros _.
    apply refines_bind; [apply IH; lia|intros lcvs]. apply refines_bind; [apply IH; lia|intros rcvs].
    apply refines_check; intros _. destruct (nlen_l lcvs =? 1); [apply refines_refl|].
    rewrite c_parents_with_enough by (assumption || lia). apply refines_refl.
Qed.

Lemma c_condense_with_refines p key fl : max_degree_or_2 p <= 16 -> forall f F cvs, (f + 17 <= F)%nat ->
  refines (c_condense_loop f p cvs key fl) (c_condense_loop_with F p cvs key fl).
Proof.
  intros Hor. induction f as [|f IH]; intros F cvs HF.
  - destruct F as [|F]; [lia|]. cbn [c_condense_loop c_condense_loop_with]. destruct (nlen_l cvs <=? 2); [apply refines_refl|left; reflexivity].
  - destruct F as [|F]; [lia|]. cbn [c_condense_loop c_condense_loop_with]. destruct (nlen_l cvs <=? 2); [apply refines_refl|].
    rewrite c_parents_with_enough by (assumption || lia). apply refines_bind; [apply refines_refl|intros outs]. apply IH. lia.
Qed.

Lemma c_tpn_with_refines p F input key cc fl : p_max_degree p <= 16 -> (81 <= F)%nat ->
  refines (c_compress_subtree_to_parent_node p input key cc fl) (c_compress_subtree_to_parent_node_with F p input key cc fl).
Proof.
  intros Hmax HF. assert (Hor : max_degree_or_2 p <= 16) by (unfold max_degree_or_2; lia).
  unfold c_compress_subtree_to_parent_node, c_compress_subtree_to_parent_node_with.
  apply refines_check; intros _. apply refines_bind; [apply c_wide_with_refines; [exact Hmax|unfold wide_fuel; lia]|intros cvs].
  apply refines_check; intros _. apply refines_bind; [|intros cvs'; apply refines_refl].
  destruct (2 <? max_degree_or_2 p); [apply c_condense_with_refines; [exact Hor|lia]|apply refines_refl].
Qed.

Lemma c_shrink_loop_mono : forall f F sl csf, (f <= F)%nat -> refines (c_shrink_loop f sl csf) (c_shrink_loop F sl csf).
Proof.
  induction f as [|f IH]; intros F sl csf HF.
  - cbn [c_shrink_loop]. destruct F; cbn [c_shrink_loop]; destruct (c_shrink_cond sl csf) as [[|]| |]; cbn [bind];
      first [apply refines_refl | left; reflexivity].
  - destruct F as [|F]; [lia|]. cbn [c_shrink_loop]. destruct (c_shrink_cond sl csf) as [[|]| |]; cbn [bind];
      try apply refines_refl. apply IH. lia.
Qed.

Lemma c_merge_loop_mono p : forall f F h post, (f <= F)%nat -> refines (c_merge_loop f p h post) (c_merge_loop F p h post).
Proof.
  induction f as [|f IH]; intros F h post HF.
  - cbn [c_merge_loop]. destruct F; cbn [c_merge_loop]; destruct (ch_stack_len h <=? post); first [apply refines_refl | left; reflexivity].
  - destruct F as [|F]; [lia|]. cbn [c_merge_loop]. destruct (ch_stack_len h <=? post); [apply refines_refl|].
    apply refines_check; intros _. cbv zeta. apply refines_check; intros _.
    apply refines_bind; [apply refines_refl|intros len']. apply IH. lia.
Qed.

Lemma c_merge_cv_stack_with_refines p F h tl : (256 <= F)%nat -> refines (c_merge_cv_stack p h tl) (c_merge_cv_stack_with F p h tl).
Proof.
  intros HF. unfold c_merge_cv_stack, c_merge_cv_stack_with. apply refines_bind; [apply refines_refl|intros post].
  apply c_merge_loop_mono. unfold c_merge_fuel. exact HF.
Qed.

Lemma c_push_cv_with_refines p F h cv cc : (256 <= F)%nat -> refines (c_push_cv p h cv cc) (c_push_cv_with F p h cv cc).
Proof.
  intros HF. unfold c_push_cv, c_push_cv_with. apply refines_bind; [apply c_merge_cv_stack_with_refines; exact HF|intros h'].
  apply refines_refl.
Qed.

Lemma c_update_loop_with_refines p : p_max_degree p <= 16 -> forall f F h input, (f + 256 <= F)%nat ->
  refines (c_update_loop f p h input) (c_update_loop_with F p h input).
Proof.
  intros Hmax. induction f as [|f IH]; intros F h input HF.
  - destruct F as [|F]; [lia|]. cbn [c_update_loop c_update_loop_with]. destruct (nlen input <=? c_CHUNK_LEN); [apply refines_refl|left; reflexivity].
  - destruct F as [|F]; [lia|]. cbn [c_update_loop c_update_loop_with]. destruct (nlen input <=? c_CHUNK_LEN); [apply refines_refl|].
    cbv zeta. apply refines_bind; [apply refines_refl|intros sl0]. apply refines_bind; [apply refines_refl|intros csf].
    apply refines_bind; [apply c_shrink_loop_mono; lia|intros sl]. apply refines_bind; [apply refines_refl|intros sc].
    apply refines_check; intros _.
    apply refines_bind.
    + destruct (sl <=? c_CHUNK_LEN) eqn:Esl.
      * apply N.leb_le in Esl. change c_CHUNK_LEN with 1024 in Esl.
        rewrite c_cs_update_with_enough by (rewrite firstn_length; lia).
        apply refines_bind; [apply refines_refl|intros cs1]. apply c_push_cv_with_refines. lia.
      * apply refines_bind; [apply c_tpn_with_refines; [exact Hmax|lia]|intros cv_pair].
        apply refines_bind; [apply c_push_cv_with_refines; lia|intros h1].
        apply refines_bind; [apply refines_refl|intros rc]. apply c_push_cv_with_refines. lia.
    + intros h1. apply refines_bind; [apply refines_refl|intros ctr']. apply IH. lia.
Qed.

Lemma c_update_loop_rest p : forall f h input h' in', c_update_loop f p h input = Ok (h', in') -> nlen in' <= c_CHUNK_LEN.
Proof.
  induction f as [|f IH]; intros h input h' in' H; cbn [c_update_loop] in H.
  - destruct (nlen input <=? c_CHUNK_LEN) eqn:E; [|discriminate H]. injection H as <- <-. apply N.leb_le. exact E.
  - destruct (nlen input <=? c_CHUNK_LEN) eqn:E; [injection H as <- <-; apply N.leb_le; exact E|].
    cbv zeta in H. inv_bind H sl0 E0. inv_bind H csf E1. inv_bind H sl E2. inv_bind H sc E3. inv_check H E4.
    inv_bind H h1 E5. inv_bind H ctr E6. exact (IH _ _ _ _ H).
Qed.

Lemma c_hasher_update_with_refines p F h input : p_max_degree p <= 16 -> (S (length input / 1024) + 256 <= F)%nat ->
  refines (c_hasher_update p h input) (c_hasher_update_with F p h input).
Proof.
  intros Hmax HF. unfold c_hasher_update, c_hasher_update_with.
  set (CL := 1024%nat) in *. assert (HCL : N.of_nat CL = 1024) by reflexivity. clearbody CL.
  destruct (nlen input =? 0); [apply refines_refl|].
  apply refines_bind; [apply refines_refl|intros clen].
  assert (Htail : forall h1 in1, (length in1 <= length input)%nat ->
    refines ('(h, input) <- c_update_loop (S (length in1 / CL)) p h1 in1 ;;
             if 0 <? nlen input then cs <- c_cs_update p (ch_chunk h) input ;; c_merge_cv_stack p (ch_with_chunk h cs) (cs_ctr cs) else Ok h)
            ('(h, input) <- c_update_loop_with F p h1 in1 ;;
             if 0 <? nlen input then cs <- c_cs_update_with F p (ch_chunk h) input ;; c_merge_cv_stack_with F p (ch_with_chunk h cs) (cs_ctr cs)
             else Ok h)).
  { intros h1 in1 Hl.
    pose proof (c_update_loop_with_refines p Hmax (S (length in1 / CL)) F h1 in1) as HR.
    assert (HFl : (S (length in1 / CL) + 256 <= F)%nat).
    { assert (length in1 / CL <= length input / CL)%nat by (apply Nat.div_le_mono; lia). lia. }
    specialize (HR HFl). destruct HR as [HR|HR]; [rewrite HR; left; reflexivity|]. rewrite <- HR.
    destruct (c_update_loop (S (length in1 / CL)) p h1 in1) as [[h2 in2]| |] eqn:El; cbn [bind]; try apply refines_refl.
    pose proof (c_update_loop_rest p _ _ _ _ _ El) as Hr. unfold nlen in Hr. change c_CHUNK_LEN with 1024 in Hr.
    destruct (0 <? nlen in2); [|apply refines_refl].
    rewrite c_cs_update_with_enough by lia. apply refines_bind; [apply refines_refl|intros cs].
    apply c_merge_cv_stack_with_refines. lia. }
  destruct (0 <? clen).
  - destruct (mi_sub 64 c_CHUNK_LEN clen) as [want| |] eqn:Ew; cbn [bind]; try apply refines_refl.
    assert (Hwant : want <= 1024).
    { unfold mi_sub in Ew. destruct (clen <=? c_CHUNK_LEN); [|discriminate]. inversion Ew. change c_CHUNK_LEN with 1024. lia. }
    rewrite c_cs_update_with_enough by (rewrite firstn_length; lia).
    destruct (c_cs_update p (ch_chunk h) (firstn (N.to_nat (N.min want (nlen input))) input)) as [cs| |]; cbn [bind];
      try apply refines_refl.
    destruct (0 <? nlen (skipn (N.to_nat (N.min want (nlen input))) input)).
    + pose proof (c_push_cv_with_refines p F (ch_with_chunk h cs) (c_output_chaining_value p (c_cs_output cs)) (cs_ctr cs) ltac:(lia)) as HP.
      destruct HP as [HP|HP]; rewrite HP; [left; reflexivity|].
      destruct (c_push_cv_with F p (ch_with_chunk h cs) (c_output_chaining_value p (c_cs_output cs)) (cs_ctr cs)) as [h1| |];
        cbn [bind]; try apply refines_refl.
      destruct (mi_add 64 (cs_ctr cs) 1); cbn [bind]; try apply refines_refl.
      apply Htail. rewrite skipn_length. lia.
    + cbn [bind]. apply refines_refl.
  - cbn [bind]. apply Htail. lia.
Qed.

(* blake3_xof_many writes 64 * outblocks bytes from `out` on; blake3_compress_xof fills its 64-byte `out` *)
Definition m_c_xof_many (p : platform) (cv block : list N) (block_len counter flags : N) (out : list N) (outblocks : N)
  : res (list N) :=
  bs <- p_xof_many p cv block block_len counter flags outblocks ;;
  Ok (arr_store out 0 bs).

Definition m_c_compress_xof (p : platform) (cv block : list N) (block_len counter flags : N) (out : list N) : list N :=
  p_compress_xof p cv block block_len counter flags.

(* GenXofP.xof_shape for every 8-word cv and 64-byte block; proved for the platforms with the portable xof kernels
   (xof_wf_portable, sim_platform_xof_wf) and for no other *)
Record xof_wf (p : platform) : Prop := {
  xw_cx : forall cv block bl ctr fl, length cv = 8%nat -> length block = 64%nat ->
          length (p_compress_xof p cv block bl ctr fl) = 64%nat;
  xw_xm : forall cv block bl ctr fl n bs, length cv = 8%nat -> length block = 64%nat ->
          p_xof_many p cv block bl ctr fl n = Ok bs -> length bs = (64 * N.to_nat n)%nat }.

Lemma land_whole n : n < 2 ^ 64 -> N.land n 18446744073709551552 = n / 64 * 64.
Proof.
  intros H. pose proof (c_orb_whole_spec n H) as E. unfold c_orb_whole, mb, mi_and in E. cbn [bind] in E.
  inversion E. reflexivity.
Qed.

(* `out` after the bytes `pre` have been written through it, and the offset of the next write *)
Definition Wr (out pre o : list N) (off : N) : Prop := o = arr_store out 0 pre /\ off = nlen pre /\ nlen pre <= nlen out.

Lemma Wr_len out pre o off : Wr out pre o off -> length o = length out.
Proof. intros (-> & _ & H). apply arr_store_length. unfold nlen in H. lia. Qed.

Lemma Wr_write out pre o off bs : Wr out pre o off -> nlen pre + nlen bs <= nlen out ->
  Wr out (pre ++ bs) (arr_store o (N.to_nat off) bs) (off + nlen bs).
Proof.
  intros (-> & -> & _) H. unfold Wr, nlen in *. rewrite Nat2N.id, arr_store_snoc, app_length by lia.
  split; [reflexivity|]. split; lia.
Qed.

(* a callee that writes from the pointer `out + off` on *)
Lemma Wr_write_at out pre o off bs : Wr out pre o off -> nlen pre + nlen bs <= nlen out ->
  Wr out (pre ++ bs) (firstn (N.to_nat off) o ++ arr_store (skipn (N.to_nat off) o) 0 bs) (off + nlen bs).
Proof.
  intros HW H. rewrite <- arr_store_shift, Nat.add_0_r. exact (Wr_write _ _ _ _ _ HW H).
Qed.

Theorem src_output_root_bytes_sim p (XW : xof_wf p) self seek out out_len :
  length (output_t_input_cv self) = 8%nat -> length (output_t_block self) = 64%nat ->
  seek < 2 ^ 64 -> out_len <= nlen out -> nlen out < 2 ^ 64 ->
  rsim (fun bs o => o = arr_store out 0 bs) (c_output_root_bytes p (output_of_src self) seek out_len)
    (src_output_root_bytes (m_c_compress_xof p) (m_c_xof_many p) self seek out out_len).
Proof.
  intros Hcv Hblk Hseek Hol Hout. rewrite c_output_root_bytes_split. unfold src_output_root_bytes, c_orb_head, c_orb_rest. cbv zeta.
  destruct (out_len =? 0); [apply rsim_ret; reflexivity|]. rewrite c_orb_counter_spec, c_orb_offset_spec. cbn [bind].
  change (o_cv (output_of_src self)) with (output_t_input_cv self). change (o_block (output_of_src self)) with (output_t_block self).
  change (o_blen (output_of_src self)) with (output_t_block_len self). change (o_flags (output_of_src self)) with (output_t_flags self).
  set (FL := N.lor (output_t_flags self) c_flag_ROOT). unfold m_c_compress_xof.
  pose proof (fun ctr => xw_cx p XW _ _ (output_t_block_len self) ctr FL Hcv Hblk) as Hcx.
  assert (Hoff : seek mod 64 < 64) by (apply N.mod_lt; discriminate). set (off := seek mod 64) in *.
  (* the first, partial block *)
  apply (rsim_bind (fun '(head, n, ctr) '(o, n', pos, ctr', _) => Wr out head o pos /\ n' = n /\ ctr' = ctr /\ nlen head + n = out_len)).
  { destruct (off =? 0); cbn [negb]; [apply rsim_ret; repeat split; try reflexivity; apply N.le_0_l|].
    rewrite (c_orb_available_spec off), (sub_small 64 64 off) by lia. cbn [bind].
    set (bytes := if 64 - off <? out_len then 64 - off else out_len).
    assert (Hb : bytes <= 64 - off /\ bytes <= out_len) by (unfold bytes; destruct (64 - off <? out_len) eqn:E;
      [apply N.ltb_lt in E|apply N.ltb_ge in E]; lia).
    unfold nlen. rewrite !Hcx. apply rsim_check. intros _. rewrite check_leb by (unfold nlen in *; lia).
    rewrite (add_small 64 0 bytes), (sub_small 64) by (try apply Hb; clear -Hb Hol Hout; unfold nlen in *; word_lia). cbn [bind].
    apply rsim_same. intros ctr1 _. apply rsim_ret.
    set (head := firstn _ _). assert (Hh : nlen head = bytes) by (unfold head, nlen; rewrite firstn_length, skipn_length, Hcx; lia).
    pose proof (Wr_write out [] out 0 head (conj eq_refl (conj eq_refl (N.le_0_l _))) ltac:(unfold nlen in *; cbn [length]; lia)) as HW.
    rewrite Hh in HW. split; [exact HW|]. split; [reflexivity|]. split; [reflexivity|]. unfold nlen in Hh. lia. }
  intros [[head n] ctr] [[[[o n'] pos] ctr'] wb] (HW & -> & -> & Hsum). assert (Hn : n < 2 ^ 64) by (clear -Hsum Hol Hout; lia).
  rewrite c_orb_blocks_spec, (c_orb_whole_spec n Hn), (land_whole n Hn). cbn [bind].
  pose proof (N.mul_div_le n 64 ltac:(discriminate)) as Hw.
  (* the whole blocks *)
  apply (rsim_bind (fun mid o2 => Wr out (head ++ mid) o2 (pos + n / 64 * 64) /\ nlen mid = n / 64 * 64)).
  { destruct (n / 64 =? 0) eqn:Eb; cbn [negb].
    - apply N.eqb_eq in Eb. rewrite Eb. apply rsim_ret. rewrite app_nil_r, N.add_0_r. split; [exact HW|reflexivity].
    - unfold m_c_xof_many. rewrite bind_assoc. apply rsim_same_r. intros bs Ex. cbn [bind]. apply rsim_ret.
      pose proof (xw_xm p XW _ _ _ _ _ _ _ Hcv Hblk Ex) as Hbl. assert (Hb : nlen bs = n / 64 * 64) by (unfold nlen; lia).
      rewrite <- Hb. split; [|reflexivity]. apply (Wr_write_at out head o pos bs HW). clear -Hb Hw Hsum Hol. lia. }
  intros mid o2 (HW2 & Hmid). apply rsim_same. intros ctr2 _. rewrite Hmid, N.eqb_refl. cbn [check bind].
  pose proof HW as (_ & -> & _). rewrite (add_small 64), (sub_small 64) by (try exact Hw; clear -Hsum Hol Hout Hw; unfold nlen in *; word_lia). cbn [bind].
  (* the last, partial block *)
  destruct (n - n / 64 * 64 =? 0); cbn [negb bind]; [apply rsim_ret; apply HW2|].
  unfold nlen at 1. rewrite !Hcx, bind_assoc. apply rsim_check. intros E312. apply N.leb_le in E312.
  rewrite (Wr_len _ _ _ _ HW2), check_leb by (clear -Hsum Hol Hw; unfold nlen in *; lia). cbn [bind]. apply rsim_ret. rewrite app_assoc.
  refine (let H := Wr_write out (head ++ mid) o2 _ _ HW2 _ in proj1 H).
  unfold nlen in *. rewrite app_length, firstn_length, Hcx. lia.
Qed.

Theorem src_output_root_bytes_eq p (XW : xof_wf p) self seek out out_len :
  length (output_t_input_cv self) = 8%nat -> length (output_t_block self) = 64%nat ->
  seek < 2 ^ 64 -> out_len <= nlen out -> nlen out < 2 ^ 64 ->
  src_output_root_bytes (m_c_compress_xof p) (m_c_xof_many p) self seek out out_len
  = m_output_root_bytes p self seek out out_len.
Proof.
  intros Hcv Hblk Hseek Hol Hout. pose proof (src_output_root_bytes_sim p XW self seek out out_len Hcv Hblk Hseek Hol Hout) as H.
  unfold m_output_root_bytes. destruct (src_output_root_bytes _ _ self seek out out_len) as [o| |]; cbn [rsim] in H;
    [destruct H as (bs & -> & ->)|rewrite H..]; reflexivity.
Qed.

Lemma xof_wf_portable p :
  (forall cv block bl ctr fl, p_compress_xof p cv block bl ctr fl = compress_xof cv block bl ctr fl) ->
  (forall cv block bl ctr fl n, p_xof_many p cv block bl ctr fl n = portable_xof_many cv block bl ctr fl n) -> xof_wf p.
Proof.
  intros Hc Hx. constructor.
  - intros cv block bl ctr fl Hcv Hb. rewrite Hc, Proofs.PortableP.compress_xof_is_spec by assumption.
    rewrite bytes_of_words_length, Proofs.PortableP.compress_length by assumption. reflexivity.
  - intros cv block bl ctr fl n bs Hcv Hb H. rewrite Hx in H. exact (xof_many_footprint cv block bl fl Hcv Hb _ _ _ H).
Qed.

Lemma sim_platform_xof_wf d m : xof_wf (sim_platform d m).
Proof. apply xof_wf_portable; reflexivity. Qed.
