(* The portable compression function as TRANSLATED from the source text (gen/GenPortable.v:
   src/portable.rs, src/platform.rs byte/word conversions, c/blake3_portable.c, statement by
   statement, array-indexed) equals the hand-written model Model/Portable.v, for all words.
   Nothing here is tested on particular inputs: states are 16 symbolic words, chaining values 8,
   blocks 64 symbolic bytes. *)
From Coq Require Import NArith List Bool Lia Arith.
From V Require Import Base.Res Base.Word Base.MachInt Base.Arr gen.GenConsts gen.GenFormulas
  gen.GenPortable Model.Portable Proofs.ListP Proofs.PortableP.
Import ListNotations.
Open Scope N_scope.

Lemma let_ext {A B} (a a' : A) (f f' : A -> B) :
  a = a' -> (forall x, f x = f' x) -> (let x := a in f x) = (let x := a' in f' x).
Proof. intros -> E. apply E. Qed.

(* The source's g works in place on state[a], state[b], state[c], state[d]; the model's g maps
   four words to four words.  Representation: write the model's results back at a, b, c, d. *)
Definition g_in_place (s : list N) (a b c d : nat) (x y : N) : list N :=
  let '(a', b', c', d') := Portable.g (arr_get s a) (arr_get s b) (arr_get s c) (arr_get s d) x y in
  arr_set (arr_set (arr_set (arr_set s a a') b b') c c') d d'.

Lemma g_in_place_length s a b c d x y : length (g_in_place s a b c d x y) = length s.
Proof. unfold g_in_place, Portable.g. cbv zeta. rewrite !arr_set_length. reflexivity. Qed.

Section WriteBack.
  Variables (s : list N) (a b c d : nat) (x y : N).
  Hypotheses (La : (a < length s)%nat) (Lb : (b < length s)%nat) (Lc : (c < length s)%nat) (Ld : (d < length s)%nat).
  Hypotheses (Nab : a <> b) (Nac : a <> c) (Nad : a <> d) (Nbc : b <> c) (Nbd : b <> d) (Ncd : c <> d).

  (* s with the four cells overwritten: every statement of g maps such a state to such a state *)
  Definition wb (va vb vc vd : N) : list N := arr_set (arr_set (arr_set (arr_set s a va) b vb) c vc) d vd.

  Lemma wb_get_a va vb vc vd : arr_get (wb va vb vc vd) a = va.
  Proof. unfold wb. rewrite !arr_get_other by assumption. apply arr_get_same, La. Qed.
  Lemma wb_get_b va vb vc vd : arr_get (wb va vb vc vd) b = vb.
  Proof. unfold wb. rewrite !arr_get_other by assumption. apply arr_get_same. rewrite arr_set_length. exact Lb. Qed.
  Lemma wb_get_c va vb vc vd : arr_get (wb va vb vc vd) c = vc.
  Proof. unfold wb. rewrite !arr_get_other by assumption. apply arr_get_same. rewrite !arr_set_length. exact Lc. Qed.
  Lemma wb_get_d va vb vc vd : arr_get (wb va vb vc vd) d = vd.
  Proof. unfold wb. apply arr_get_same. rewrite !arr_set_length. exact Ld. Qed.

  Lemma wb_set_a va vb vc vd v : arr_set (wb va vb vc vd) a v = wb v vb vc vd.
  Proof. unfold wb. rewrite (arr_set_comm _ d a), (arr_set_comm _ c a), (arr_set_comm _ b a), arr_set_same by auto. reflexivity. Qed.
  Lemma wb_set_b va vb vc vd v : arr_set (wb va vb vc vd) b v = wb va v vc vd.
  Proof. unfold wb. rewrite (arr_set_comm _ d b), (arr_set_comm _ c b), arr_set_same by auto. reflexivity. Qed.
  Lemma wb_set_c va vb vc vd v : arr_set (wb va vb vc vd) c v = wb va vb v vd.
  Proof. unfold wb. rewrite (arr_set_comm _ d c), arr_set_same by auto. reflexivity. Qed.
  Lemma wb_set_d va vb vc vd v : arr_set (wb va vb vc vd) d v = wb va vb vc v.
  Proof. apply arr_set_same. Qed.

  Lemma wb_init : wb (arr_get s a) (arr_get s b) (arr_get s c) (arr_get s d) = s.
  Proof. unfold wb. rewrite !arr_set_get. reflexivity. Qed.

  (* the eight statements, in the source's order.  `state` occurs three times in each: the lets are
     contracted one at a time, after the reads and the write of the bound value have been resolved *)
  Lemma rs_g_wb va vb vc vd :
    rs_g (wb va vb vc vd) a b c d x y = let '(a', b', c', d') := Portable.g va vb vc vd x y in wb a' b' c' d'.
  Proof.
    cbv beta delta [rs_g].
    do 8 (rewrite ?wb_get_a, ?wb_get_b, ?wb_get_c, ?wb_get_d, ?wb_set_a, ?wb_set_b, ?wb_set_c, ?wb_set_d;
          try lazymatch goal with |- (let x := ?v in @?f x) = ?R => change (f v = R); cbv beta end).
    reflexivity.
  Qed.

  Lemma rs_g_eq : rs_g s a b c d x y = g_in_place s a b c d x y.
  Proof. rewrite <- wb_init at 1. apply rs_g_wb. Qed.
End WriteBack.

(* rotr32 of c/blake3_portable.c; the translation checks both shift amounts, hence 0 < c < 32 *)
Lemma c_rotr32_ok w c : 0 < c -> c < 32 -> c_rotr32 w c = Ok (rotr32 w c).
Proof.
  intros H0 H1.
  assert (E1 : (c <? 32) = true) by (apply N.ltb_lt; lia).
  assert (E2 : (c <=? 32) = true) by (apply N.leb_le; lia).
  assert (E3 : (32 - c <? 32) = true) by (apply N.ltb_lt; lia).
  unfold c_rotr32, mb, mi_shr, mi_shl, mi_sub, mi_or. cbn [bind].
  rewrite E1, E2. cbn [bind]. rewrite E3. reflexivity.
Qed.

(* the C g is the Rust g, statement by statement, but for the spelling of the rotations *)
Lemma c_g_rs_g s a b c d x y : c_g s a b c d x y = rs_g s a b c d x y.
Proof.
  cbv beta delta [c_g rs_g].
  repeat lazymatch goal with
  | |- (let x := ?u in @?f x) = (let y := ?u' in @?f' y) =>
      apply (let_ext u u' f f'); [rewrite ?c_rotr32_ok by lia; reflexivity | intros ?; cbv beta]
  end.
  reflexivity.
Qed.

(* rewrite every call `gf S a b c d x y`, innermost first, with the fully applied equation `eqn S a b c d x y`
   (a pattern with S open would be matched against the outer calls up to conversion) *)
Ltac innermost_calls gf eqn :=
  repeat match goal with
         | |- context [gf ?S ?a ?b ?c ?d ?x ?y] =>
             lazymatch S with
             | context [gf] => fail
             | _ => rewrite (eqn S a b c d x y) by (rewrite ?g_in_place_length; cbn [length]; lia)
             end
         end.

(* each of the eight calls of the translated g is the model's g written back in place: the indices
   are inside the 16 words and pairwise distinct *)
Lemma rs_round_eq s msg r : length s = 16%nat -> rs_round s msg r = Portable.round s msg r.
Proof.
  intros H. destruct_list s 16. unfold rs_round. cbv zeta.
  innermost_calls rs_g rs_g_eq. reflexivity.
Qed.

Lemma c_round_fn_eq s msg r : length s = 16%nat -> c_round_fn s msg r = Portable.round s msg r.
Proof.
  intros H. destruct_list s 16. unfold c_round_fn. cbv zeta.
  innermost_calls c_g c_g_rs_g. innermost_calls rs_g rs_g_eq. reflexivity.
Qed.

Lemma rs_words_from_le_bytes_64_eq bytes : length bytes = 64%nat ->
  rs_words_from_le_bytes_64 bytes = words_of_bytes bytes.
Proof. intros H. destruct_list bytes 64. reflexivity. Qed.

Lemma rs_le_bytes_from_words_64_eq words : length words = 16%nat ->
  rs_le_bytes_from_words_64 words = bytes_of_words words.
Proof. intros H. destruct_list words 16. reflexivity. Qed.

Lemma rounds7_eq (rf : list N -> list N -> nat -> list N) m :
  (forall s r, length s = 16%nat -> rf s m r = Portable.round s m r) ->
  forall s, length s = 16%nat ->
    rf (rf (rf (rf (rf (rf (rf s m 0%nat) m 1%nat) m 2%nat) m 3%nat) m 4%nat) m 5%nat) m 6%nat = rounds7w s m.
Proof.
  intros Hrf s H. unfold rounds7w. rewrite (Hrf s 0%nat) by exact H.
  rewrite (Hrf _ 1%nat), (Hrf _ 2%nat), (Hrf _ 3%nat), (Hrf _ 4%nat), (Hrf _ 5%nat), (Hrf _ 6%nat)
    by (rewrite !round_len; exact H).
  reflexivity.
Qed.

Lemma rs_compress_pre_eq cv block bl ctr fl : length cv = 8%nat -> length block = 64%nat ->
  rs_compress_pre cv block bl ctr fl = Portable.compress_pre cv block bl ctr fl.
Proof.
  intros Hcv Hb. rewrite compress_pre_rounds7w. unfold rs_compress_pre. cbv zeta.
  rewrite (rs_words_from_le_bytes_64_eq block Hb).
  match goal with |- context [rs_round ?S _ 0%nat] =>
    replace S with (cv ++ firstn 4 rs_IV ++ [ctr_lo ctr; ctr_hi ctr; bl; fl]) by (destruct_list cv 8; reflexivity)
  end.
  apply (rounds7_eq rs_round); [intros; apply rs_round_eq; assumption|]. rewrite !app_length, Hcv. reflexivity.
Qed.

(* C: `state` is an out-parameter; whatever it held, every element is overwritten *)
Lemma c_compress_pre_eq state cv block bl ctr fl :
  length state = 16%nat -> length cv = 8%nat -> length block = 64%nat ->
  c_compress_pre state cv block bl ctr fl = Portable.compress_pre cv block bl ctr fl.
Proof.
  intros Hs Hcv Hb. rewrite compress_pre_rounds7w. unfold c_compress_pre. cbv zeta.
  match goal with |- context [c_round_fn ?S ?W 0%nat] =>
    replace W with (words_of_bytes block) by (destruct_list block 64; reflexivity);
    replace S with (cv ++ firstn 4 rs_IV ++ [ctr_lo ctr; ctr_hi ctr; bl; fl])
      by (destruct_list state 16; destruct_list cv 8; reflexivity)
  end.
  apply (rounds7_eq c_round_fn); [intros; apply c_round_fn_eq; assumption|]. rewrite !app_length, Hcv. reflexivity.
Qed.

(* One case analysis for the state and the chaining value together.  The goals below contain chains of
   statements; each nested `destruct` would copy the chain into its motive, and checking the proof compares
   every copy with the goal. *)
Lemma state_cv_cases (P : list N -> list N -> Prop) :
  (forall s0 s1 s2 s3 s4 s5 s6 s7 s8 s9 s10 s11 s12 s13 s14 s15 c0 c1 c2 c3 c4 c5 c6 c7,
     P [s0; s1; s2; s3; s4; s5; s6; s7; s8; s9; s10; s11; s12; s13; s14; s15] [c0; c1; c2; c3; c4; c5; c6; c7]) ->
  forall st cv, length st = 16%nat -> length cv = 8%nat -> P st cv.
Proof. intros H st cv Hs Hc. destruct_list st 16. destruct_list cv 8. apply H. Qed.

Lemma rs_compress_in_place_eq cv block bl ctr fl : length cv = 8%nat -> length block = 64%nat ->
  rs_compress_in_place cv block bl ctr fl = Portable.compress_in_place cv block bl ctr fl.
Proof.
  intros Hcv Hb. unfold rs_compress_in_place, Portable.compress_in_place. cbv zeta.
  rewrite (rs_compress_pre_eq _ _ _ _ _ Hcv Hb).
  pose proof (compress_pre_length cv block bl ctr fl Hcv) as Hst.
  generalize dependent (Portable.compress_pre cv block bl ctr fl). intros st Hst.
  revert st cv Hst Hcv. apply state_cv_cases. reflexivity.
Qed.

(* the sixteen `state[i] ^= ...` statements each mention `state` three times.  Comparing two such
   chains costs 3^16; comparing one with a term without sharing is cheap.  So: the final conversion
   to bytes is made a variable K on both sides, the state a list of 16 variables, and the chain is
   evaluated against `xor_pairs ..` *)
Lemma rs_compress_xof_eq cv block bl ctr fl : length cv = 8%nat -> length block = 64%nat ->
  rs_compress_xof cv block bl ctr fl = Portable.compress_xof cv block bl ctr fl.
Proof.
  intros Hcv Hb. unfold Portable.compress_xof.
  pose proof (compress_pre_length cv block bl ctr fl Hcv) as Hst.
  rewrite <- (rs_compress_pre_eq _ _ _ _ _ Hcv Hb) in *.
  rewrite <- rs_le_bytes_from_words_64_eq
    by (rewrite app_length, !xor_pairs_length, firstn_length, skipn_length, Hst, Hcv; reflexivity).
  cbv beta delta [rs_compress_xof]. generalize rs_le_bytes_from_words_64. intros K.
  generalize dependent (rs_compress_pre cv block bl ctr fl). intros st Hst.
  revert st cv Hst Hcv. apply state_cv_cases. reflexivity.
Qed.

Lemma c_compress_in_place_eq cv block bl ctr fl : length cv = 8%nat -> length block = 64%nat ->
  c_blake3_compress_in_place_portable cv block bl ctr fl = Portable.compress_in_place cv block bl ctr fl.
Proof.
  intros Hcv Hb. unfold c_blake3_compress_in_place_portable, Portable.compress_in_place. cbv zeta.
  rewrite (c_compress_pre_eq (repeat 0 16%nat) _ _ _ _ _ eq_refl Hcv Hb).
  pose proof (compress_pre_length cv block bl ctr fl Hcv) as Hst.
  generalize dependent (Portable.compress_pre cv block bl ctr fl). intros st Hst.
  revert st cv Hst Hcv. apply state_cv_cases. reflexivity.
Qed.

(* C: the 64 output bytes are stored into the caller's buffer `out` (any previous contents) *)
Lemma c_compress_xof_eq cv block bl ctr fl out :
  length cv = 8%nat -> length block = 64%nat -> length out = 64%nat ->
  c_blake3_compress_xof_portable cv block bl ctr fl out = Portable.compress_xof cv block bl ctr fl.
Proof.
  intros Hcv Hb Ho. unfold c_blake3_compress_xof_portable, Portable.compress_xof. cbv zeta.
  rewrite (c_compress_pre_eq (repeat 0 16%nat) _ _ _ _ _ eq_refl Hcv Hb).
  pose proof (compress_pre_length cv block bl ctr fl Hcv) as Hst.
  generalize dependent (Portable.compress_pre cv block bl ctr fl). intros st Hst.
  destruct_list st 16. destruct_list cv 8. destruct_list out 64. reflexivity.
Qed.
