(* Reference implementation, tree level: the CV stack of the model of
   reference_impl.rs holds the chaining values of the complete subtrees given by
   the binary decomposition of the number of completed chunks; merging
   (add_chunk_chaining_value) and the final right-edge fold (finalize) build the
   specification's tree.  The stack is described as HasherP describes the Rust
   one: a list of exponents es, bottom first, with the entries trees_of 0 P es;
   here it is always merged (SDom es).  The loop of add_chunk_chaining_value
   runs while the top two exponents are equal, which the parity of the chunk
   count decides (StackArithP.low_bit); the fold of finalize is HasherP.spine_st. *)
From V Require Import Proofs.ListP Proofs.ResP.
From V Require Import Base.Res Base.Word Base.MachInt gen.GenConsts
  Spec.Compress Spec.Tree Spec.Blake3 Model.RefImpl Proofs.PortableP Proofs.TreeP Proofs.FormulasP
  Proofs.WideP Proofs.StackArithP Proofs.HasherP Proofs.RefCompressP Proofs.RefChunkP.
Open Scope N_scope.

Lemma st_wf64 ctr bytes : len bytes < 2 ^ 64 -> wf_tree (st ctr bytes).
Proof. intros H. apply st_wf. lia. Qed.

Lemma upd_middle {A} (v a : A) l' : forall l, upd (l ++ a :: l') (length l) v = l ++ v :: l'.
Proof. induction l as [|x l IH]; [reflexivity|]. cbn [app length upd]. rewrite IH. reflexivity. Qed.

Section RefStack.
  Variables (K : list N) (F : N).
  Hypothesis HK : length K = 8%nat.
  Hypothesis HKW : Forall W K.
  Hypothesis HF : W F.

  Definition tout (t : tree) : output := tree_out spec_c8 K F t.
  Definition cvw (t : tree) : list N := out_cvw (tout t).

  Lemma tree_cv_cvw t : tree_cv spec_c8 K F t = bytes_of_words (cvw t).
  Proof. rewrite tree_cv_out. unfold cvw, tout. apply chaining_value_cvw. Qed.

  Lemma tout_node l r :
    tout (Node l r) = parent_output K F (bytes_of_words (cvw l)) (bytes_of_words (cvw r)).
  Proof. unfold tout. cbn [tree_out]. rewrite !tree_cv_cvw. reflexivity. Qed.

  Lemma tout_leaf c b : tout (Leaf c b) = chunk_output spec_c8 K F c b.
  Proof. reflexivity. Qed.

  Lemma tout_wf t : wf_tree t -> wf_out (tout t).
  Proof.
    induction t as [c b|l IHl r IHr]; intros H.
    - rewrite tout_leaf. apply chunk_output_wf; assumption.
    - destruct H as [Hl Hr]. rewrite tout_node.
      apply parent_output_wf; try assumption.
      + apply (out_cvw_words _ (IHl Hl)).
      + apply (out_cvw_words _ (IHr Hr)).
  Qed.

  Lemma cvw_words t : wf_tree t -> length (cvw t) = 8%nat /\ Forall W (cvw t).
  Proof. intros H. apply out_cvw_words, tout_wf, H. Qed.

  Lemma ro_cv_tree t : wf_tree t -> ro_chaining_value (ro_of (tout t)) = Ok (cvw t).
  Proof. intros H. apply ro_chaining_value_spec, tout_wf, H. Qed.

  Lemma ref_parent_tree l r : wf_tree l -> wf_tree r ->
    ref_parent_output (cvw l) (cvw r) K F = ro_of (tout (Node l r)).
  Proof.
    intros Hl Hr. rewrite tout_node.
    destruct (cvw_words l Hl) as [L1 L2]. destruct (cvw_words r Hr) as [R1 R2].
    apply ref_parent_output_spec; assumption.
  Qed.

  Lemma ref_parent_cv_tree l r : wf_tree l -> wf_tree r ->
    ref_parent_cv (cvw l) (cvw r) K F = Ok (cvw (Node l r)).
  Proof.
    intros Hl Hr. unfold ref_parent_cv. rewrite ref_parent_tree by assumption.
    apply ro_cv_tree. split; assumption.
  Qed.

  (* the array of 54 CVs holds the stack (bottom first) from index 0 upwards *)
  Definition StackArr (stk : list (list N)) (ts : list tree) : Prop :=
    (exists rest, stk = map cvw ts ++ rest) /\ length stk = 54%nat /\ Forall wf_tree ts.

  Definition StackRel (stk : list (list N)) (n : N) (ts : list tree) : Prop :=
    StackArr stk ts /\ n = N.of_nat (length ts).

  Lemma StackArr_length stk ts : StackArr stk ts -> (length ts <= 54)%nat.
  Proof. intros ([rest ->] & H54 & _). rewrite app_length, map_length in H54. lia. Qed.

  Lemma StackArr_top stk ts T d : StackArr stk (ts ++ [T]) ->
    StackArr stk ts /\ nth (length ts) stk d = cvw T /\ wf_tree T /\ (length ts < 54)%nat.
  Proof.
    intros ([rest ->] & H54 & Hwf). apply Forall_app in Hwf. destruct Hwf as [Hwf HT]. apply Forall_inv in HT.
    rewrite map_app, <- app_assoc in *. cbn [map app] in *.
    split; [split; [eexists; reflexivity|split; assumption]|].
    split; [rewrite <- (map_length cvw ts); apply nth_middle|]. split; [assumption|].
    rewrite app_length, map_length in H54. cbn [length] in H54. lia.
  Qed.

  Lemma StackArr_push stk T ts : StackArr stk ts -> (length ts < 54)%nat -> wf_tree T ->
    StackArr (upd stk (length ts) (cvw T)) (ts ++ [T]).
  Proof.
    intros ([rest ->] & H54 & Hwf) Hlt HT. rewrite app_length, map_length in H54.
    destruct rest as [|x rest]; [cbn [length] in H54; lia|].
    rewrite <- (map_length cvw ts), upd_middle.
    split; [exists rest; rewrite map_app, <- app_assoc; reflexivity|].
    split; [rewrite app_length, map_length; exact H54|apply Forall_app; split; [assumption|repeat constructor; assumption]].
  Qed.

  Definition same_rest (h h' : ref_hasher) : Prop :=
    rh_chunk_state h' = rh_chunk_state h /\ rh_key_words h' = rh_key_words h /\ rh_flags h' = rh_flags h.

  Lemma same_rest_refl h : same_rest h h.
  Proof. repeat split. Qed.

  Lemma same_rest_trans a b c : same_rest a b -> same_rest b c -> same_rest a c.
  Proof. intros (A1&A2&A3) (B1&B2&B3). repeat split; congruence. Qed.

  Lemma pop_spec h T ts :
    StackRel (rh_cv_stack h) (rh_cv_stack_len h) (ts ++ [T]) ->
    exists h', ref_pop_stack h = Ok (h', cvw T) /\
               StackRel (rh_cv_stack h') (rh_cv_stack_len h') ts /\ same_rest h h' /\ wf_tree T.
  Proof.
    intros [HA Hn]. destruct (StackArr_top _ ts T ref_zero_cv HA) as (HA' & Hnth & HwT & Hlt).
    unfold ref_pop_stack. rewrite Hn, (proj1 (proj2 HA)), app_length, Nat.add_1_r.
    rewrite check_leb by lia.
    replace (N.of_nat (S (length ts)) - 1) with (N.of_nat (length ts)) by lia.
    rewrite check_ltb, Nat2N.id, Hnth by lia.
    eexists. split; [reflexivity|]. split; [split; [exact HA'|reflexivity]|]. split; [repeat split|exact HwT].
  Qed.

  Lemma push_spec h T ts :
    StackRel (rh_cv_stack h) (rh_cv_stack_len h) ts -> (length ts < 54)%nat -> wf_tree T ->
    exists h', ref_push_stack h (cvw T) = Ok h' /\
               StackRel (rh_cv_stack h') (rh_cv_stack_len h') (ts ++ [T]) /\ same_rest h h'.
  Proof.
    intros [HA Hn] Hlt HT. unfold ref_push_stack. rewrite Hn, (proj1 (proj2 HA)).
    rewrite check_ltb by lia. rewrite add_small by (change (2 ^ 8) with 256; lia). cbn [bind].
    rewrite Nat2N.id. eexists. split; [reflexivity|].
    split; [split; [apply StackArr_push; assumption|cbn [rh_cv_stack_len]; rewrite app_length; cbn [length]; lia]|repeat split].
  Qed.

  Lemma add_loop_unfold fuel h cv total :
    ref_add_cv_loop fuel h cv total =
    if N.land total 1 =? 0 then
      match fuel with
      | O => OutOfFuel
      | S fuel' =>
          '(h, left_cv) <- ref_pop_stack h ;;
          new_cv <- ref_parent_cv left_cv cv (rh_key_words h) (rh_flags h) ;;
          ref_add_cv_loop fuel' h new_cv (N.shiftr total 1)
      end
    else Ok (h, cv).
  Proof. destruct fuel; reflexivity. Qed.

  (* the entry of exponent b on top of the entries es, for the bytes bs *)
  Definition top_tree (bs : list N) (es : list N) (b : N) : tree :=
    st (sum2 es) (take (1024 * 2 ^ b) (drop (1024 * sum2 es) bs)).

  (* add_chunk_chaining_value merges the new subtree (exponent k, total C / 2^k) into the stack while the top two
     exponents are equal: that is while the total is even *)
  Lemma add_loop_spec bs C : 1024 * C <= len bs -> C < 2 ^ 54 -> forall fuel es k h,
    (length es < fuel)%nat -> rh_key_words h = K -> rh_flags h = F ->
    StackRel (rh_cv_stack h) (rh_cv_stack_len h) (trees_of 0 bs es) ->
    Dom (es ++ [k]) -> sum2 (es ++ [k]) = C ->
    exists h' es' k', ref_add_cv_loop fuel h (cvw (top_tree bs es k)) (C / 2 ^ k) = Ok (h', cvw (top_tree bs es' k')) /\
      StackRel (rh_cv_stack h') (rh_cv_stack_len h') (trees_of 0 bs es') /\
      SDom (es' ++ [k']) /\ sum2 (es' ++ [k']) = C /\ same_rest h h'.
  Proof.
    intros Hbs HC. induction fuel as [|fuel IH]; intros es k h Hfuel HKh HFh HS HD Hsum; [lia|].
    rewrite add_loop_unfold. pose proof (pow2_pos k) as Hpk.
    destruct (dom_cases _ HD) as [(pre & a & E)|HSD].
    2:{ (* strictly dominated: the total is odd *)
      replace (C / 2 ^ k) with ((sum2 es + 2 ^ k * 1) / 2 ^ k) by (rewrite <- Hsum, sum2_app; cbn [sum2]; f_equal; lia).
      rewrite (low_bit es k 1) by (apply (sdom_below es [k]); [exact HSD|cbn [sum2]; lia]).
      exists h, es, k. repeat (split; [first [reflexivity|assumption]|]). apply same_rest_refl. }
    (* the top two equal: the total is even, one merge *)
    change [a; a] with ([a] ++ [a]) in E. rewrite app_assoc in E. apply app_inj_tail in E. destruct E as [-> <-].
    rewrite <- app_assoc in HD. cbn [app] in HD.
    assert (Hpre : Forall (fun b => k + 1 <= b) pre).
    { apply (dom_below pre [k; k] (k + 1) HD). cbn [sum2]. rewrite N.add_1_r, N.pow_succ_r'. lia. }
    rewrite <- app_assoc, sum2_app in Hsum. cbn [app sum2] in Hsum.
    replace (C / 2 ^ k) with ((sum2 pre + 2 ^ k * 2) / 2 ^ k) by (f_equal; lia).
    rewrite (low_bit pre k 2 Hpre). change (2 mod 2 =? 0) with true. cbv iota.
    rewrite trees_of_snoc, N.add_0_l in HS. fold (top_tree bs pre k) in HS.
    destruct (pop_spec h _ _ HS) as (h1 & -> & HS1 & (Hc1 & Hk1 & Hf1) & HwT). cbn [bind].
    assert (Hk54 : k + 1 <= 54).
    { apply (N.pow_le_mono_r_iff 2); [lia|]. rewrite N.add_1_r, N.pow_succ_r'. lia. }
    assert (Hwt : wf_tree (top_tree bs (pre ++ [k]) k)) by (apply st_take_wf; lia).
    rewrite Hk1, Hf1, HKh, HFh, ref_parent_cv_tree by assumption. cbn [bind].
    replace (Node (top_tree bs pre k) (top_tree bs (pre ++ [k]) k)) with (top_tree bs pre (k + 1)).
    2:{ unfold top_tree. rewrite sum2_app. cbn [sum2]. rewrite N.add_0_r, N.mul_add_distr_l, <- drop_drop.
        symmetry. apply st_pair; [rewrite len_drop; lia|lia]. }
    replace (N.shiftr ((sum2 pre + 2 ^ k * 2) / 2 ^ k) 1) with (C / 2 ^ (k + 1)).
    2:{ rewrite N.shiftr_div_pow2, N.div_div, N.add_1_r, N.pow_succ_r' by (try apply N.pow_nonzero; discriminate).
        change (2 ^ 1) with 2. f_equal; lia. }
    rewrite app_length in Hfuel. cbn [length] in Hfuel.
    destruct (dom_merge pre k HD) as [HD' Hsum'].
    destruct (IH pre (k + 1) h1) as (h' & es' & k' & Hrun & HS' & HSD' & Hsum2 & Hsame');
      try congruence; try lia; [rewrite Hsum', sum2_app; cbn [sum2]; lia|].
    exists h', es', k'. repeat (split; [assumption|]).
    apply (same_rest_trans h h1 h'); [repeat split; assumption|exact Hsame'].
  Qed.

  Lemma add_chunk_spec h es P R :
    rh_key_words h = K -> rh_flags h = F ->
    StackRel (rh_cv_stack h) (rh_cv_stack_len h) (trees_of 0 P es) -> SDom es ->
    len P = 1024 * sum2 es -> len R = 1024 -> len (P ++ R) < 2 ^ 64 ->
    exists h' es', ref_add_chunk_chaining_value h (cvw (Leaf (sum2 es) R)) (sum2 es + 1) = Ok h' /\
      StackRel (rh_cv_stack h') (rh_cv_stack_len h') (trees_of 0 (P ++ R) es') /\
      SDom es' /\ sum2 es' = sum2 es + 1 /\ same_rest h h'.
  Proof.
    intros HKh HFh HS HSD HP HR H64. unfold ref_add_chunk_chaining_value. rewrite len_app in H64.
    assert (Hc : sum2 es + 1 < 2 ^ 54) by (change (2 ^ 64) with (1024 * 2 ^ 54) in H64; lia).
    rewrite <- (trees_of_ext 0 P R es) in HS by lia.
    destruct (add_loop_spec (P ++ R) (sum2 es + 1) ltac:(rewrite len_app; lia) Hc ref_add_cv_fuel es 0 h
                ltac:(pose proof (StackArr_length _ _ (proj1 HS)) as HL; rewrite trees_of_length in HL;
                      unfold ref_add_cv_fuel; lia) HKh HFh HS
                (dom_push es 0 HSD (N.divide_1_l _)) ltac:(rewrite sum2_app; reflexivity))
      as (h1 & es1 & k1 & Hrun & HS1 & HSD1 & Hsum1 & Hsame1).
    unfold top_tree at 1 in Hrun. change (2 ^ 0) with 1 in Hrun.
    rewrite N.div_1_r, N.mul_1_r, drop_app_ge, <- HP, N.sub_diag, drop_0, take_all, st_leaf in Hrun by lia.
    rewrite Hrun. cbn [bind].
    pose proof (sdom_length_bound _ 54 HSD1 ltac:(lia)) as Hlen. rewrite app_length in Hlen. cbn [length] in Hlen.
    assert (Hk1 : k1 <= 64).
    { assert (2 ^ k1 < 2 ^ 54) by (rewrite sum2_app in Hsum1; cbn [sum2] in Hsum1; lia).
      apply N.pow_lt_mono_r_iff in H; lia. }
    destruct (push_spec h1 (top_tree (P ++ R) es1 k1) _ HS1 ltac:(rewrite trees_of_length; lia) (st_take_wf _ _ _ Hk1))
      as (h' & Hpush & HS' & Hsame').
    exists h', (es1 ++ [k1]). split; [exact Hpush|]. rewrite trees_of_snoc, N.add_0_l.
    split; [exact HS'|]. split; [exact HSD1|]. split; [exact Hsum1|]. eapply same_rest_trans; eassumption.
  Qed.

  Lemma finalize_loop_spec h : rh_key_words h = K -> rh_flags h = F ->
    forall ts t, StackArr (rh_cv_stack h) ts -> wf_tree t ->
    ref_finalize_loop (length ts) h (ro_of (tout t)) = Ok (ro_of (tout (spine ts t))).
  Proof.
    intros HKh HFh ts. induction ts as [|T ts IH] using rev_ind; intros t HA Hwt; [reflexivity|].
    destruct (StackArr_top _ ts T ref_zero_cv HA) as (HA' & Hnth & HwT & Hlt).
    rewrite app_length, Nat.add_1_r. cbn [ref_finalize_loop]. rewrite (proj1 (proj2 HA)), check_ltb by lia.
    rewrite ro_cv_tree by exact Hwt. cbn [bind].
    rewrite Hnth, HKh, HFh, ref_parent_tree, spine_snoc by assumption.
    apply IH; [exact HA'|split; assumption].
  Qed.
End RefStack.
