(* C06: the integer formulas and constants of the C source (gen/GenFormulas.v,
   gen/GenConsts.v, names c_...) mean what the tree specification says, and agree with the
   Rust crate's counterparts. *)
From V Require Import Proofs.ListP.
From V Require Import Base.Res Base.Word Base.MachInt gen.GenConsts gen.GenFormulas Spec.Compress Spec.Tree
  Proofs.TreeP Proofs.FormulasP Proofs.StackArithP.
Open Scope N_scope.

Lemma log2_lt_64 n : n < 2 ^ 64 -> N.log2 n < 64.
Proof.
  intros H. destruct (N.eq_dec n 0) as [->|Hn]; [reflexivity|].
  apply N.log2_lt_pow2; lia.
Qed.

(* 63 is six ones, and xor with n ones is the complement within n bits *)
Lemma xor63 l : l <= 63 -> N.lxor 63 (63 - l) = l.
Proof.
  intros H. rewrite N.lxor_comm. change (N.lxor (63 - l) 63) with (N.lnot (63 - l) 6).
  rewrite N.lnot_sub_low.
  - change (N.ones 6) with 63. lia.
  - destruct (N.eq_dec (63 - l) 0) as [->|Hn]; [reflexivity|]. apply N.log2_lt_pow2; [lia|]. change (2 ^ 6) with 64. lia.
Qed.

Lemma c_highest_one_spec y : 0 < y -> y < 2 ^ 64 -> c_highest_one y = Ok (N.log2 y).
Proof.
  intros H0 H64. pose proof (log2_lt_64 y H64) as Hl.
  unfold c_highest_one, mb, mu, mi_clz, mi_cast, mi_xor. cbn [bind].
  destruct y as [|py]; [lia|]. cbn [bind].
  rewrite N.land_ones. rewrite N.mod_small by (change (2 ^ 32) with 4294967296; lia).
  replace (64 - 1 - N.log2 (N.pos py)) with (63 - N.log2 (N.pos py)) by lia.
  rewrite xor63 by lia. reflexivity.
Qed.

(* round_down_to_power_of_2 (blake3_impl.h) on all of 1 <= n < 2^64 *)
Theorem c_round_down_spec n : 1 <= n -> n < 2 ^ 64 -> c_round_down_to_power_of_2 n = Ok (2 ^ N.log2 n).
Proof.
  intros H1 H64. unfold c_round_down_to_power_of_2, mb, mu, mi_or. cbn [bind].
  assert (Hlog : N.log2 (N.lor n 1) = N.log2 n).
  { rewrite N.log2_lor. change (N.log2 1) with 0. lia. }
  assert (Hlt : N.lor n 1 < 2 ^ 64).
  { destruct (N.eq_dec (N.lor n 1) 0) as [->|Hne]; [reflexivity|].
    apply N.log2_lt_pow2; [lia|]. rewrite Hlog. apply log2_lt_64. exact H64. }
  rewrite c_highest_one_spec; [|destruct (N.lor n 1) eqn:E; [|lia]; apply N.lor_eq_0_iff in E; lia|exact Hlt].
  cbn [bind]. rewrite Hlog. unfold mi_shl. pose proof (log2_lt_64 n H64) as Hl.
  replace (N.log2 n <? 64) with true by lia.
  rewrite N.shiftl_1_l, N.land_ones. rewrite N.mod_small; [reflexivity|].
  pose proof (N.log2_spec n ltac:(lia)) as [L1 L2]. lia.
Qed.

Theorem c_round_down_is_rs n : 1 <= n -> n < 2 ^ 64 ->
  c_round_down_to_power_of_2 n = rs_largest_power_of_two_leq n.
Proof. intros. rewrite c_round_down_spec, rs_largest_power_of_two_leq_spec by assumption. reflexivity. Qed.

(* left_subtree_len (blake3.c) on all of u64 above CHUNK_LEN *)
Theorem c_left_subtree_len_spec n : 1024 < n -> n < 2 ^ 64 -> c_left_subtree_len n = Ok (left_len n).
Proof.
  intros Hlo Hhi. unfold c_left_subtree_len, mb, mu, mi_sub, mi_div. cbn [bind].
  replace (1 <=? n) with true by lia. cbn [bind]. change c_CHUNK_LEN with 1024.
  change (1024 =? 0) with false. cbn iota. cbn [bind].
  set (q := (n - 1) / 1024).
  assert (Hq : 1 <= q) by (unfold q; lia).
  assert (Hq64 : q < 2 ^ 64) by (unfold q; rewrite two64 in *; lia).
  rewrite c_round_down_spec by assumption. cbn [bind]. unfold mi_mul, fits.
  pose proof (N.log2_spec q ltac:(lia)) as [L1 L2].
  replace (2 ^ N.log2 q * 1024 <? 2 ^ 64) with true by (unfold q in *; rewrite two64 in *; lia).
  unfold left_len. fold q. f_equal. lia.
Qed.

Theorem c_left_subtree_len_is_rs n : 1024 < n -> n < 2 ^ 64 -> c_left_subtree_len n = rs_left_subtree_len n.
Proof. intros. rewrite c_left_subtree_len_spec, rs_left_subtree_len_spec by assumption. reflexivity. Qed.

Theorem c_consts :
  c_IV = IV /\ c_IV = rs_IV /\ c_MSG_SCHEDULE = rs_MSG_SCHEDULE /\
  c_KEY_LEN = 32 /\ c_OUT_LEN = 32 /\ c_BLOCK_LEN = 64 /\ c_CHUNK_LEN = 1024 /\
  (c_KEY_LEN, c_OUT_LEN, c_BLOCK_LEN, c_CHUNK_LEN) = (rs_KEY_LEN, rs_OUT_LEN, rs_BLOCK_LEN, rs_CHUNK_LEN) /\
  (c_flag_CHUNK_START, c_flag_CHUNK_END, c_flag_PARENT, c_flag_ROOT, c_flag_KEYED_HASH, c_flag_DERIVE_KEY_CONTEXT,
   c_flag_DERIVE_KEY_MATERIAL) = (CHUNK_START, CHUNK_END, PARENT, ROOT, KEYED_HASH, DERIVE_KEY_CONTEXT, DERIVE_KEY_MATERIAL) /\
  (c_flag_CHUNK_START, c_flag_CHUNK_END, c_flag_PARENT, c_flag_ROOT, c_flag_KEYED_HASH, c_flag_DERIVE_KEY_CONTEXT,
   c_flag_DERIVE_KEY_MATERIAL) = (rs_flag_CHUNK_START, rs_flag_CHUNK_END, rs_flag_PARENT, rs_flag_ROOT, rs_flag_KEYED_HASH,
   rs_flag_DERIVE_KEY_CONTEXT, rs_flag_DERIVE_KEY_MATERIAL) /\
  c_MAX_DEPTH = rs_MAX_DEPTH /\ c_cv_stack_bytes / c_OUT_LEN = rs_cv_stack_cap /\
  c_MAX_SIMD_DEGREE = 16 /\ c_MAX_SIMD_DEGREE_OR_2 = 16.
Proof. repeat split; reflexivity. Qed.

Lemma popcount_pos_le_size p : popcount_pos p <= N.pos (Pos.size p).
Proof. induction p as [p IH|p IH|]; cbn [popcount_pos Pos.size]; lia. Qed.

Lemma popcount_le_64 x : x < 2 ^ 64 -> popcount x <= 64.
Proof.
  intros H. destruct x as [|p]; [cbn; lia|].
  pose proof (popcount_pos_le_size p) as Hp. cbn [popcount].
  pose proof (N.size_log2 (N.pos p) ltac:(lia)) as Hs. cbn [N.size] in Hs.
  pose proof (log2_lt_64 (N.pos p) H). lia.
Qed.

Lemma c_popcnt_spec x : x < 2 ^ 64 -> c_popcnt x = Ok (popcount x).
Proof.
  intros H. unfold c_popcnt, mu, mi_popcount, mi_cast. cbn [bind]. rewrite N.land_ones.
  pose proof (popcount_le_64 x H). rewrite N.mod_small by (change (2 ^ 32) with 4294967296; lia). reflexivity.
Qed.

Lemma c_chunk_state_len_spec blocks buf_len : blocks < 256 -> buf_len < 256 ->
  c_chunk_state_len blocks buf_len = Ok (64 * blocks + buf_len).
Proof.
  intros H1 H2. unfold c_chunk_state_len, mb, mu, mi_cast, mi_mul, mi_add, fits. cbn [bind].
  rewrite !N.land_ones. rewrite !N.mod_small by (rewrite two64; lia). change c_BLOCK_LEN with 64.
  replace (64 * blocks <? 2 ^ 64) with true by (rewrite two64; lia). cbn [bind].
  replace (64 * blocks + buf_len <? 2 ^ 64) with true by (rewrite two64; lia). reflexivity.
Qed.

Lemma c_orb_counter_spec seek : c_orb_counter seek = Ok (seek / 64).
Proof. reflexivity. Qed.
Lemma c_orb_offset_spec seek : c_orb_offset seek = Ok (seek mod 64).
Proof. reflexivity. Qed.
Lemma c_orb_blocks_spec n : c_orb_blocks n = Ok (n / 64).
Proof. reflexivity. Qed.
Lemma c_orb_available_spec off : off <= 64 -> c_orb_available off = Ok (64 - off).
Proof.
  intros H. unfold c_orb_available, mb, mi_sub. cbn [bind]. replace (off <=? 64) with true by lia. reflexivity.
Qed.

(* `out_len & -64` in size_t arithmetic: the whole blocks *)
Lemma c_orb_whole_spec n : n < 2 ^ 64 -> c_orb_whole n = Ok (n / 64 * 64).
Proof.
  intros H. unfold c_orb_whole, mb, mi_and. cbn [bind]. f_equal.
  change 18446744073709551552 with (N.lnot (N.ones 6) 64).
  rewrite <- N.ldiff_land_low by (apply log2_lt_64; exact H).
  rewrite N.ldiff_ones_r, N.shiftl_mul_pow2, N.shiftr_div_pow2. reflexivity.
Qed.

Lemma c_count_so_far_spec ctr : ctr * 1024 < 2 ^ 64 -> c_count_so_far ctr = Ok (ctr * 1024).
Proof.
  intros H. unfold c_count_so_far, mb, mi_mul, fits. cbn [bind]. change c_CHUNK_LEN with 1024.
  replace (ctr * 1024 <? 2 ^ 64) with true by lia. reflexivity.
Qed.

Lemma c_subtree_chunks_spec l : c_subtree_chunks l = Ok (l / 1024).
Proof. reflexivity. Qed.

Lemma c_right_cv_counter_spec ctr sc : ctr + sc / 2 < 2 ^ 64 -> c_right_cv_counter ctr sc = Ok (ctr + sc / 2).
Proof.
  intros H. unfold c_right_cv_counter, mb, mi_add, mi_div, fits. cbn [bind].
  change (2 =? 0) with false. cbn iota. cbn [bind]. replace (ctr + sc / 2 <? 2 ^ 64) with true by lia. reflexivity.
Qed.

Lemma c_shrink_cond_is_rs l c : c_shrink_cond l c = rs_shrink_cond l c.
Proof. reflexivity. Qed.
