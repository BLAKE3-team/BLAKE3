(* Every entry of test_vectors/test_vectors.json equals the specification output.
   The specification is evaluated inside the kernel, on all 35 inputs in the three modes, with the
   compression function of Proofs/HexWord.v; the 131 output bytes are read off three root blocks.
   The inputs are prefixes of one another, so the chaining values of their whole chunks are computed once per
   mode and looked up (Section Memo). *)
From Coq Require Import NArith Arith List Bool Lia.
From V Require Import Base.Word Spec.Compress Spec.Tree Spec.Blake3 gen.GenTestVectors
  Proofs.ListP Proofs.TVCommon Proofs.XofP Proofs.HexWord.
Import ListNotations.
Open Scope N_scope.

Section Ext.
  Variables c8 c8' : list N -> list N -> N -> N -> N -> list N.
  Hypothesis E : forall cv b bl c f, c8 cv b bl c f = c8' cv b bl c f.

  Lemma chunk_go_ext fuel kf ctr : forall cv first bytes,
    chunk_go c8 fuel kf ctr cv first bytes = chunk_go c8' fuel kf ctr cv first bytes.
  Proof.
    induction fuel as [|fuel IH]; intros cv first bytes; cbn [chunk_go]; [reflexivity|].
    destruct (len bytes <=? 64); [reflexivity|]. rewrite E. apply IH.
  Qed.

  Lemma subtree_output_ext h key kf : forall ctr bytes,
    subtree_output c8 h key kf ctr bytes = subtree_output c8' h key kf ctr bytes.
  Proof.
    induction h as [|h IH]; intros ctr bytes; cbn [subtree_output]; unfold chunk_output;
      [apply chunk_go_ext|].
    destruct (len bytes <=? 1024); [apply chunk_go_ext|].
    unfold chaining_value. rewrite !IH, !E. reflexivity.
  Qed.
End Ext.

Definition fast_c8 (cv block : list N) (bl ctr fl : N) : list N := firstn 8 (fast_compress cv block bl ctr fl).
Definition fast_c64 (cv block : list N) (bl ctr fl : N) : list N := bytes_of_words (fast_compress cv block bl ctr fl).

Definition out131 (o : output) : list N :=
  firstn 131 (root_block fast_c64 o 0 ++ root_block fast_c64 o 1 ++ root_block fast_c64 o 2).

Definition wf_outb (o : output) : bool := Nat.eqb (length (o_cv o)) 8 && Nat.eqb (length (o_block o)) 64.

Lemma stream_prefix c64 o : forall (n m : nat) p, (n <= m)%nat -> stream c64 o p n = firstn n (stream c64 o p m).
Proof.
  unfold stream. induction n as [|n IH]; intros m p H; [reflexivity|].
  destruct m as [|m]; [lia|]. cbn [nrange map firstn]. f_equal. apply IH. lia.
Qed.

Lemma stream_3blocks o : wf_out o -> stream spec_c64 o 0 192 = rblock o 0 ++ rblock o 1 ++ rblock o 2.
Proof.
  intros Hwf. rewrite <- (stream_block o 0), <- (stream_block o 1), <- (stream_block o 2) by exact Hwf.
  change 192%nat with (64 + (64 + 64))%nat. rewrite !stream_app. reflexivity.
Qed.

Lemma out131_spec o : wf_outb o = true -> out131 o = stream spec_c64 o 0 131.
Proof.
  unfold wf_outb. rewrite andb_true_iff, !Nat.eqb_eq. intros Hwf.
  rewrite (stream_prefix spec_c64 o 131 192 0), (stream_3blocks o Hwf) by lia.
  unfold out131, rblock, root_block, fast_c64, spec_c64. rewrite !fast_compress_spec. reflexivity.
Qed.

(* `paint` takes i mod 251 for every byte; counting up to 250 and wrapping is the same list *)
Definition wrap_step (st : N * list N) : N * list N :=
  ((if fst st =? 250 then 0 else fst st + 1), fst st :: snd st).
Definition wrap_paint (n : N) : list N := rev_append (snd (N.iter n wrap_step (0, []))) [].

Lemma wrap_iter n :
  N.iter n wrap_step (0, []) = (n mod 251, rev (map (fun i => N.of_nat i mod 251) (seq 0 (N.to_nat n)))).
Proof.
  induction n as [|n IH] using N.peano_ind; [reflexivity|].
  rewrite N.iter_succ, IH. unfold wrap_step. cbn [fst snd].
  rewrite N2Nat.inj_succ, seq_S, map_app, rev_app_distr. cbn [map rev app Nat.add].
  rewrite N2Nat.id. f_equal. destruct (N.eqb_spec (n mod 251) 250); lia.
Qed.

Lemma wrap_paint_spec n : wrap_paint n = paint n.
Proof.
  rewrite paint_spec. unfold wrap_paint. rewrite wrap_iter. cbn [snd].
  rewrite rev_append_rev, app_nil_r. apply rev_involutive.
Qed.

(* Spec/Tree.v with the chaining values of the leaves supplied by `leaf` *)
Section Memo.
  Variable c8 : list N -> list N -> N -> N -> N -> list N.
  Variables (key : list N) (kf : N).
  Notation leaf_cv := (fun ctr bytes => chaining_value c8 (chunk_output c8 key kf ctr bytes)).

  Definition child_cv (leaf : N -> list N -> list N) (sub : N -> list N -> output) (ctr : N) (bytes : list N) : list N :=
    if len bytes <=? 1024 then leaf ctr bytes else chaining_value c8 (sub ctr bytes).

  Fixpoint memo_output (leaf : N -> list N -> list N) (h : nat) (ctr : N) (bytes : list N) : output :=
    match h with
    | O => chunk_output c8 key kf ctr bytes
    | S h' =>
        if len bytes <=? 1024 then chunk_output c8 key kf ctr bytes
        else
          let l := left_len (len bytes) in
          parent_output key kf (child_cv leaf (memo_output leaf h') ctr (take l bytes))
                               (child_cv leaf (memo_output leaf h') (ctr + l / 1024) (drop l bytes))
    end.

  Lemma memo_output_spec leaf : (forall ctr bytes, leaf ctr bytes = leaf_cv ctr bytes) ->
    forall h ctr bytes, memo_output leaf h ctr bytes = subtree_output c8 h key kf ctr bytes.
  Proof.
    intros Hleaf. induction h as [|h IH]; intros ctr bytes; cbn [memo_output subtree_output]; [reflexivity|].
    destruct (len bytes <=? 1024); [reflexivity|].
    assert (C : forall ctr bytes, child_cv leaf (memo_output leaf h) ctr bytes
                                  = chaining_value c8 (subtree_output c8 h key kf ctr bytes)).
    { intros c b. unfold child_cv. rewrite IH, Hleaf. destruct (len b <=? 1024) eqn:E; [|reflexivity].
      destruct h; cbn [subtree_output]; rewrite ?E; reflexivity. }
    rewrite !C. reflexivity.
  Qed.

  (* the first k chunks of msg, each with its chaining value; a lookup compares the bytes, so it is right whatever
     msg is *)
  Fixpoint chunk_table (k : nat) (ctr : N) (msg : list N) : list (list N * list N) :=
    match k with
    | O => []
    | S k' => let b := take 1024 msg in (b, leaf_cv ctr b) :: chunk_table k' (ctr + 1) (drop 1024 msg)
    end.

  Lemma chunk_table_nth : forall k ctr msg i b cv,
    nth_error (chunk_table k ctr msg) i = Some (b, cv) -> cv = leaf_cv (ctr + N.of_nat i) b.
  Proof.
    induction k as [|k IH]; intros ctr msg i b cv H; [destruct i; discriminate|].
    destruct i as [|i]; cbn [chunk_table nth_error] in H.
    - injection H as <- <-. rewrite N.add_0_r. reflexivity.
    - rewrite (IH _ _ _ _ _ H). do 2 f_equal. lia.
  Qed.

  Definition lookup (tab : list (list N * list N)) (ctr : N) (bytes : list N) : list N :=
    match nth_error tab (N.to_nat ctr) with
    | Some (b, cv) => if leqb bytes b then cv else leaf_cv ctr bytes
    | None => leaf_cv ctr bytes
    end.

  Lemma lookup_spec k msg ctr bytes : lookup (chunk_table k 0 msg) ctr bytes = leaf_cv ctr bytes.
  Proof.
    unfold lookup. destruct (nth_error _ _) as [[b cv]|] eqn:E; [|reflexivity].
    destruct (leqb bytes b) eqn:Eb; [|reflexivity]. apply leqb_eq in Eb. subst b.
    rewrite (chunk_table_nth _ _ _ _ _ _ E), N.add_0_l, N2Nat.id. reflexivity.
  Qed.
End Memo.

Definition check_fast (msg : list N) (k : nat) (cases : list (N * list N * list N * list N)) : bool :=
  let out m :=
    let tab := chunk_table fast_c8 (mode_key m) (mode_flags m) k 0 msg in
    memo_output fast_c8 (mode_key m) (mode_flags m) (lookup fast_c8 (mode_key m) (mode_flags m) tab) tree_height 0 in
  let out_h := out Hash in
  let out_k := out (KeyedHash tv_key) in
  let out_d := out (DeriveKeyMaterial tv_context_key) in
  forallb (fun c => let '(n, h, k, d) := c in
             let input := wrap_paint n in
             let ok (o : output) expect := wf_outb o && leqb (out131 o) expect in
             ok (out_h input) h && ok (out_k input) k && ok (out_d input) d) cases.

Lemma check_fast_sound msg k cases : check_fast msg k cases = true -> forallb check_case cases = true.
Proof.
  unfold check_fast. cbv zeta. rewrite !forallb_forall. intros H [[[n h] kk] d] Hc. specialize (H _ Hc). cbv beta iota in H.
  unfold check_case, b3_xof_mode, xof_mode. rewrite wrap_paint_spec in H.
  assert (E : forall m, memo_output fast_c8 (mode_key m) (mode_flags m)
                          (lookup fast_c8 (mode_key m) (mode_flags m) (chunk_table fast_c8 (mode_key m) (mode_flags m) k 0 msg))
                          tree_height 0 (paint n) = root_output spec_c8 m (paint n)).
  { intros m. rewrite memo_output_spec by (intros; apply lookup_spec). apply subtree_output_ext.
    intros. unfold fast_c8, spec_c8. f_equal. apply fast_compress_spec. }
  rewrite !E, !andb_true_iff in H. destruct H as [[[W1 H1] [W2 H2]] [W3 H3]].
  rewrite !out131_spec in * by assumption. rewrite !andb_true_iff. auto.
Qed.

(* the longest input has 100 chunks *)
Theorem test_vectors_ok : forallb check_case tv_cases = true.
Proof. apply (check_fast_sound (wrap_paint 102400) 100). vm_compute. reflexivity. Qed.

(* so that test_vectors_ok is not about an empty or truncated list *)
Lemma tv_shape :
  length tv_cases = 35%nat /\
  map (fun c => fst (fst (fst c))) tv_cases =
    [0; 1; 2; 3; 4; 5; 6; 7; 8; 63; 64; 65; 127; 128; 129; 1023; 1024; 1025; 2048; 2049; 3072; 3073;
     4096; 4097; 5120; 5121; 6144; 6145; 7168; 7169; 8192; 8193; 16384; 31744; 102400] /\
  forallb (fun c => let '(_, h, k, d) := c in
             Nat.eqb (length h) 131 && Nat.eqb (length k) 131 && Nat.eqb (length d) 131) tv_cases = true /\
  length tv_key = 32%nat.
Proof. vm_compute. repeat split. Qed.

Theorem test_vectors_spec n h k d : In (n, h, k, d) tv_cases ->
  b3_xof_mode Hash (paint n) 0 131 = h /\
  b3_xof_mode (KeyedHash tv_key) (paint n) 0 131 = k /\
  stream spec_c64 (root_output spec_c8 (DeriveKeyMaterial (b3_hash_mode DeriveKeyContext tv_context)) (paint n)) 0 131 = d.
Proof.
  intros Hin. apply check_case_sound.
  pose proof test_vectors_ok as H. rewrite forallb_forall in H. apply (H _ Hin).
Qed.

Theorem test_vectors_default_len n h k d : In (n, h, k, d) tv_cases ->
  b3_hash (paint n) = firstn 32 h /\ b3_keyed_hash tv_key (paint n) = firstn 32 k /\
  b3_derive_key tv_context (paint n) = firstn 32 d.
Proof.
  intros Hin. destruct (test_vectors_spec n h k d Hin) as (H1 & H2 & H3).
  subst h k d. repeat split;
  apply (stream_prefix spec_c64 _ 32 131 0); lia.
Qed.
