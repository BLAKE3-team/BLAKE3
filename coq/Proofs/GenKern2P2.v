(* The three C hashN functions whose per-block theorem needs well-formed registers (lanes below 2^32): blake3_hash4_sse2,
   blake3_hash4_sse41, blake3_hash8_avx2 as translated (gen/GenKern2.v) = the kernel models hash4_c / hash8_c.
   The loop invariant is `Preg`: 8 vectors of n lanes, every lane a 32-bit word. *)
From Coq Require Import NArith ZArith List Bool Arith Lia.
From V Require Import Base.Res Base.Word Base.MachInt gen.GenConsts gen.GenFormulas Model.Portable Model.Kernels
  Model.Intrinsics Model.Intrinsics2 gen.GenCounters gen.GenRounds gen.GenRows gen.GenKern2
  Proofs.ListP Proofs.KernelsP Proofs.CountersP Proofs.RoundsP Proofs.RowsP Proofs.GenKern2P.
Import ListNotations.
Open Scope N_scope.

Definition Preg (n : nat) (h : list vec) : Prop := length h = 8%nat /\ Forall (reg n) h.

Lemma Forall_reg_wf n l : Forall (reg n) l -> Forall (wf n) l.
Proof. intros H. eapply Forall_impl; [|exact H]. intros a [La _]. exact La. Qed.

Lemma reg_of_lanes n (v : vec) : length v = n -> (forall i, (i < n)%nat -> W (nth i v 0)) -> reg n v.
Proof.
  intros L H. split; [exact L|]. apply Forall_forall. intros x Hx.
  destruct (In_nth _ _ 0 Hx) as (i & Hi & E). rewrite <- E. apply H. lia.
Qed.

Lemma vxor_pairs_reg n : forall a b, Forall (reg n) a -> Forall (reg n) b -> Forall (reg n) (vxor_pairs a b).
Proof.
  unfold vxor_pairs. induction a as [|x a IH]; intros b Ha Hb; [constructor|].
  destruct b as [|y b]; [constructor|]. cbn [combine map fst snd].
  inversion Ha; subst. inversion Hb; subst. constructor; [apply reg_vxor; assumption|apply IH; assumption].
Qed.

Lemma vround_reg16 n msg : length msg = 16%nat -> Forall (reg n) msg -> forall r v, (r < 7)%nat ->
  length v = 16%nat /\ Forall (reg n) v -> length (vround v msg r) = 16%nat /\ Forall (reg n) (vround v msg r).
Proof. intros Lm Hm r v Hr [L F]. split; [rewrite vround_length; exact L|apply vround_reg; assumption]. Qed.

Lemma vcompress_reg n h msg clo chi bl bf :
  length h = 8%nat -> length msg = 16%nat -> Forall (reg n) h -> Forall (reg n) msg -> reg n clo -> reg n chi ->
  W bl -> W bf ->
  length (vcompress n h msg clo chi bl bf) = 8%nat /\ Forall (reg n) (vcompress n h msg clo chi bl bf).
Proof.
  intros Lh Lm Hh Hm Hlo Hhi Wbl Wbf. unfold vcompress, vrounds7. cbv zeta.
  assert (R0 : length (vstate n h clo chi bl bf) = 16%nat /\ Forall (reg n) (vstate n h clo chi bl bf)).
  { unfold vstate. split; [rewrite app_length, Lh; reflexivity|]. apply Forall_app. split; [exact Hh|].
    repeat (apply Forall_cons; [first [assumption | apply reg_vset1; first [apply W_IV | assumption]]|]). constructor. }
  pose proof (vround_reg16 n msg Lm Hm) as S.
  destruct (S 6 _ ltac:(lia) (S 5 _ ltac:(lia) (S 4 _ ltac:(lia) (S 3 _ ltac:(lia) (S 2 _ ltac:(lia) (S 1 _ ltac:(lia)
              (S 0 _ ltac:(lia) R0)))))))%nat as [L7 R7].
  split.
  - unfold vxor_pairs. rewrite map_length, combine_length, firstn_length, skipn_length, L7. reflexivity.
  - apply vxor_pairs_reg; [apply Forall_firstn|apply Forall_skipn]; exact R7.
Qed.

Lemma init_Preg n (k0 k1 k2 k3 k4 k5 k6 k7 : N) : W k0 -> W k1 -> W k2 -> W k3 -> W k4 -> W k5 -> W k6 -> W k7 ->
  Preg n [vset1 n k0; vset1 n k1; vset1 n k2; vset1 n k3; vset1 n k4; vset1 n k5; vset1 n k6; vset1 n k7].
Proof. intros. split; [reflexivity|]. repeat (apply Forall_cons; [apply reg_vset1; assumption|]). constructor. Qed.

(* k2_loop for the back ends whose block theorem needs registers: the invariant is Preg *)
Lemma k2_loop_reg {T} n tmsg blockf inputs clo chi flags fs fe blocks (finish finish' : list vec -> T) h0 :
  (0 < n)%nat -> tmsg_ok n tmsg ->
  (forall h clo chi bf inputs block, length h = 8%nat -> Forall (reg n) h -> reg n clo -> reg n chi -> bf < 4294967296 ->
     (forall j, (j < n)%nat -> (block * 64 + 64 <= length (inp inputs j))%nat) ->
     (forall j, (j < n)%nat -> Forall (fun b => b < 256) (inp inputs j)) ->
     blockf h clo chi bf inputs block = vcompress n h (tmsg inputs (block * 64)%nat) clo chi rs_BLOCK_LEN bf) ->
  (forall j, (j < n)%nat -> length (inp inputs j) = (blocks * 64)%nat) ->
  (forall j, (j < n)%nat -> Forall (fun b => b < 256) (inp inputs j)) ->
  reg n clo -> reg n chi -> flags < 256 -> fs < 256 -> fe < 256 -> Preg n h0 -> (forall h, Preg n h -> finish h = finish' h) ->
  (let '(h, _) := fold_left (stepf blockf inputs clo chi flags fe blocks) (seq 0 blocks) (h0, N.lor flags fs) in finish h) =
  finish' (hashN_loop n tmsg inputs clo chi flags fe blocks 0 blocks (N.lor flags fs) h0).
Proof.
  intros Hn Ht Hb Hlen Hbytes Rlo Rhi Hf Hfs Hfe Ph0 Hfin.
  apply (k2_loop n tmsg blockf (Preg n)); try assumption; try (apply W_u8; assumption); [|apply W_lor; apply W_u8; assumption].
  intros h bf block [L F] Wbf Hbl.
  assert (Hlen' : forall j, (j < n)%nat -> (block * 64 + 64 <= length (inp inputs j))%nat)
    by (intros j Hj; rewrite (Hlen j Hj); nia).
  split; [apply Hb; assumption|].
  destruct (Ht inputs (block * 64)%nat 0%nat Hn Hlen') as (_ & Lm & _).
  apply vcompress_reg; try assumption; [apply (tmsg_reg n tmsg Ht Hn); assumption|reflexivity].
Qed.

Lemma cmp_counters_reg n counter incr : N.of_nat n <= 4294967296 -> counter + N.of_nat n <= 2 ^ 64 ->
  exists clo chi, load_counters_cmp n counter incr = Ok (clo, chi) /\ reg n clo /\ reg n chi.
Proof.
  intros Hn Hc. destruct (load_counters_cmp_ok n Hn counter incr Hc) as (clo & chi & E & Wlo & Whi & Hl).
  exists clo, chi. split; [exact E|]. split; apply reg_of_lanes; try assumption; intros i Hi; destruct (Hl i Hi) as [E1 E2].
  - rewrite E1. apply RowsP.W_ctr_lo.
  - rewrite E2. apply RowsP.W_ctr_hi.
Qed.

(* k2_ok on inputs whose bytes are bytes *)
Definition k2_ok_bytes (n : nat) (k2 : k2_fn) (hN : hashN_fn) : Prop :=
  forall inputs blocks key counter incr flags fs fe out,
  length key = 8%nat -> Forall W key ->
  (forall j, (j < n)%nat -> length (inp inputs j) = (blocks * 64)%nat) ->
  (forall j, (j < n)%nat -> Forall (fun b => b < 256) (inp inputs j)) ->
  counter + N.of_nat n <= 2 ^ 64 -> flags < 256 -> fs < 256 -> fe < 256 -> length out = (32 * n)%nat ->
  k2 inputs blocks key counter incr flags fs fe out =
  (outs <- hN inputs blocks key counter incr flags fs fe ;; Ok (concat outs)).

Theorem k2_c_sse41_blake3_hash4_sse41_ok : k2_ok_bytes 4 (okr k2_c_sse41_blake3_hash4_sse41) hash4_c.
Proof.
  intros inputs blocks key counter incr flags fs fe out Lk Wk Hlen Hbytes Hc Hf Hfs Hfe Lo.
  unfold okr, k2_c_sse41_blake3_hash4_sse41, hash4_c, hashN_gen. cbv zeta.
  destruct (cmp_counters_reg 4 counter incr ltac:(cbn; lia) Hc) as (clo & chi & Em & Rlo & Rhi).
  rewrite (c_counters_pair _ _ clo chi (c_sse41_load_counters_model counter incr) Em), Em. cbn [bind]. f_equal.
  cbn [map seq]. rewrite !c_sse41_set1_ok by (apply W_nth; exact Wk).
  apply (k2_loop_reg 4 transpose_msg_vecs4 c_sse41_blake3_hash4_sse41_block) with (finish' := fun h => concat (store4 h));
    try assumption; [lia|exact tmsg_ok_4|exact c_sse41_blake3_hash4_sse41_block_ok|apply init_Preg; apply W_nth; exact Wk|].
  intros h [L F]. apply Forall_reg_wf in F. unfold k2_c_sse41_storeu. rewrite !c_sse41_transpose_vecs_ok. finish_store store4_chain.
Qed.

Theorem k2_c_sse2_blake3_hash4_sse2_ok : k2_ok_bytes 4 (okr k2_c_sse2_blake3_hash4_sse2) hash4_c.
Proof.
  intros inputs blocks key counter incr flags fs fe out Lk Wk Hlen Hbytes Hc Hf Hfs Hfe Lo.
  unfold okr, k2_c_sse2_blake3_hash4_sse2, hash4_c, hashN_gen. cbv zeta.
  destruct (cmp_counters_reg 4 counter incr ltac:(cbn; lia) Hc) as (clo & chi & Em & Rlo & Rhi).
  rewrite (c_counters_pair _ _ clo chi (c_sse2_load_counters_model counter incr) Em), Em. cbn [bind]. f_equal.
  cbn [map seq]. rewrite !c_sse2_set1_ok by (apply W_nth; exact Wk).
  apply (k2_loop_reg 4 transpose_msg_vecs4 c_sse2_blake3_hash4_sse2_block) with (finish' := fun h => concat (store4 h));
    try assumption; [lia|exact tmsg_ok_4|exact c_sse2_blake3_hash4_sse2_block_ok|apply init_Preg; apply W_nth; exact Wk|].
  intros h [L F]. apply Forall_reg_wf in F. unfold k2_c_sse2_storeu. rewrite !c_sse2_transpose_vecs_ok. finish_store store4_chain.
Qed.

Theorem k2_c_avx2_blake3_hash8_avx2_ok : k2_ok_bytes 8 (okr k2_c_avx2_blake3_hash8_avx2) hash8_c.
Proof.
  intros inputs blocks key counter incr flags fs fe out Lk Wk Hlen Hbytes Hc Hf Hfs Hfe Lo.
  unfold okr, k2_c_avx2_blake3_hash8_avx2, hash8_c, hashN_gen. cbv zeta.
  destruct (cmp_counters_reg 8 counter incr ltac:(cbn; lia) Hc) as (clo & chi & Em & Rlo & Rhi).
  rewrite (c_counters_pair _ _ clo chi (c_avx2_load_counters_model counter incr) Em), Em. cbn [bind]. f_equal.
  cbn [map seq]. rewrite !c_avx2_set1_ok by (apply W_nth; exact Wk).
  apply (k2_loop_reg 8 transpose_msg_vecs8 c_avx2_blake3_hash8_avx2_block) with (finish' := fun h => concat (store8 h));
    try assumption; [lia|exact tmsg_ok_8|exact c_avx2_blake3_hash8_avx2_block_ok|apply init_Preg; apply W_nth; exact Wk|].
  intros h [L F]. apply Forall_reg_wf in F. unfold k2_c_avx2_storeu. rewrite !c_avx2_transpose_vecs_ok. finish_store store8_chain.
Qed.

Theorem k2_c_sse41_blake3_hash4_sse41_spec : forall inputs blocks key counter incr flags fs fe out,
  length key = 8%nat -> Forall W key ->
  (forall j, (j < 4)%nat -> length (inp inputs j) = (blocks * 64)%nat) ->
  (forall j, (j < 4)%nat -> Forall (fun b => b < 256) (inp inputs j)) ->
  counter + 4 <= 2 ^ 64 -> flags < 256 -> fs < 256 -> fe < 256 -> length out = 128%nat ->
  exists outs, hash4_c inputs blocks key counter incr flags fs fe = Ok outs /\
               k2_c_sse41_blake3_hash4_sse41 inputs blocks key counter incr flags fs fe out = concat outs.
Proof.
  intros inputs blocks key counter incr flags fs fe out Lk Wk Hlen Hbytes Hc Hf Hfs Hfe Lo.
  pose proof (k2_c_sse41_blake3_hash4_sse41_ok inputs blocks key counter incr flags fs fe out Lk Wk Hlen Hbytes Hc Hf Hfs Hfe Lo) as E. unfold okr in E.
  destruct (hash4_c inputs blocks key counter incr flags fs fe) as [outs| |]; cbn [bind] in E; try discriminate E.
  exists outs. split; [reflexivity|]. congruence.
Qed.
