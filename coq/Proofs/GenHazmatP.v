(* src/hazmat.rs as TRANSLATED statement by statement (gen/GenHazmat.v: HasherExt for Hasher, Mode::key_words /
   flags_byte, merge_subtrees_inner / non_root / root / root_xof, hash_derive_key_context; with them the constructors
   Hasher::new / new_keyed / Default::default of src/lib.rs and platform::words_from_le_bytes_32) equals the hand-written
   models of Model/RsHasher.v / Model/RsWide.v, for all arguments, including the Panic results (root_xof by conversion:
   Props/C09.v).

   Representation.  lib_of_hasher / lib_of_out / lib_of_rd (Proofs/GenLibLoopsP.v, Proofs/GenXofP.v) build the translated
   records from the models' and the platform; `Platform::detect()` is the last parameter of every translated function
   that calls it.  The models take (key words, flags) where the source takes a `Mode`: mode_key / mode_flags read them
   off the translated enum.  Functions that are called but not translated here are parameters, instantiated with the
   models' (m_parent_node_output, m_Output_chaining_value, m_Output_root_hash of Proofs/GenLibLoopsP.v, m_hash_all_at_once
   below). *)
From Coq Require Import NArith ZArith List Bool Lia Arith.
From V Require Import Base.Res Base.Word Base.MachInt Base.Arr Base.ArrayVec Base.MutSlice Base.SInt
  gen.GenConsts gen.GenFormulas gen.GenLibSmall gen.GenLibLoops gen.GenXof gen.GenHazmat
  Spec.Tree Model.Portable Model.Platform Model.RsChunk Model.RsWide Model.RsHasher Model.RsXof Model.Machine
  Proofs.ListP Proofs.ResP Proofs.GenLibSmallP Proofs.GenLibLoopsP Proofs.GenXofP.
Import ListNotations.
Open Scope N_scope.
(* a tactic that diverges when the generated text changes is a failure, not a hang *)
Set Default Timeout 300.

Lemma hz_words_from_le_bytes_32_eq bytes : length bytes = 32%nat ->
  hz_words_from_le_bytes_32 bytes = words_of_bytes bytes.
Proof. intros H. destruct_list bytes 32. reflexivity. Qed.

Lemma hz_Hasher_new_eq p : hz_Hasher_new p = lib_of_hasher p (new_internal rs_IV 0).
Proof. reflexivity. Qed.

Lemma hz_Hasher_default_eq p : hz_Hasher_Default_default p = lib_of_hasher p (new_internal rs_IV 0).
Proof. reflexivity. Qed.

Lemma hz_Hasher_new_keyed_eq key p : length key = 32%nat ->
  hz_Hasher_new_keyed key p = lib_of_hasher p (new_internal (words_of_bytes key) rs_flag_KEYED_HASH).
Proof. intros H. unfold hz_Hasher_new_keyed. cbv zeta. rewrite (hz_words_from_le_bytes_32_eq key H). reflexivity. Qed.

Lemma hz_Hasher_new_from_context_key_eq ck p : length ck = 32%nat ->
  hz_Hasher_new_from_context_key ck p = lib_of_hasher p (new_internal (words_of_bytes ck) rs_flag_DERIVE_KEY_MATERIAL).
Proof. intros H. unfold hz_Hasher_new_from_context_key. cbv zeta. rewrite (hz_words_from_le_bytes_32_eq ck H). reflexivity. Qed.

Lemma hz_Hasher_set_input_offset_eq p h off : cs_blocks (h_cs h) < 2 ^ 8 -> cs_buf_len (h_cs h) < 2 ^ 8 ->
  hz_Hasher_set_input_offset (lib_of_hasher p h) off = res_map (lib_of_hasher p) (set_input_offset h off).
Proof.
  intros Hb Hl. unfold hz_Hasher_set_input_offset, set_input_offset.
  rewrite (lib_Hasher_count_eq p h Hb Hl). mstep. rewrite bind_assoc. apply bind_same. intros cnt _. cbn [bind].
  apply check_same. intros _. apply check_same. reflexivity.
Qed.

Lemma hz_Hasher_finalize_non_root_eq p fuel h : cs_blocks (h_cs h) < 2 ^ 8 -> cs_buf_len (h_cs h) < 2 ^ 8 ->
  (length (h_stack h) <= fuel)%nat -> (forall a, h_stack h = [a] -> cs_count (h_cs h) <> Ok 0) ->
  hz_Hasher_finalize_non_root m_parent_node_output m_Output_chaining_value fuel (lib_of_hasher p h)
  = finalize_non_root p h.
Proof.
  intros Hb Hl Hf H1. unfold hz_Hasher_finalize_non_root, finalize_non_root.
  rewrite (lib_Hasher_count_eq p h Hb Hl). mstep. rewrite bind_assoc. apply bind_ext. intros cnt _. cbn [bind].
  apply check_ext. intros _. rewrite (lib_Hasher_final_output_eq p fuel h Hf H1), bind_res_map. apply bind_ext. intros o _.
  rewrite m_cv_of_out. reflexivity.
Qed.

Definition mode_key (mode : hz_Mode) : list N :=
  match mode with
  | hz_Mode_Hash => rs_IV
  | hz_Mode_KeyedHash k | hz_Mode_DeriveKeyMaterial k => words_of_bytes k
  end.
Definition mode_flags (mode : hz_Mode) : N :=
  match mode with
  | hz_Mode_Hash => 0
  | hz_Mode_KeyedHash _ => rs_flag_KEYED_HASH
  | hz_Mode_DeriveKeyMaterial _ => rs_flag_DERIVE_KEY_MATERIAL
  end.
(* the payloads are &[u8; KEY_LEN] *)
Definition mode_ok (mode : hz_Mode) : Prop :=
  match mode with
  | hz_Mode_Hash => True
  | hz_Mode_KeyedHash k | hz_Mode_DeriveKeyMaterial k => length k = 32%nat
  end.

Lemma hz_Mode_key_words_eq mode : mode_ok mode -> hz_Mode_key_words mode = mode_key mode.
Proof. destruct mode as [|k|k]; cbn [mode_ok hz_Mode_key_words mode_key]; intros H; [reflexivity| |];
  apply hz_words_from_le_bytes_32_eq; exact H. Qed.

(* the Mode a case of the machine (Model/Machine.v) passes to hazmat; ck = the context key of the derive modes *)
Definition hz_mode_of (m : mmode) (ck : list N) : hz_Mode :=
  match m with
  | MHash => hz_Mode_Hash
  | MKeyed k => hz_Mode_KeyedHash k
  | MDerive _ | MDeriveK _ => hz_Mode_DeriveKeyMaterial ck
  end.

Lemma mode_init_hz p m key flags : mode_init p m = Ok (key, flags) ->
  exists ck, match m with MDerive c | MDeriveK c => rs_hash_derive_key_context p c = Ok ck | _ => ck = [] end /\
             key = mode_key (hz_mode_of m ck) /\ flags = mode_flags (hz_mode_of m ck).
Proof.
  destruct m as [|k|c|c]; cbn [mode_init]; intros H.
  - inversion H. exists []. repeat split.
  - inversion H. exists []. repeat split.
  - destruct (rs_hash_derive_key_context p c) as [ck| |]; cbn [bind] in H; try discriminate.
    inversion H. exists ck. repeat split.
  - destruct (rs_hash_derive_key_context p c) as [ck| |]; cbn [bind] in H; try discriminate.
    inversion H. exists ck. repeat split.
Qed.

Lemma hz_merge_subtrees_inner_eq l r mode p :
  hz_merge_subtrees_inner m_parent_node_output l r mode p
  = lib_of_out p (merge_subtrees_inner (hz_Mode_key_words mode) (hz_Mode_flags_byte mode) l r).
Proof. reflexivity. Qed.

Lemma hz_merge_subtrees_non_root_eq l r mode p :
  hz_merge_subtrees_non_root m_parent_node_output m_Output_chaining_value l r mode p
  = merge_subtrees_non_root p (hz_Mode_key_words mode) (hz_Mode_flags_byte mode) l r.
Proof. unfold hz_merge_subtrees_non_root. rewrite hz_merge_subtrees_inner_eq, m_cv_of_out. reflexivity. Qed.

Lemma hz_merge_subtrees_root_eq l r mode p :
  hz_merge_subtrees_root m_parent_node_output m_Output_root_hash l r mode p
  = merge_subtrees_root p (hz_Mode_key_words mode) (hz_Mode_flags_byte mode) l r.
Proof. unfold hz_merge_subtrees_root. rewrite hz_merge_subtrees_inner_eq, m_rh_of_out. apply bind_ret. Qed.

Lemma hz_merge_subtrees_inner_src l r mode p : length l = 32%nat -> length r = 32%nat ->
  hz_merge_subtrees_inner lib_parent_node_output l r mode p
  = lib_of_out p (merge_subtrees_inner (hz_Mode_key_words mode) (hz_Mode_flags_byte mode) l r).
Proof. intros Hl Hr. unfold hz_merge_subtrees_inner. apply (src_pno p); assumption. Qed.

Definition m_hash_all_at_once (p : platform) (input key : list N) (flags : N) : res lib_Output :=
  res_map (lib_of_out p) (hash_all_at_once p input key flags).

Lemma hz_hash_derive_key_context_eq p ctx :
  hz_hash_derive_key_context m_Output_root_hash (m_hash_all_at_once p) ctx = rs_hash_derive_key_context p ctx.
Proof.
  apply root_hash_bind.
Qed.
