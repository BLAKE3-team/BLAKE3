From Coq Require Export NArith ZArith Arith List Bool Lia.
From Coq Require Export ZifyBool ZifyNat ZifyN.
From V Require Import Base.Res Base.Word Base.Arr Spec.Tree.
Export ListNotations.
Open Scope N_scope.

(* Both settings below reach every file that requires this one.  With the hook `lia` knows `/` and `mod` by a
   numeral; the chunk and block arithmetic of TreeP.v, XofP.v and others is closed by `lia` only because of it.
   With `simpl never`, `cbn` and `simpl` leave N arithmetic on numerals (2 ^ 64, 1024 * n) as written. *)
Ltac Zify.zify_post_hook ::= Z.div_mod_to_equations.

Arguments N.add : simpl never.
Arguments N.sub : simpl never.
Arguments N.mul : simpl never.
Arguments N.div : simpl never.
Arguments N.modulo : simpl never.
Arguments N.eqb : simpl never.
Arguments N.ltb : simpl never.
Arguments N.leb : simpl never.
Arguments N.pow : simpl never.
Arguments N.land : simpl never.
Arguments N.lor : simpl never.
Arguments N.of_nat : simpl never.
Arguments N.to_nat : simpl never.

Lemma len_app a b : len (a ++ b) = len a + len b.
Proof. unfold len. rewrite app_length. lia. Qed.

Lemma len_nil : len [] = 0.
Proof. reflexivity. Qed.

Lemma len_take n l : len (take n l) = N.min n (len l).
Proof. unfold len, take. rewrite firstn_length. lia. Qed.

Lemma len_drop n l : len (drop n l) = len l - n.
Proof. unfold len, drop. rewrite skipn_length. lia. Qed.

Lemma take_drop n l : take n l ++ drop n l = l.
Proof. apply firstn_skipn. Qed.

Lemma take_all n l : len l <= n -> take n l = l.
Proof. intros H. apply firstn_all2. unfold len in H. lia. Qed.

Lemma drop_all n l : len l <= n -> drop n l = [].
Proof. intros H. apply skipn_all2. unfold len in H. lia. Qed.

Lemma take_0 l : take 0 l = [].
Proof. reflexivity. Qed.

Lemma drop_0 l : drop 0 l = l.
Proof. reflexivity. Qed.

Lemma take_app_le n a b : n <= len a -> take n (a ++ b) = take n a.
Proof.
  intros H. unfold take, len in *. rewrite firstn_app.
  replace (N.to_nat n - length a)%nat with 0%nat by lia. rewrite firstn_O, app_nil_r. reflexivity.
Qed.

Lemma take_app_ge n a b : len a <= n -> take n (a ++ b) = a ++ take (n - len a) b.
Proof.
  intros H. unfold take, len in *. rewrite firstn_app.
  rewrite firstn_all2 by lia. f_equal. f_equal. lia.
Qed.

Lemma drop_app_le n a b : n <= len a -> drop n (a ++ b) = drop n a ++ b.
Proof.
  intros H. unfold drop, len in *. rewrite skipn_app.
  replace (N.to_nat n - length a)%nat with 0%nat by lia. reflexivity.
Qed.

Lemma drop_app_ge n a b : len a <= n -> drop n (a ++ b) = drop (n - len a) b.
Proof.
  intros H. unfold drop, len in *. rewrite skipn_app.
  rewrite skipn_all2 by lia. cbn [app]. f_equal. lia.
Qed.

Lemma skipn_skipn {A} (n m : nat) (l : list A) : skipn n (skipn m l) = skipn (m + n) l.
Proof.
  revert l. induction m as [|m IH]; intros l; [reflexivity|].
  destruct l as [|x l]; [destruct n; reflexivity|]. cbn [skipn Nat.add]. apply IH.
Qed.

Lemma firstn_plus {A} (a b : nat) (l : list A) : firstn (a + b) l = firstn a l ++ firstn b (skipn a l).
Proof.
  revert l. induction a as [|a IH]; intros l; [reflexivity|].
  destruct l as [|x l]; [destruct b; reflexivity|]. cbn [Nat.add firstn skipn app]. rewrite IH. reflexivity.
Qed.

Lemma firstn_app_exact {A} (a b : list A) n : length a = n -> firstn n (a ++ b) = a.
Proof. intros <-. rewrite firstn_app, firstn_all, Nat.sub_diag. cbn [firstn]. apply app_nil_r. Qed.

Lemma skipn_app_exact {A} (a b : list A) n : length a = n -> skipn n (a ++ b) = b.
Proof. intros <-. rewrite skipn_app, skipn_all, Nat.sub_diag. reflexivity. Qed.

Lemma firstn_firstn_le {A} a b (l : list A) : (a <= b)%nat -> firstn a (firstn b l) = firstn a l.
Proof. intros H. rewrite firstn_firstn. f_equal. lia. Qed.

Lemma drop_drop n m l : drop n (drop m l) = drop (m + n) l.
Proof.
  unfold drop. rewrite skipn_skipn. f_equal. lia.
Qed.

Lemma take_take n m l : take n (take m l) = take (N.min n m) l.
Proof.
  unfold take. rewrite firstn_firstn. f_equal. lia.
Qed.

Lemma take_drop_comm n m l : take n (drop m l) = drop m (take (m + n) l).
Proof.
  unfold take, drop. rewrite skipn_firstn_comm. f_equal. lia.
Qed.

Lemma len_0_nil l : len l = 0 -> l = [].
Proof. unfold len. destruct l; [reflexivity|cbn; lia]. Qed.

Lemma firstn_N n l : firstn (N.to_nat n) l = take n l.
Proof. reflexivity. Qed.
Lemma skipn_N n l : skipn (N.to_nat n) l = drop n l.
Proof. reflexivity. Qed.

Lemma pad64_length l : len l <= 64 -> len (pad64 l) = 64.
Proof. intros H. unfold pad64, len in *. rewrite app_length, repeat_length. lia. Qed.

Lemma pad64_full l : len l = 64 -> pad64 l = l.
Proof.
  intros H. unfold pad64, len in *. replace (64 - length l)%nat with 0%nat by lia.
  cbn. apply app_nil_r.
Qed.

Lemma repeat_app {A} (x : A) a b : repeat x (a + b) = repeat x a ++ repeat x b.
Proof. induction a; cbn; [reflexivity|]. f_equal. assumption. Qed.

Lemma skipn_repeat {A} (x : A) n m : skipn n (repeat x m) = repeat x (m - n).
Proof.
  revert m. induction n as [|n IH]; intros m.
  - rewrite Nat.sub_0_r. reflexivity.
  - destruct m as [|m]; [reflexivity|]. cbn [repeat skipn Nat.sub]. apply IH.
Qed.

Lemma firstn_repeat {A} (x : A) n m : firstn n (repeat x m) = repeat x (Nat.min n m).
Proof.
  revert m. induction n as [|n IH]; intros m; [reflexivity|].
  destruct m as [|m]; [reflexivity|]. cbn [repeat firstn Nat.min]. f_equal. apply IH.
Qed.

Lemma nrange_app p a b : nrange p (a + b) = nrange p a ++ nrange (p + N.of_nat a) b.
Proof.
  revert p. induction a as [|a IH]; intros p; cbn [nrange Nat.add app].
  - f_equal. lia.
  - f_equal. rewrite IH. do 2 f_equal. lia.
Qed.

Lemma nrange_length p n : length (nrange p n) = n.
Proof. revert p. induction n as [|n IH]; intros p; cbn [nrange length]; [reflexivity|]. rewrite IH. reflexivity. Qed.

Lemma N_leb_of_nat a b : (N.of_nat a <=? N.of_nat b) = (a <=? b)%nat.
Proof. destruct (Nat.leb_spec a b); [apply N.leb_le|apply N.leb_gt]; lia. Qed.

Lemma N_eqb_of_nat a b : (N.of_nat a =? N.of_nat b) = (a =? b)%nat.
Proof. destruct (Nat.eqb_spec a b); [apply N.eqb_eq|apply N.eqb_neq]; lia. Qed.

Lemma pow2_pos a : 0 < 2 ^ a.
Proof. apply N.neq_0_lt_0, N.pow_nonzero. discriminate. Qed.

Lemma pow2_lt_le a b : 2 ^ a < 2 * 2 ^ b -> 2 ^ a <= 2 ^ b.
Proof.
  intros H. rewrite <- N.pow_succ_r' in H. apply N.pow_lt_mono_r_iff in H; [|lia].
  apply N.pow_le_mono_r; lia.
Qed.

Lemma pow2_half b : 1 <= b -> 2 ^ b = 2 * 2 ^ (b - 1).
Proof. intros H. replace b with (N.succ (b - 1)) at 1 by lia. apply N.pow_succ_r'. Qed.

Lemma pow2_divides b a : b <= a -> (2 ^ b | 2 ^ a).
Proof. intros H. exists (2 ^ (a - b)). rewrite <- N.pow_add_r. f_equal. lia. Qed.

Lemma mul_div_l a b : a <> 0 -> a * b / a = b.
Proof. intros H. rewrite N.mul_comm. apply N.div_mul, H. Qed.

Lemma take_add k1 k2 l : take k1 l ++ take k2 (drop k1 l) = take (k1 + k2) l.
Proof. unfold take, drop. rewrite N2Nat.inj_add. symmetry. apply firstn_plus. Qed.

(* the fuel S (length l / k) that the models give their loops over k-byte pieces *)
Lemma div_fuel l k : (N.to_nat (len l / k) < S (length l / N.to_nat k))%nat.
Proof. unfold len. rewrite N2Nat.inj_div, Nat2N.id. apply Nat.lt_succ_diag_r. Qed.

Lemma let_congr {A B} (P : A -> Prop) (a a' : A) (f f' : A -> B) :
  a = a' -> P a' -> (forall x, P x -> f x = f' x) -> (let x := a in f x) = (let x := a' in f' x).
Proof. intros -> H E. cbv zeta. apply E, H. Qed.

Lemma snoc_cases {A} (l : list A) : l = [] \/ exists l' a, l = l' ++ [a].
Proof. induction l as [|x l IH] using rev_ind; [left; reflexivity|right; eauto]. Qed.

Lemma arr_store_0 s vs : arr_store s 0 vs = vs ++ skipn (length vs) s.
Proof. reflexivity. Qed.

Lemma arr_store_length s off vs : (off + length vs <= length s)%nat -> length (arr_store s off vs) = length s.
Proof. intros H. unfold arr_store. rewrite !app_length, firstn_length, skipn_length. lia. Qed.

Lemma arr_store_whole s vs : length vs = length s -> arr_store s 0 vs = vs.
Proof. intros H. rewrite arr_store_0, skipn_all2 by lia. apply app_nil_r. Qed.

Lemma firstn_arr_store_0 s vs : firstn (length vs) (arr_store s 0 vs) = vs.
Proof. rewrite arr_store_0. apply firstn_app_exact. reflexivity. Qed.

Lemma arr_store_snoc out (a cv : list N) : arr_store (arr_store out 0 a) (length a) cv = arr_store out 0 (a ++ cv).
Proof.
  rewrite !arr_store_0. unfold arr_store.
  rewrite firstn_app_exact, (skipn_app _ a), app_length by reflexivity. rewrite (skipn_all2 a) by lia. cbn [app].
  rewrite skipn_skipn. rewrite <- app_assoc. f_equal. f_equal. f_equal. lia.
Qed.

Lemma arr_store_shift (l v : list N) a k : arr_store l (a + k) v = firstn a l ++ arr_store (skipn a l) k v.
Proof.
  unfold arr_store. rewrite firstn_plus, <- app_assoc. do 3 f_equal.
  replace (a + k + length v)%nat with (a + (k + length v))%nat by lia. symmetry. apply skipn_skipn.
Qed.

(* a list of known length n as its n elements *)
Tactic Notation "destruct_list" ident(l) integer(n) :=
  do n (destruct l as [|? l]; [discriminate|]); destruct l; [|discriminate].

Lemma nth_Forall {A} (P : A -> Prop) l d k : Forall P l -> P d -> P (nth k l d).
Proof. intros F D. destruct (nth_in_or_default k l d) as [I | ->]; [|exact D]. rewrite Forall_forall in F. apply F, I. Qed.

Lemma Forall_firstn {A} (P : A -> Prop) k l : Forall P l -> Forall P (firstn k l).
Proof. revert l. induction k; intros [|x l] H; cbn; auto. inversion H; subst. constructor; auto. Qed.

Lemma Forall_skipn {A} (P : A -> Prop) k l : Forall P l -> Forall P (skipn k l).
Proof. revert l. induction k; intros [|x l] H; cbn; auto. inversion H; subst. auto. Qed.

Lemma Forall_snoc {A} (P : A -> Prop) l x : Forall P l -> P x -> Forall P (l ++ [x]).
Proof. intros H Hx. apply Forall_app. split; [exact H|constructor; [exact Hx|constructor]]. Qed.

Lemma Forall2_snoc {A B} (R : A -> B -> Prop) l1 l2 x y :
  Forall2 R l1 l2 -> R x y -> Forall2 R (l1 ++ [x]) (l2 ++ [y]).
Proof. intros H Hxy. apply Forall2_app; [exact H|constructor; [exact Hxy|constructor]]. Qed.

Lemma Forall2_nth {A B} (R : A -> B -> Prop) l1 l2 i y :
  Forall2 R l1 l2 -> nth_error l2 i = Some y -> exists x, nth_error l1 i = Some x /\ R x y.
Proof.
  intros H. revert i. induction H as [|a b l1 l2 Hab H IH]; intros i Hi; [destruct i; discriminate|].
  destruct i as [|i]; cbn in *; [inversion Hi; subst; eauto|auto].
Qed.

Lemma nth_firstn_lt {A} (d : A) j n l : (j < n)%nat -> nth j (firstn n l) d = nth j l d.
Proof.
  revert j l. induction n as [|n IH]; intros j l H; [lia|].
  destruct l as [|x l]; [destruct j; reflexivity|]. destruct j as [|j]; [reflexivity|].
  cbn [firstn nth]. apply IH. lia.
Qed.

Lemma nth_skipn_add {A} (d : A) j m l : nth j (skipn m l) d = nth (m + j) l d.
Proof.
  revert l. induction m as [|m IH]; intros l; [reflexivity|].
  destruct l as [|x l]; [destruct j; reflexivity|]. cbn [skipn Nat.add nth]. apply IH.
Qed.

Lemma nth_map_lt {A B} (f : A -> B) (l : list A) (i : nat) (dA : A) (dB : B) :
  (i < length l)%nat -> nth i (map f l) dB = f (nth i l dA).
Proof.
  revert i. induction l as [|x l IH]; intros [|i] Hi; cbn in *; try lia; [reflexivity|].
  apply IH. lia.
Qed.
