(* C08: the scheduled recursion equals the serial one for EVERY schedule tree. *)
From V Require Import Proofs.ListP Proofs.ResP.
From V Require Import Base.Res Base.Word Base.MachInt gen.GenConsts gen.GenFormulas
  Spec.Tree Model.Portable Model.Platform Model.RsChunk Model.RsWide Model.Concurrency Model.RsWideSched
  Proofs.ConcurrencyP.
Open Scope N_scope.

Lemma weave_interleave {A} : forall order (l r : list A), Interleave l r (weave order l r).
Proof.
  induction order as [|b o IH]; intros l r; cbn [weave].
  - apply interleave_left_first.
  - destruct b.
    + destruct l as [|a l']; [|apply IL_left; apply IH].
      replace r with ([] ++ r) at 2 by reflexivity. apply interleave_left_first.
    + destruct r as [|c r']; [|apply IL_right; apply IH].
      rewrite <- (app_nil_r l) at 2. apply interleave_left_first.
Qed.

(* conversely every interleaving is the weave of some order: the schedules quantified over are all of them *)
Lemma interleave_is_weave {A} : forall (l r m : list A), Interleave l r m -> exists order, m = weave order l r.
Proof.
  intros l r m H. induction H as [|x l r m H [o Ho]|x l r m H [o Ho]].
  - exists []. reflexivity.
  - exists (true :: o). cbn [weave]. rewrite Ho. reflexivity.
  - exists (false :: o). cbn [weave]. rewrite Ho. reflexivity.
Qed.

(* the two programs run the same steps up to the point where the children are read *)
Theorem wide_sched_eq p (Hdeg : p_degree p <= p_max_degree p) : forall fuel s input key ctr flags cap,
  compress_subtree_wide_sched fuel p s input key ctr flags cap = compress_subtree_wide fuel p input key ctr flags cap.
Proof.
  induction fuel as [|fuel IH]; intros s input key ctr flags cap; [reflexivity|].
  cbn [compress_subtree_wide_sched compress_subtree_wide].
  destruct (nlen input <=? p_degree p * rs_CHUNK_LEN); [reflexivity|].
  do 2 (apply bind_ext; intros _ _). apply bind_ext; intros left_len _. apply bind_ext; intros _ _.
  apply bind_ext; intros rc _. apply bind_ext; intros degree Ed. apply bind_ext; intros _ _.
  rewrite !IH. apply bind_ext; intros lcvs _. apply bind_ext; intros rcvs _.
  apply bind_ext; intros [] El. apply bind_ext; intros [] Er.
  apply check_Ok in El, Er.
  assert (Hd : degree <= max_degree_or_2 p).
  { unfold max_degree_or_2. destruct (left_len =? rs_CHUNK_LEN).
    - destruct (p_degree p =? 1); cbn [check bind] in Ed; inversion Ed; lia.
    - inversion Ed. lia. }
  rewrite split_node_schedule_independent; [reflexivity| | |apply weave_interleave]; lia.
Qed.

Corollary to_parent_node_sched_eq p (Hdeg : p_degree p <= p_max_degree p) s input key ctr flags :
  compress_subtree_to_parent_node_sched p s input key ctr flags = compress_subtree_to_parent_node p input key ctr flags.
Proof. unfold compress_subtree_to_parent_node_sched, compress_subtree_to_parent_node. rewrite wide_sched_eq by exact Hdeg. reflexivity. Qed.

Corollary hash_all_at_once_sched_eq p (Hdeg : p_degree p <= p_max_degree p) s input key flags :
  hash_all_at_once_sched p s input key flags = hash_all_at_once p input key flags.
Proof. unfold hash_all_at_once_sched, hash_all_at_once. rewrite to_parent_node_sched_eq by exact Hdeg. reflexivity. Qed.

(* the hasher: update_with_join::<J> = update, for every schedule *)
From V Require Import Model.RsHasher Model.RsHasherSched.

Lemma update_loop_sched_eq p (Hdeg : p_degree p <= p_max_degree p) sch : forall fuel h input,
  update_loop_sched fuel p sch h input = update_loop fuel p h input.
Proof.
  induction fuel as [|fuel IH]; intros h input; [reflexivity|].
  cbn [update_loop_sched update_loop].
  destruct (nlen input <=? rs_CHUNK_LEN); [reflexivity|].
  do 7 (apply bind_ext; intros ? _).
  rewrite to_parent_node_sched_eq by exact Hdeg. do 2 (apply bind_ext; intros ? _). apply IH.
Qed.

Theorem hasher_update_sched_eq p (Hdeg : p_degree p <= p_max_degree p) sch h input :
  hasher_update_sched p sch h input = hasher_update p h input.
Proof.
  unfold hasher_update_sched, hasher_update, hasher_update_tail_sched, hasher_update_tail.
  do 4 (apply bind_ext; intros ? _). apply bind_ext; intros [[h1 in1] done] _. destruct done; [reflexivity|].
  rewrite update_loop_sched_eq by exact Hdeg. reflexivity.
Qed.

Theorem updates_sched_eq p (Hdeg : p_degree p <= p_max_degree p) : forall pieces h,
  updates_sched p h pieces = updates_serial p h (map snd pieces).
Proof.
  induction pieces as [|[sch x] tl IH]; intros h; [reflexivity|].
  cbn [updates_sched updates_serial map snd]. rewrite hasher_update_sched_eq by exact Hdeg.
  apply bind_ext; intros h' _. apply IH.
Qed.
