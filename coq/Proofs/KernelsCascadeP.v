(* C05: the hash_many cascades of Model/Kernels.v (a batch loop per degree, then one input at a time) equal
   Portable.hash_many, over any kernels that satisfy hN_ok / h1_ok / cip_ok. *)
From Coq Require Import NArith ZArith List Bool Arith Lia.
From V Require Import Base.Res Base.Word Base.MachInt gen.GenConsts gen.GenFormulas
  Spec.Compress Model.Portable Model.Platform Model.Kernels Proofs.PortableP Proofs.ListP Proofs.WordP Proofs.RoundHomP
  Proofs.TransposeP Proofs.KernelsP.
Import ListNotations.
Open Scope N_scope.

Lemma single_loop_spec h1 cadd zip blocks key incr fl fs fe :
  h1_ok h1 -> cadd_ok cadd -> length key = 8%nat ->
  forall inputs counter cap,
    (forall i, In i inputs -> length i = (blocks * 64)%nat) ->
    counter + N.of_nat (length inputs) < 2 ^ 64 ->
    (zip = true -> N.of_nat (length inputs) <= cap) ->
    single_loop h1 cadd zip inputs blocks key counter incr fl fs fe cap =
    Ok (hm_spec inputs key counter incr fl fs fe).
Proof.
  intros H1 Hca Lk. induction inputs as [|x tl IH]; intros counter cap Hlen Hc Hcap; [reflexivity|].
  cbn [single_loop hm_spec]. cbn [length] in Hc, Hcap.
  replace (zip && (cap =? 0)) with false.
  2:{ destruct zip; [|reflexivity]. cbn [andb]. symmetry. apply N.eqb_neq. specialize (Hcap eq_refl). lia. }
  rewrite (H1 x blocks key counter fl fs fe Lk) by (apply Hlen; left; reflexivity). cbn [bind].
  assert (E : (if incr then cadd counter 1 else Ok counter) = Ok (if incr then counter + 1 else counter)).
  { destruct incr; [|reflexivity]. apply Hca. lia. }
  rewrite E. cbn [bind]. rewrite IH; [reflexivity| | |].
  - intros i Hi. apply Hlen. right. exact Hi.
  - destruct incr; lia.
  - intros Hz. specialize (Hcap Hz). lia.
Qed.

(* the type &[&[u8; N]] of hash_many's inputs, N a multiple of BLOCK_LEN (the debug_assert of hash1) *)
Definition uniform (inputs : list (list N)) : Prop :=
  forall i, In i inputs -> length i = (blocks_of inputs * 64)%nat.

Lemma uniform_of blocks inputs : (forall i, In i inputs -> length i = (blocks * 64)%nat) -> uniform inputs.
Proof.
  intros U. destruct inputs as [|x tl]; [intros i []|]. intros i Hi. unfold blocks_of. cbn [hd].
  rewrite (U x (or_introl eq_refl)), Nat.div_mul by discriminate. apply U, Hi.
Qed.

Lemma uniform_mod inputs : uniform inputs -> forall i, In i inputs -> Nat.modulo (length i) 64 = 0%nat.
Proof. intros U i Hi. rewrite (U i Hi). apply Nat.mod_mul. discriminate. Qed.

Lemma hash_many_spec inputs key c incr fl fs fe cap : uniform inputs ->
  c + N.of_nat (length inputs) < 2 ^ 64 ->
  hash_many inputs key c incr fl fs fe cap =
  if N.of_nat (length inputs) <=? cap then Ok (hm_spec inputs key c incr fl fs fe) else Panic 1101.
Proof.
  intros U Hc. unfold hash_many. destruct (_ <=? _); cbn [check bind]; [|reflexivity].
  apply hash_many_go_spec; [apply uniform_mod, U|exact Hc].
Qed.

Lemma hm_spec_split k inputs key c incr fl fs fe : (k <= length inputs)%nat ->
  hm_spec (firstn k inputs) key c incr fl fs fe ++ hm_spec (skipn k inputs) key (lane_ctr c incr k) incr fl fs fe =
  hm_spec inputs key c incr fl fs fe.
Proof.
  intros Hk. rewrite <- (firstn_skipn k inputs) at 3. rewrite hm_spec_app, firstn_length, Nat.min_l by exact Hk.
  reflexivity.
Qed.

(* a batch loop followed by F, which gets the outputs so far and the loop-carried state: it is enough that F finishes
   the job on ANY state on which the job is specified (G: what the caller does with the whole output) *)
Lemma batch_while_then deg hN cadd chk blocks key incr fl fs fe :
  (0 < deg)%nat -> hN_ok deg hN -> cadd_ok cadd -> length key = 8%nat ->
  forall fuel inputs counter cap
    (F : list (list N) * (list (list N) * N * N) -> res (list (list N))) (G : list (list N) -> list (list N)),
  (length inputs < fuel)%nat ->
  (forall i, In i inputs -> length i = (blocks * 64)%nat) ->
  counter + N.of_nat (length inputs) < 2 ^ 64 ->
  (chk = true -> N.of_nat (length inputs) <= cap) ->
  (forall o rest c' cap', (forall i, In i rest -> length i = (blocks * 64)%nat) ->
     c' + N.of_nat (length rest) < 2 ^ 64 -> (chk = true -> N.of_nat (length rest) <= cap') ->
     F (o, (rest, c', cap')) = Ok (G (o ++ hm_spec rest key c' incr fl fs fe))) ->
  (x <- batch_while fuel deg hN cadd chk inputs blocks key counter incr fl fs fe cap ;; F x) =
  Ok (G (hm_spec inputs key counter incr fl fs fe)).
Proof.
  intros Hd HN Hca Lk. induction fuel as [|fuel IH]; intros inputs counter cap F G Hf U Hc Hcap HF; [lia|].
  cbn [batch_while]. destruct (Nat.leb_spec deg (length inputs)) as [Hle|Hlt]; cbn [andb bind]; [|apply HF; assumption].
  replace (negb chk || (N.of_nat deg <=? cap)) with true
    by (destruct chk; [specialize (Hcap eq_refl); cbn [negb orb]; lia|reflexivity]).
  rewrite (HN (firstn deg inputs) blocks key counter incr fl fs fe);
    [|rewrite firstn_length; lia|exact Lk|intros i Hi; apply U; eapply firstn_In; exact Hi|lia].
  replace (if incr then cadd counter (N.of_nat deg) else Ok counter) with (Ok (lane_ctr counter incr deg) : res N)
    by (unfold lane_ctr; destruct incr; [rewrite Hca by lia|]; reflexivity).
  cbn [bind]. set (o1 := hm_spec (firstn deg inputs) key counter incr fl fs fe).
  (* the rest of the loop, followed by F, is again a loop followed by something that finishes the job *)
  unshelve epose proof (IH (skipn deg inputs) (lane_ctr counter incr deg) (cap - N.of_nat deg)
                          (fun x => F (o1 ++ fst x, snd x)) (fun x => G (o1 ++ x)) _ _ _ _ _) as E;
    try rewrite skipn_length.
  - lia.
  - intros i Hi. apply U. eapply skipn_In. exact Hi.
  - unfold lane_ctr. destruct incr; lia.
  - intros Hk. specialize (Hcap Hk). lia.
  - intros o rest c' cap' U' B' C'. cbn [fst snd]. rewrite HF, app_assoc by assumption. reflexivity.
  - destruct (batch_while fuel deg hN cadd chk (skipn deg inputs) blocks key (lane_ctr counter incr deg) incr fl fs fe
                          (cap - N.of_nat deg)) as [[o' st]| |]; cbn [bind fst snd] in E |- *;
      rewrite E; unfold o1; rewrite hm_spec_split by exact Hle; reflexivity.
Qed.

(* k is Portable.hash_many inside the argument types, where `extra` holds of (inputs, cap).  `rs`: k has the signature
   of the Rust hash_many (a capacity, no block count), as the FFI wrappers around the C cascades have too; hm_c_ok
   below is for the C signature *)
Definition hm_rs_ok (extra : list (list N) -> N -> bool) (k : hash_many_fn) : Prop :=
  forall inputs key ctr incr fl fs fe cap, length key = 8%nat -> uniform inputs -> extra inputs cap = true ->
    ctr + N.of_nat (length inputs) < 2 ^ 64 ->
    k inputs key ctr incr fl fs fe cap = hash_many inputs key ctr incr fl fs fe cap.

Theorem hash_many_rs4_ok lc4 cip : lc_ok 4 lc4 -> cip_ok cip -> hm_rs_ok no_extra (hash_many_rs4 lc4 cip).
Proof.
  intros Hl Hc inputs key ctr incr fl fs fe cap Lk U _ Hctr.
  rewrite hash_many_spec by assumption. unfold hash_many_rs4.
  destruct (N.leb_spec (N.of_nat (length inputs)) cap) as [Hcap|Hcap]; cbn [check bind]; [|reflexivity].
  apply (batch_while_then 4 _ cadd_rs true) with (G := fun x => x);
    try assumption; [lia|apply hashN_ok; auto using tmsg_ok_4, store_ok_4; lia|exact cadd_rs_ok|lia|auto|].
  intros o rest c' cap' U' B' C'. cbv beta iota.
  rewrite (single_loop_spec (hash1_rs cip) cadd_rs true (blocks_of inputs) key incr fl fs fe (hash1_rs_ok cip Hc) cadd_rs_ok Lk)
    by assumption. reflexivity.
Qed.

Theorem hash_many_rs8_ok lc8 lc4 cip : lc_ok 8 lc8 -> lc_ok 4 lc4 -> cip_ok cip ->
  hm_rs_ok no_extra (hash_many_rs8 lc8 lc4 cip).
Proof.
  intros Hl8 Hl4 Hc inputs key ctr incr fl fs fe cap Lk U _ Hctr.
  rewrite hash_many_spec by assumption. unfold hash_many_rs8.
  destruct (N.leb_spec (N.of_nat (length inputs)) cap) as [Hcap|Hcap]; cbn [check bind]; [|reflexivity].
  apply (batch_while_then 8 _ cadd_rs true) with (G := fun x => x);
    try assumption; [lia|apply hashN_ok; auto using tmsg_ok_8, store_ok_8; lia|exact cadd_rs_ok|lia|auto|].
  intros o rest c' cap' U' B' C'. cbv beta iota. apply uniform_of in U'.
  rewrite (hash_many_rs4_ok lc4 cip Hl4 Hc), hash_many_spec by (assumption || reflexivity).
  replace (N.of_nat (length rest) <=? cap') with true by (specialize (C' eq_refl); lia). reflexivity.
Qed.

Definition hm_c_ok (f : list (list N) -> nat -> list N -> N -> bool -> N -> N -> N -> res (list (list N))) : Prop :=
  forall inputs blocks key ctr incr fl fs fe,
    length key = 8%nat -> (forall i, In i inputs -> length i = (blocks * 64)%nat) ->
    ctr + N.of_nat (length inputs) < 2 ^ 64 ->
    f inputs blocks key ctr incr fl fs fe = Ok (hm_spec inputs key ctr incr fl fs fe).

Theorem hash_many_c4_ok lc4 cip : lc_ok 4 lc4 -> cip_ok cip -> hm_c_ok (hash_many_c4 lc4 cip).
Proof.
  intros Hl Hc inputs blocks key ctr incr fl fs fe Lk U Hctr. unfold hash_many_c4.
  apply (batch_while_then 4 _ cadd_c false) with (G := fun x => x);
    try assumption; [lia|apply hashN_ok; auto using tmsg_ok_4, store_ok_4; lia|exact cadd_c_ok|lia|discriminate|].
  intros o rest c' cap' U' B' _. cbv beta iota.
  rewrite (single_loop_spec (hash_one_c cip) cadd_c false blocks key incr fl fs fe (hash_one_c_ok cip Hc) cadd_c_ok Lk)
    by (assumption || discriminate). reflexivity.
Qed.

Theorem hash_many_c8_ok lc8 lc4 cip : lc_ok 8 lc8 -> lc_ok 4 lc4 -> cip_ok cip ->
  hm_c_ok (hash_many_c8 lc8 lc4 cip).
Proof.
  intros Hl8 Hl4 Hc inputs blocks key ctr incr fl fs fe Lk U Hctr. unfold hash_many_c8.
  apply (batch_while_then 8 _ cadd_c false) with (G := fun x => x);
    try assumption; [lia|apply hashN_ok; auto using tmsg_ok_8, store_ok_8; lia|exact cadd_c_ok|lia|discriminate|].
  intros o rest c' cap' U' B' _. cbv beta iota.
  rewrite (hash_many_c4_ok lc4 cip Hl4 Hc rest blocks key c' incr fl fs fe Lk U' B'). reflexivity.
Qed.

Lemma hash16_avx512_ok : hN_ok 16 hash16_avx512.
Proof. apply (hashN_ok 16); [lia|exact tmsg_ok_16|apply load_counters_andnot_ok; cbn; lia|exact store_ok_16]. Qed.
Lemma hash8_avx512_ok : hN_ok 8 hash8_avx512.
Proof. apply (hashN_ok 8); [lia|exact tmsg_ok_8|apply load_counters_64_ok|exact store_ok_8]. Qed.
Lemma hash4_avx512_ok : hN_ok 4 hash4_avx512.
Proof. apply (hashN_ok 4); [lia|exact tmsg_ok_4|apply load_counters_64_ok|exact store_ok_4]. Qed.
Theorem hash4_rs_ok : hN_ok 4 hash4_rs.
Proof. apply (hashN_ok 4); [lia|exact tmsg_ok_4|apply load_counters_rs_ok|exact store_ok_4]. Qed.
Theorem hash8_rs_ok : hN_ok 8 hash8_rs.
Proof. apply (hashN_ok 8); [lia|exact tmsg_ok_8|apply load_counters_rs_ok|exact store_ok_8]. Qed.
Theorem hash4_c_ok : hN_ok 4 hash4_c.
Proof. apply (hashN_ok 4); [lia|exact tmsg_ok_4|apply load_counters_cmp_ok; cbn; lia|exact store_ok_4]. Qed.
Theorem hash8_c_ok : hN_ok 8 hash8_c.
Proof. apply (hashN_ok 8); [lia|exact tmsg_ok_8|apply load_counters_cmp_ok; cbn; lia|exact store_ok_8]. Qed.

Theorem hash_many_c16_ok cip : cip_ok cip -> hm_c_ok (hash_many_c16 cip).
Proof.
  intros Hc inputs blocks key ctr incr fl fs fe Lk U Hctr. unfold hash_many_c16.
  apply (batch_while_then 16 _ cadd_c false) with (G := fun x => x);
    try assumption; [lia|exact hash16_avx512_ok|exact cadd_c_ok|lia|discriminate|].
  intros o16 r1 c1 cap1 U1 B1 _. cbv beta iota.
  apply (batch_while_then 8 _ cadd_c false) with (G := fun x => o16 ++ x);
    try assumption; [lia|exact hash8_avx512_ok|exact cadd_c_ok|lia|discriminate|].
  intros o8 r2 c2 cap2 U2 B2 _. cbv beta iota.
  apply (batch_while_then 4 _ cadd_c false) with (G := fun x => o16 ++ o8 ++ x);
    try assumption; [lia|exact hash4_avx512_ok|exact cadd_c_ok|lia|discriminate|].
  intros o4 r3 c3 cap3 U3 B3 _. cbv beta iota.
  rewrite (single_loop_spec (hash_one_c cip) cadd_c false blocks key incr fl fs fe (hash_one_c_ok cip Hc) cadd_c_ok Lk)
    by (assumption || discriminate). reflexivity.
Qed.

(* the FFI wrapper: equal to portable hash_many whenever its (unconditional) assertion holds;
   when it fails the wrapper panics in every build (code 101), portable only in debug (1101) *)
Theorem ffi_hash_many_ok f : hm_c_ok f -> hm_rs_ok cap_ok (ffi_hash_many f).
Proof.
  intros Hf inputs key ctr incr fl fs fe cap Lk U Hcap Hctr. apply N.leb_le in Hcap.
  rewrite hash_many_spec by assumption. unfold ffi_hash_many.
  replace (N.of_nat (length inputs) <=? cap) with true by lia. cbn [check bind].
  apply Hf; assumption.
Qed.

Theorem ffi_hash_many_short f inputs key ctr incr fl fs fe cap : cap < N.of_nat (length inputs) ->
  ffi_hash_many f inputs key ctr incr fl fs fe cap = Panic 101.
Proof. intros H. unfold ffi_hash_many. replace (_ <=? _) with false by lia. reflexivity. Qed.
