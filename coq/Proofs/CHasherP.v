(* C06: the chunk and wide functions of the model of the C library (Model/CHasher.v) succeed with the same value
   whenever the Rust crate's counterparts (Model/RsChunk.v, Model/RsWide.v) do, so ChunkP / WideP carry over;
   output_root_bytes writes exactly S[seek .. seek + out_len). *)
From V Require Import Proofs.ListP.
From V Require Import Base.Res Base.Word Base.MachInt gen.GenConsts gen.GenFormulas
  Spec.Compress Spec.Tree Spec.Blake3 Model.Portable Model.Platform Model.RsChunk Model.RsWide Model.RsXof Model.CHasher
  Proofs.PortableP Proofs.ChunkP Proofs.TreeP Proofs.FormulasP Proofs.WideP Proofs.C01P Proofs.XofP
  Proofs.StackArithP Proofs.ResP Proofs.CFormulasP.
Open Scope N_scope.

(* inversion of `H : bind m k = Ok _` that destructs m, so that the same call in the goal (the C model's side of a
   simulation) is replaced by its result as well; ResP.inv_bind leaves m alone *)
Ltac sim_bind H x E :=
  match type of H with
  | bind ?m _ = Ok _ => destruct m as [x| |] eqn:E; cbn [bind] in H; [|discriminate H|discriminate H]
  end.

(* chunk_state_update first flushes a partly filled buf (head), then compresses whole blocks and leaves the rest in
   buf (tail) *)
Definition c_cs_update_head (p : platform) (cs : chunk_state) (input : list N) : res (chunk_state * list N) :=
  if 0 <? cs_buf_len cs then
    '(cs, take) <- c_cs_fill_buf cs input ;;
    let input := skipn (N.to_nat take) input in
    if 0 <? nlen input then
      let cv := p_compress_in_place p (cs_cv cs) (cs_buf cs) c_BLOCK_LEN (cs_ctr cs)
                  (N.lor (cs_flags cs) (c_cs_start_flag cs)) in
      blocks <- mi_add 8 (cs_blocks cs) 1 ;;
      Ok (mkCS cv (cs_ctr cs) c_zero_block 0 blocks (cs_flags cs), input)
    else Ok (cs, input)
  else Ok (cs, input).

Definition c_cs_update_tail (fuel : nat) (p : platform) (cs : chunk_state) (input : list N) : res chunk_state :=
  '(cs, input) <- c_cs_update_loop fuel p cs input ;;
  '(cs, _) <- c_cs_fill_buf cs input ;;
  Ok cs.

Lemma c_cs_update_split p cs input :
  c_cs_update p cs input
  = ('(cs1, in1) <- c_cs_update_head p cs input ;; c_cs_update_tail (S (Nat.div (length in1) 64)) p cs1 in1).
Proof. reflexivity. Qed.

(* output_root_bytes: the bytes up to the next block boundary (head), then whole blocks and a last partial block *)
Definition c_orb_head (p : platform) (o : output) (offset counter out_len : N) : res (list N * N * N) :=
  if negb (offset =? 0) then
    let wide_buf := p_compress_xof p (o_cv o) (o_block o) (o_blen o) counter (N.lor (o_flags o) c_flag_ROOT) in
    available <- c_orb_available offset ;;
    let bytes := if available <? out_len then available else out_len in
    assert! (offset + bytes <=? nlen wide_buf) code 310 ;;
    out_len' <- mi_sub 64 out_len bytes ;;
    counter' <- mi_add 64 counter 1 ;;
    Ok (firstn (N.to_nat bytes) (skipn (N.to_nat offset) wide_buf), out_len', counter')
  else Ok ([], out_len, counter).

Definition c_orb_rest (p : platform) (o : output) (head : list N) (out_len counter : N) : res (list N) :=
  let flags := N.lor (o_flags o) c_flag_ROOT in
  blocks <- c_orb_blocks out_len ;;
  mid <- (if negb (blocks =? 0) then p_xof_many p (o_cv o) (o_block o) (o_blen o) counter flags blocks else Ok []) ;;
  counter <- mi_add 64 counter blocks ;;
  whole <- c_orb_whole out_len ;;
  assert! (nlen mid =? whole) code 311 ;;
  out_len <- mi_sub 64 out_len whole ;;
  if negb (out_len =? 0) then
    let wide_buf := p_compress_xof p (o_cv o) (o_block o) (o_blen o) counter flags in
    assert! (out_len <=? nlen wide_buf) code 312 ;;
    Ok (head ++ mid ++ firstn (N.to_nat out_len) wide_buf)
  else Ok (head ++ mid).

Lemma c_output_root_bytes_split p o seek out_len :
  c_output_root_bytes p o seek out_len =
  if out_len =? 0 then Ok [] else
  counter <- c_orb_counter seek ;;
  offset <- c_orb_offset seek ;;
  '(head, out_len, counter) <- c_orb_head p o offset counter out_len ;;
  c_orb_rest p o head out_len counter.
Proof. reflexivity. Qed.

Section Sim.
  Variable p : platform.

  Lemma c_fill_buf_sim cs input cs' rest :
    cs_fill_buf cs input = Ok (cs', rest) ->
    exists take, c_cs_fill_buf cs input = Ok (cs', take) /\ rest = skipn (N.to_nat take) input.
  Proof.
    intros H. unfold cs_fill_buf in H. unfold c_cs_fill_buf. change c_BLOCK_LEN with rs_BLOCK_LEN.
    sim_bind H want Ew. inv_check H E1. inv_check H E2. cbn [bind]. cbn zeta.
    replace (cs_buf_len cs + N.min want (nlen input) <=? nlen (cs_buf cs)) with true by lia. cbn [check bind].
    sim_bind H bl Eb. cbn [bind]. inversion H; subst. eexists. split; reflexivity.
  Qed.

  Lemma c_cs_update_loop_sim : forall fuel cs input r,
    cs_update_loop fuel p cs input = Ok r -> c_cs_update_loop fuel p cs input = Ok r.
  Proof.
    induction fuel as [|fuel IH]; intros cs input r H; cbn [cs_update_loop c_cs_update_loop] in *;
      change c_BLOCK_LEN with rs_BLOCK_LEN.
    - destruct (nlen input <=? rs_BLOCK_LEN); [exact H|discriminate].
    - destruct (nlen input <=? rs_BLOCK_LEN); [exact H|].
      inv_check H E1. sim_bind H bl Eb. apply IH. exact H.
  Qed.

  Lemma c_cs_update_sim cs input cs' :
    cs_update p cs input = Ok cs' -> c_cs_update p cs input = Ok cs'.
  Proof.
    intros H. unfold cs_update in H. rewrite c_cs_update_split.
    sim_bind H r1 E1. destruct r1 as [cs1 in1].
    assert (H1 : c_cs_update_head p cs input = Ok (cs1, in1)).
    { unfold c_cs_update_head. destruct (0 <? cs_buf_len cs); [|exact E1].
      sim_bind E1 r0 E0. destruct r0 as [cs0 rest].
      destruct (c_fill_buf_sim cs input cs0 rest E0) as (take & Hc & ->). rewrite Hc. cbn [bind]. cbn zeta.
      destruct (nlen (skipn (N.to_nat take) input) =? 0) eqn:Ez; cbn [negb] in E1.
      - replace (0 <? nlen (skipn (N.to_nat take) input)) with false by lia. exact E1.
      - replace (0 <? nlen (skipn (N.to_nat take) input)) with true by lia.
        inv_check E1 Ea. exact E1. }
    rewrite H1. cbn [bind]. unfold c_cs_update_tail. clear H1 E1.
    unfold cs_update_tail in H.
    sim_bind H r2 E2. destruct r2 as [cs2 in2]. rewrite (c_cs_update_loop_sim _ _ _ _ E2). cbn [bind].
    sim_bind H r3 E3. destruct r3 as [cs3 in3].
    destruct (c_fill_buf_sim cs2 in2 cs3 in3 E3) as (take & Hc & _). rewrite Hc. cbn [bind].
    inv_check H Ea. sim_bind H c Ec. inv_check H Eb. exact H.
  Qed.

  Lemma c_ccp_sim input key ctr flags cap v :
    compress_chunks_parallel p input key ctr flags cap = Ok v ->
    c_compress_chunks_parallel p input key ctr flags cap = Ok v.
  Proof.
    intros H. unfold compress_chunks_parallel in H. unfold c_compress_chunks_parallel.
    change c_CHUNK_LEN with rs_CHUNK_LEN.
    inv_check H E1. replace (0 <? nlen input) with true by (destruct (nlen input =? 0) eqn:E; [discriminate|lia]).
    cbn [check bind]. inv_check H E2.
    destruct (chunks_exact_of rs_CHUNK_LEN input) as [chunks rem].
    inv_check H E3. sim_bind H cvs Eh.
    change c_flag_CHUNK_START with rs_flag_CHUNK_START. change c_flag_CHUNK_END with rs_flag_CHUNK_END.
    rewrite Eh. cbn [bind].
    destruct (nlen rem =? 0) eqn:Ez; cbn [negb] in H.
    - replace (0 <? nlen rem) with false by lia. exact H.
    - replace (0 <? nlen rem) with true by lia.
      sim_bind H counter Ec. sim_bind H cs Eu. cbn zeta.
      apply c_cs_update_sim in Eu. cbn [check bind].
      match goal with |- bind ?m _ = _ => replace m with (@Ok chunk_state cs) by (symmetry; exact Eu) end. cbn [check bind].
      inv_check H E4. exact H.
  Qed.

  Lemma c_cpp_sim cvs key flags cap v :
    compress_parents_parallel p cvs key flags cap = Ok v ->
    c_compress_parents_parallel p cvs key flags cap = Ok v.
  Proof.
    intros H. unfold compress_parents_parallel in H. unfold c_compress_parents_parallel. unfold nlen_l.
    inv_check H E1. inv_check H E2. destruct (pair_blocks cvs) as [parents odd].
    inv_check H E3. change c_flag_PARENT with rs_flag_PARENT. sim_bind H outs Eh.
    destruct odd as [cv|]; [|exact H]. inv_check H E4. exact H.
  Qed.

  Lemma c_condense_sim : forall fuel cvs key flags v,
    condense_loop fuel p cvs key flags = Ok v -> c_condense_loop fuel p cvs key flags = Ok v.
  Proof.
    induction fuel as [|fuel IH]; intros cvs key flags v H; cbn [condense_loop c_condense_loop] in *; unfold nlen_l.
    - destruct (N.of_nat (length cvs) <=? 2); [exact H|discriminate].
    - destruct (N.of_nat (length cvs) <=? 2); [exact H|].
      sim_bind H outs E. rewrite (c_cpp_sim _ _ _ _ _ E). cbn [bind]. apply IH. exact H.
  Qed.

  Hypothesis Hdeg : 1 <= p_degree p.

  Lemma c_wide_sim : forall fuel input key ctr flags cap v,
    nlen input < 2 ^ 64 ->
    compress_subtree_wide fuel p input key ctr flags cap = Ok v ->
    c_compress_subtree_wide fuel p input key ctr flags cap = Ok v.
  Proof.
    induction fuel as [|fuel IH]; intros input key ctr flags cap v H64 H;
      cbn [compress_subtree_wide c_compress_subtree_wide] in *; change c_CHUNK_LEN with rs_CHUNK_LEN.
    - destruct (nlen input <=? p_degree p * rs_CHUNK_LEN); [apply c_ccp_sim; exact H|discriminate].
    - destruct (nlen input <=? p_degree p * rs_CHUNK_LEN) eqn:Ed; [apply c_ccp_sim; exact H|].
      inv_check H E1. inv_check H E2. change rs_CHUNK_LEN with 1024 in *.
      rewrite rs_left_subtree_len_spec in H by lia. cbn [bind] in H.
      rewrite c_left_subtree_len_spec by lia. cbn [bind].
      destruct (left_len_spec (nlen input) ltac:(lia)) as (a & Ha & Ha1 & Ha2).
      set (L := left_len (nlen input)) in *.
      inv_check H E3. unfold mi_sub. replace (L <=? nlen input) with true by lia. cbn [bind].
      unfold rs_right_chunk_counter, mb, mu, mi_cast, mi_div in H. cbn [bind] in H.
      change rs_CHUNK_LEN with 1024 in H. change (1024 =? 0) with false in H. cbn iota in H. cbn [bind] in H.
      rewrite N.land_ones in H. rewrite (N.mod_small (L / 1024)) in H by lia.
      sim_bind H rc Erc. cbn [bind].
      assert (Hdg : exists degree,
                 (if L =? 1024 then assert! (p_degree p =? 1) code 1206 ;; Ok 1 else Ok (N.max (p_degree p) 2)) = Ok degree /\
                 (if (1024 <? L) && (p_degree p =? 1) then 2 else p_degree p) = degree).
      { pose proof (pow2_pos a). destruct (L =? 1024) eqn:EL.
        - destruct (p_degree p =? 1) eqn:E1d; cbn [check bind]; [|exfalso; destruct (p_degree p =? 1); cbn in H; discriminate].
          exists 1. split; [reflexivity|]. replace (1024 <? L) with false by lia. cbn [andb]. lia.
        - exists (N.max (p_degree p) 2). split; [reflexivity|].
          replace (1024 <? L) with true by lia. cbn [andb]. destruct (p_degree p =? 1) eqn:E1d; lia. }
      destruct Hdg as (degree & Hd1 & Hd2). rewrite Hd1 in H. cbn [bind] in H. rewrite Hd2.
      inv_check H E4. sim_bind H lcvs El. sim_bind H rcvs Er.
      assert (HlL : nlen (firstn (N.to_nat L) input) < 2 ^ 64) by (unfold nlen in *; rewrite firstn_length; lia).
      assert (HlR : nlen (skipn (N.to_nat L) input) < 2 ^ 64) by (unfold nlen in *; rewrite skipn_length; lia).
      rewrite (IH _ _ _ _ _ _ HlL El). cbn [bind].
      rewrite (IH _ _ _ _ _ _ HlR Er). cbn [bind].
      unfold nlen_l. inv_check H E5. inv_check H E6.
      destruct (N.of_nat (length lcvs) =? 1) eqn:E7.
      + replace (1 <=? N.of_nat (length rcvs)) with true by lia. cbn [check bind]. inv_check H E8. exact H.
      + apply c_cpp_sim. exact H.
  Qed.
End Sim.

Section CWide.
  Variable p : platform.
  Hypothesis POK : PlatformOK p.
  Variables (K : list N) (F : N).
  Hypothesis HK : length K = 8%nat.

  Notation tcv := (tree_cv spec_c8 K F).

  Lemma c_cs_update_spec T cs bs input :
    Tight spec_c8 K F T cs bs -> len (bs ++ input) <= 1024 ->
    exists cs', c_cs_update p cs input = Ok cs' /\ Tight spec_c8 K F T cs' (bs ++ input).
  Proof.
    intros HT Hl.
    destruct (cs_update_spec spec_c8 p (cip_is_c8 spec_c8 p POK spec_c8_cip) spec_c8_len K F T HK cs bs input HT Hl)
      as (cs' & Hu & HT').
    exists cs'. split; [apply c_cs_update_sim; exact Hu|exact HT'].
  Qed.

  Lemma c_to_parent_node_spec input ctr :
    1024 < len input -> len input < 2 ^ 64 -> ctr + chunks (len input) < 2 ^ 64 ->
    exists ta tb, c_compress_subtree_to_parent_node p input K ctr F = Ok (tcv ta ++ tcv tb) /\
                  spec_tree wide_fuel ctr input = Node ta tb /\ wf_tree ta /\ wf_tree tb.
  Proof.
    intros Hlo H64 Hctr.
    destruct (degree_pow2 p POK) as (j & Hdj & Hpc & Hd1 & j2 & HD & Hj2 & HDmax & j3 & Hm2 & Hj3 & Hdle).
    unfold c_compress_subtree_to_parent_node. unfold nlen. fold (len input). change c_CHUNK_LEN with 1024.
    replace (1024 <? len input) with true by lia. cbn [check bind].
    destruct (wide_spec spec_c8 p POK spec_c8_cip spec_c8_len K F HK wide_fuel input ctr (max_degree_or_2 p))
      as (ts & Hrun & Hwf & HC & Hn & Hn2 & _); try lia.
    { change (N.of_nat wide_fuel) with 64. rewrite two64 in H64.
      change (1024 * 2 ^ 64) with 18889465931478580854784. lia. }
    rewrite (c_wide_sim p (degree_pos p POK) _ _ _ _ _ _ _ H64 Hrun). cbn [bind].
    unfold nlen_l. rewrite map_length.
    replace (N.of_nat (length ts) <=? max_degree_or_2 p) with true by lia. cbn [check bind].
    assert (Hc2 : 2 <= chunks (len input)) by (unfold chunks; lia).
    specialize (Hn2 Hc2).
    (* 8 is the fuel of the model's condensing loop, enough for 2 * 2^8 = 512 CVs; there are at most 16 *)
    destruct (condense_loop_spec spec_c8 p POK spec_c8_cip spec_c8_len K F HK 8 ts _ Hwf HC)
      as (ta & tb & Hloop & Ht & Hwa & Hwb); try lia.
    { change (2 * 2 ^ N.of_nat 8) with 512. pose proof (ok_max_le p POK). unfold max_degree_or_2 in *. lia. }
    exists ta, tb.
    destruct (2 <? max_degree_or_2 p) eqn:E2.
    - rewrite (c_condense_sim p _ _ _ _ _ Hloop). cbn [bind]. auto.
    - assert (Hl2 : length ts = 2%nat) by lia.
      destruct ts as [|x [|y [|? ?]]]; cbn [length] in Hl2; try lia.
      cbn [condense_loop map length] in Hloop. change (N.of_nat 2 <=? 2) with true in Hloop. cbn iota in Hloop.
      inversion Hloop as [[Hx Hy]]. cbn [bind map]. rewrite Hx, Hy. auto.
  Qed.
End CWide.

Section RootBytes.
  Variable p : platform.
  Hypothesis POK : PlatformOK p.

  Lemma c_xof_block o k : wf_out o ->
    p_compress_xof p (o_cv o) (o_block o) (o_blen o) k (N.lor (o_flags o) c_flag_ROOT) = rblock o k.
  Proof.
    intros [H1 H2]. rewrite (ok_cx p POK). rewrite compress_xof_is_spec by assumption.
    unfold rblock, root_block, spec_c64. reflexivity.
  Qed.

  (* the head ends at a block boundary, unless it already is all of the output.  c1 <= 2^58: a block counter is a
     position / 64.  2^64 - 1 is c_max_position of the specification machine, the largest position of the Rust reader. *)
  Lemma c_orb_head_spec o seek out_len : wf_out o -> seek + out_len <= 2 ^ 64 - 1 -> 0 < out_len ->
    exists a c1,
      c_orb_head p o (seek mod 64) (seek / 64) out_len = Ok (stream spec_c64 o seek (N.to_nat a), out_len - a, c1) /\
      a <= out_len /\ c1 <= 2 ^ 58 /\ (a < out_len -> 64 * c1 = seek + a).
  Proof.
    intros Hwf Hmax Hn. rewrite two64 in Hmax. change (2 ^ 58) with 288230376151711744. unfold c_orb_head.
    set (k := seek / 64). set (q := seek mod 64).
    destruct (q =? 0) eqn:Eq; cbn [negb].
    - exists 0, k. replace (out_len - 0) with out_len by lia. split; [reflexivity|]. unfold k, q in *. lia.
    - cbn zeta. rewrite c_orb_available_spec by (unfold q; lia). cbn [bind].
      set (bytes := if 64 - q <? out_len then 64 - q else out_len).
      assert (Hb : bytes = N.min (64 - q) out_len) by (unfold bytes; destruct (64 - q <? out_len) eqn:E; lia).
      rewrite c_xof_block by exact Hwf. unfold nlen. rewrite rblock_length by exact Hwf.
      replace (q + bytes <=? N.of_nat 64) with true by (unfold q in *; lia). cbn [check bind].
      unfold mi_sub. replace (bytes <=? out_len) with true by lia. cbn [bind].
      unfold mi_add, fits. replace (k + 1 <? 2 ^ 64) with true by (rewrite two64; unfold k; lia). cbn [bind].
      exists bytes, (k + 1). split.
      + rewrite <- stream_in_block by (try exact Hwf; unfold q in *; lia).
        replace (64 * k + q) with seek by (unfold k, q; lia). reflexivity.
      + unfold k, q in *. lia.
  Qed.

  Lemma c_orb_rest_spec o head n c pos : wf_out o -> c <= 2 ^ 58 -> pos + n <= 2 ^ 64 - 1 -> (0 < n -> 64 * c = pos) ->
    c_orb_rest p o head n c = Ok (head ++ stream spec_c64 o pos (N.to_nat n)).
  Proof.
    intros Hwf Hc Hmax Hpos. rewrite two64 in Hmax. change (2 ^ 58) with 288230376151711744 in Hc.
    unfold c_orb_rest. cbn zeta. rewrite c_orb_blocks_spec. cbn [bind].
    assert (Hmid : (if negb (n / 64 =? 0)
                    then p_xof_many p (o_cv o) (o_block o) (o_blen o) c (N.lor (o_flags o) c_flag_ROOT) (n / 64)
                    else Ok []) = Ok (stream spec_c64 o pos (N.to_nat (n / 64 * 64)))).
    { destruct (n / 64 =? 0) eqn:Eb; cbn [negb].
      - replace (n / 64 * 64) with 0 by lia. reflexivity.
      - rewrite (ok_xm p POK) by (rewrite two64; lia).
        unfold portable_xof_many. change c_flag_ROOT with ROOT.
        rewrite (xof_loop_spec o Hwf) by (try reflexivity; change (2 ^ 58) with 288230376151711744; lia).
        f_equal. f_equal; lia. }
    rewrite Hmid. cbn [bind]. clear Hmid.
    unfold mi_add at 1. unfold fits. replace (c + n / 64 <? 2 ^ 64) with true by (rewrite two64; lia).
    cbn [bind]. rewrite c_orb_whole_spec by (rewrite two64; lia). cbn [bind].
    unfold nlen. rewrite stream_length.
    replace (N.of_nat (N.to_nat (n / 64 * 64)) =? n / 64 * 64) with true by lia. cbn [check bind].
    unfold mi_sub. replace (n / 64 * 64 <=? n) with true by lia. cbn [bind].
    set (b := n / 64 * 64). set (n2 := n - b).
    replace (N.to_nat n) with (N.to_nat b + N.to_nat n2)%nat by (unfold n2, b; lia). rewrite stream_app.
    destruct (n2 =? 0) eqn:E2; cbn [negb].
    - replace n2 with 0 by lia. change (N.to_nat 0) with 0%nat. cbn [stream nrange map]. rewrite app_nil_r. reflexivity.
    - rewrite c_xof_block by exact Hwf. rewrite rblock_length by exact Hwf.
      replace (n2 <=? N.of_nat 64) with true by (unfold n2, b; lia). cbn [check bind].
      replace (pos + N.of_nat (N.to_nat b)) with (64 * (c + n / 64) + 0) by (unfold n2, b in *; lia).
      rewrite stream_in_block by (try exact Hwf; unfold n2, b; lia).
      change (N.to_nat 0) with 0%nat. cbn [skipn]. reflexivity.
  Qed.

  Theorem c_output_root_bytes_spec o seek out_len :
    wf_out o -> seek + out_len <= 2 ^ 64 - 1 ->
    c_output_root_bytes p o seek out_len = Ok (stream spec_c64 o seek (N.to_nat out_len)).
  Proof.
    intros Hwf Hmax. rewrite c_output_root_bytes_split.
    destruct (out_len =? 0) eqn:En.
    { replace out_len with 0 by lia. reflexivity. }
    rewrite c_orb_counter_spec, c_orb_offset_spec. cbn [bind].
    destruct (c_orb_head_spec o seek out_len Hwf Hmax ltac:(lia)) as (a & c1 & Hh & Ha & Hc1 & Hal).
    rewrite Hh. cbn [bind]. rewrite (c_orb_rest_spec o _ _ c1 (seek + a) Hwf Hc1) by lia.
    replace (N.to_nat out_len) with (N.to_nat a + N.to_nat (out_len - a))%nat by lia.
    rewrite stream_app. do 3 f_equal. lia.
  Qed.
End RootBytes.

