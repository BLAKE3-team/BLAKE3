(* C09: subtree hashing (hazmat) composes to the whole-input hash. *)
From V Require Import Proofs.ListP Proofs.ResP.
From V Require Import Base.Res Base.Word Base.MachInt gen.GenConsts gen.GenFormulas
  Spec.Compress Spec.Tree Spec.Blake3 Model.Portable Model.Platform Model.RsChunk Model.RsWide
  Model.RsHasher Model.RsXof Model.RsIo
  Proofs.PortableP Proofs.ChunkP Proofs.TreeP Proofs.FormulasP Proofs.WideP Proofs.C01P Proofs.XofP
  Proofs.StackArithP Proofs.HasherP Proofs.IoP Proofs.C02P.
Open Scope N_scope.

Section Offsets.
  Variables (K : list N) (F : N).

  Lemma fresh_count c0 : hasher_count (fresh K F c0) = Ok 0.
  Proof. exact (InvS_count K F c0 _ [] (InvS_fresh K F c0)). Qed.

  Lemma set_input_offset_fresh c0 : c0 < 2 ^ 54 ->
    set_input_offset (new_internal K F) (1024 * c0) = Ok (fresh K F c0).
  Proof.
    intros Hc. change (new_internal K F) with (fresh K F 0). unfold set_input_offset. rewrite fresh_count. cbn [bind]. change (0 =? 0) with true. cbn [check bind].
    change rs_CHUNK_LEN with 1024. rewrite N.mul_comm, N.mod_mul, N.div_mul by lia. reflexivity.
  Qed.

  Lemma misuse_unaligned_offset off : off mod 1024 <> 0 -> set_input_offset (new_internal K F) off = Panic 24.
  Proof.
    intros H. change (new_internal K F) with (fresh K F 0). unfold set_input_offset. rewrite fresh_count. cbn [bind]. change (0 =? 0) with true. cbn [check bind].
    change rs_CHUNK_LEN with 1024. replace (off mod 1024 =? 0) with false by lia. reflexivity.
  Qed.

  Lemma misuse_too_much_input p c0 h bs input : c0 < 2 ^ 54 -> c0 <> 0 -> InvS K F c0 h bs ->
    1024 * lim_of c0 < len bs + len input -> hasher_update p h input = Panic 21.
  Proof.
    intros Hc Hnz HI Hbig. pose proof (lim_ok c0 Hc) as Hlo. rewrite two54 in *.
    destruct (Inv_fields _ _ _ _ _ _ _ HI) as (_ & _ & Hi & Hblim & _).
    unfold hasher_update. rewrite Hi. rewrite rs_input_offset_spec by (rewrite two64; lia). cbn [bind].
    rewrite (lim_msl c0 Hc). replace (c0 =? 0) with false by lia. cbn [bind].
    rewrite (InvS_count K F c0 h bs HI). cbn [bind]. rewrite sub_small by exact Hblim. cbn [bind].
    unfold nlen. fold (len input).
    replace (len input <=? 1024 * lim_of c0 - len bs) with false by lia. reflexivity.
  Qed.

  Lemma misuse_finalize_with_offset p c0 h bs : c0 <> 0 -> InvS K F c0 h bs ->
    hasher_finalize p h = Panic 22 /\ hasher_finalize_output p h = Panic 22.
  Proof.
    intros Hnz HI. destruct (Inv_fields _ _ _ _ _ _ _ HI) as (_ & _ & Hi & _).
    unfold hasher_finalize, hasher_finalize_output. rewrite Hi.
    replace (c0 =? 0) with false by lia. split; reflexivity.
  Qed.

  Lemma misuse_empty_subtree p c0 : finalize_non_root p (fresh K F c0) = Panic 25.
  Proof. unfold finalize_non_root. rewrite fresh_count. reflexivity. Qed.
End Offsets.

Section Hazmat.
  Variable p : platform.
  Hypothesis POK : PlatformOK p.
  Variables (K : list N) (F : N).
  Hypothesis HK : length K = 8%nat.

  Notation sub c0 bs := (subtree_output spec_c8 tree_height K F c0 bs).
  Notation cvs o := (chaining_value spec_c8 o).
  Local Opaque subtree_output.

  Lemma sub_wf c0 bs : len bs <= 1024 * 2 ^ 64 -> wf_output (sub c0 bs).
  Proof using HK. exact (wf_subtree_output spec_c8 spec_c8_len K F HK tree_height c0 bs). Qed.

  Lemma cvs_length o : wf_output o -> length (cvs o) = 32%nat.
  Proof using. apply (chaining_value_length spec_c8 spec_c8_len). Qed.

  (* a subtree hasher: set_input_offset, any update split, finalize_non_root *)
  Theorem subtree_cv_spec c0 pieces :
    c0 < 2 ^ 54 -> 0 < len (concat pieces) -> len (concat pieces) <= 1024 * lim_of c0 ->
    len (concat pieces) < 2 ^ 64 ->
    exists h, updates p (fresh K F c0) pieces = Ok h /\
              finalize_non_root p h = Ok (cvs (sub c0 (concat pieces))).
  Proof.
    intros Hc Hpos Hlim H64.
    destruct (InvS_updates p POK K F HK c0 Hc pieces (fresh K F c0) [] (InvS_fresh K F c0) Hlim H64) as (h & Hu & HI).
    cbn [app] in HI. exists h. split; [exact Hu|].
    unfold finalize_non_root. rewrite (InvS_count K F c0 h _ HI). cbn [bind].
    replace (len (concat pieces) =? 0) with false by lia. cbn [negb check bind].
    rewrite (InvS_output p POK K F HK c0 Hc h _ HI). cbn [bind]. f_equal.
    apply (wf_chaining_value spec_c8 p POK spec_c8_cip), sub_wf. rewrite two64 in *. lia.
  Qed.

  Lemma merge_non_root_spec l r : length l = 32%nat -> length r = 32%nat ->
    merge_subtrees_non_root p K F l r = cvs (parent_output K F l r).
  Proof. intros Hl Hr. apply (wf_chaining_value spec_c8 p POK spec_c8_cip), (wf_parent_output K F HK l r Hl Hr). Qed.

  Lemma merge_root_spec l r : length l = 32%nat -> length r = 32%nat ->
    merge_subtrees_root p K F l r = Ok (stream spec_c64 (parent_output K F l r) 0 32).
  Proof.
    intros Hl Hr. apply (out_root_hash_spec p POK); [exact (wf_parent_output K F HK l r Hl Hr)|reflexivity].
  Qed.

  (* a decomposition of the bytes starting at chunk c0 into subtree hashers (leaves) joined by
     merge_subtrees_non_root; validity = each leaf respects max_subtree_len (lim_of), each join
     respects left_subtree_len *)
  Inductive Decomp : N -> list N -> list N -> Prop :=
  | DLeaf c0 pieces h :
      c0 < 2 ^ 54 -> 0 < len (concat pieces) -> len (concat pieces) <= 1024 * lim_of c0 ->
      len (concat pieces) < 2 ^ 64 ->
      updates p (fresh K F c0) pieces = Ok h ->
      forall cv, finalize_non_root p h = Ok cv -> Decomp c0 (concat pieces) cv
  | DNode c0 l r cvl cvr :
      1024 < len (l ++ r) -> len l = left_len (len (l ++ r)) ->
      Decomp c0 l cvl -> Decomp (c0 + len l / 1024) r cvr ->
      Decomp c0 (l ++ r) (merge_subtrees_non_root p K F cvl cvr).

  Lemma sub_node c0 l r : 1024 < len (l ++ r) -> len (l ++ r) <= 1024 * 2 ^ 64 -> len l = left_len (len (l ++ r)) ->
    sub c0 (l ++ r) = parent_output K F (cvs (sub c0 l)) (cvs (sub (c0 + len l / 1024) r)).
  Proof.
    intros Hlo Hhi Hl. destruct (left_len_split _ Hlo) as (a & Ha & Hn). rewrite Ha in Hl. rewrite len_app in Hn.
    rewrite !subtree_output_tree. change tree_height with wide_fuel.
    rewrite <- (st_unfold c0 (l ++ r)), <- (st_unfold c0 l), <- (st_unfold (c0 + len l / 1024) r).
    rewrite (st_app c0 l r a Hl) by lia. rewrite Hl, mul_div_l by lia.
    cbn [tree_out]. rewrite !tree_cv_out. reflexivity.
  Qed.

  Theorem decomp_cv : forall c0 bs cv, Decomp c0 bs cv -> len bs <= 1024 * 2 ^ 64 -> cv = cvs (sub c0 bs).
  Proof.
    intros c0 bs cv HD. induction HD as [c0 pieces h Hc Hpos Hlim H64 Hu cv Hf | c0 l r cvl cvr Hlo Hl HDl IHl HDr IHr]; intros Hb.
    - destruct (subtree_cv_spec c0 pieces Hc Hpos Hlim H64) as (h' & Hu' & Hf').
      rewrite Hu in Hu'. inversion Hu'; subst h'. rewrite Hf in Hf'. inversion Hf'. reflexivity.
    - rewrite len_app in Hb.
      rewrite (IHl ltac:(lia)), (IHr ltac:(lia)).
      rewrite merge_non_root_spec by (apply cvs_length, sub_wf; lia).
      rewrite sub_node; [reflexivity|exact Hlo|rewrite len_app; lia|exact Hl].
  Qed.

  Theorem decomp_root l r cvl cvr :
    1024 < len (l ++ r) -> len (l ++ r) < 2 ^ 64 -> len l = left_len (len (l ++ r)) ->
    Decomp 0 l cvl -> Decomp (len l / 1024) r cvr ->
    merge_subtrees_root p K F cvl cvr = Ok (stream spec_c64 (sub 0 (l ++ r)) 0 32) /\
    merge_subtrees_inner K F cvl cvr = sub 0 (l ++ r).
  Proof.
    intros Hlo Hhi Hl HDl HDr. rewrite two64 in Hhi. rewrite len_app in Hhi.
    rewrite (decomp_cv _ _ _ HDl) by lia. rewrite (decomp_cv _ _ _ HDr) by lia.
    assert (Hsub : parent_output K F (cvs (sub 0 l)) (cvs (sub (len l / 1024) r)) = sub 0 (l ++ r)).
    { symmetry. rewrite (sub_node 0 l r); [rewrite N.add_0_l; reflexivity|exact Hlo|rewrite len_app; lia|exact Hl]. }
    split.
    - rewrite merge_root_spec by (apply cvs_length, sub_wf; lia). rewrite Hsub. reflexivity.
    - unfold merge_subtrees_inner. exact Hsub.
  Qed.

  Lemma misuse_offset_after_input c0 h bs off : c0 < 2 ^ 54 -> InvS K F c0 h bs -> 0 < len bs ->
    set_input_offset h off = Panic 23.
  Proof using POK HK.
    intros Hc HI Hpos. unfold set_input_offset. rewrite (InvS_count K F c0 h bs HI). cbn [bind].
    replace (len bs =? 0) with false by lia. reflexivity.
  Qed.
  Lemma decomp_leaf c0 pieces :
    c0 < 2 ^ 54 -> 0 < len (concat pieces) -> len (concat pieces) <= 1024 * lim_of c0 -> len (concat pieces) < 2 ^ 64 ->
    exists h cv, updates p (fresh K F c0) pieces = Ok h /\ finalize_non_root p h = Ok cv /\
                 Decomp c0 (concat pieces) cv.
  Proof.
    intros H1 H2 H3 H4. destruct (subtree_cv_spec c0 pieces H1 H2 H3 H4) as (h & U & Fi).
    exists h. eexists. split; [exact U|]. split; [exact Fi|]. exact (DLeaf c0 pieces h H1 H2 H3 H4 U _ Fi).
  Qed.
End Hazmat.
