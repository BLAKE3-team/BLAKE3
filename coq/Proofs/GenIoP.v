(* src/io.rs (copy_wide, maybe_mmap_file) and the reader / Write / mmap / rayon wrappers of src/lib.rs as TRANSLATED
   statement by statement (gen/GenIo.v) are the functions of Model/RsIo.v, for every fuel and including the Panic /
   OutOfFuel results.

   The standard-library and memmap2 calls are parameters of the translation.  They are instantiated here with
   - any reader whose `read` follows a script of Model/RsIo.v (`scripted_reader`: the four outcomes, at most the
     requested number of bytes, delivered at the front of the buffer);
   - an operating-system oracle for a file (`os`): the answer to seek(End(-16383)), whether mmap succeeds, whether
     rewind fails; a file is its cursor position and the script its reads follow;
   - Hasher::update = the model's hasher_update through the representation map (m_Hasher_update, Proofs/GenTraitsP.v). *)
From Coq Require Import NArith ZArith List Bool Lia Arith.
From V Require Import Base.Res Base.Word Base.MachInt Base.Arr Base.ArrayVec Base.MutSlice Base.SInt
  gen.GenConsts gen.GenFormulas gen.GenLibSmall gen.GenLibLoops gen.GenXof gen.GenIo
  Spec.Tree Model.Portable Model.Platform Model.RsChunk Model.RsWide Model.RsHasher Model.RsWideSched Model.RsHasherSched
  Model.RsIo
  Proofs.ResP Proofs.GenLibSmallP Proofs.GenLibLoopsP Proofs.GenTraitsP.
From V Require Proofs.IoP.
Import ListNotations.
Open Scope N_scope.
(* a tactic that diverges when the generated text changes is a failure, not a hang *)
Set Default Timeout 300.

Notation kind_Interrupted := [73; 110; 116; 101; 114; 114; 117; 112; 116; 101; 100] (only parsing).

Definition next_item (script : list read_item) : read_item * list read_item :=
  match script with [] => (RDeliver rs_COPY_BUF, []) | it :: tl => (it, tl) end.

(* one read of at most buflen bytes: (remaining data and script, bytes delivered, result) *)
Definition script_step (ek : N -> list N) (buflen : N) (st : list N * list read_item)
  : (list N * list read_item) * list N * io_result N :=
  let '(item, script') := next_item (snd st) in
  match item with
  | RInterrupted => ((fst st, script'), [], IoErr kind_Interrupted)
  | RError k => ((fst st, script'), [], IoErr (ek k))
  | RZero => ((fst st, script'), [], IoOk 0)
  | RDeliver n => let k := N.min (N.min n buflen) (nlen (fst st)) in
                  ((skipn (N.to_nat k) (fst st), script'), firstn (N.to_nat k) (fst st), IoOk k)
  end.

Definition io_of_copy (ek : N -> list N) (r : copy_result) : io_result N :=
  match r with CopyOk t => IoOk t | CopyErr k => IoErr (ek k) end.
Definition io_unit_of_copy (ek : N -> list N) (r : copy_result) : io_result unit :=
  match r with CopyOk _ => IoOk tt | CopyErr k => IoErr (ek k) end.

Section Reader.
  Variable Reader : Type.
  Variable view : Reader -> list N * list read_item.
  Variable read : Reader -> list N -> Reader * list N * io_result N.
  Variable ek : N -> list N.
  Hypothesis ek_ne : forall k, ek k <> kind_Interrupted.

  Definition scripted_reader : Prop := forall r buf,
    let s := script_step ek (nlen buf) (view r) in
    exists r' buf', read r buf = (r', buf', snd s) /\ view r' = fst (fst s) /\ length buf' = length buf /\
                    firstn (length (snd (fst s))) buf' = snd (fst s).
  Hypothesis Hread : scripted_reader.

  Lemma kind_eqb_ek k : io_kind_eqb (ek k) kind_Interrupted = false.
  Proof. unfold io_kind_eqb. destruct (list_eq_dec N.eq_dec (ek k) kind_Interrupted) as [E|E]; [destruct (ek_ne k E)|reflexivity]. Qed.

  Lemma kind_eqb_refl : io_kind_eqb kind_Interrupted kind_Interrupted = true.
  Proof. reflexivity. Qed.

  Lemma io_copy_wide_loop1_eq p : forall fuel r h buf total, nlen buf = rs_COPY_BUF ->
    io_copy_wide_loop1 Reader read m_Hasher_update fuel r (lib_of_hasher p h) buf total
    = res_map (fun x => (lib_of_hasher p (fst x), io_of_copy ek (snd x)))
        (copy_wide fuel p h (fst (view r)) (snd (view r)) total).
  Proof.
    induction fuel as [|fuel IH]; intros r h buf total Hbuf; [reflexivity|].
    cbn [io_copy_wide_loop1 copy_wide].
    destruct (Hread r buf) as (r' & buf' & Hr & Hv & Hl & Hp). rewrite Hr. clear Hr.
    unfold script_step in *. fold (next_item (snd (view r))).
    destruct (view r) as [data script]. cbn [fst snd] in *.
    destruct (next_item script) as [item script']. destruct item as [n| |k|]; cbn [fst snd] in *.
    - rewrite Hbuf in *. set (k := N.min (N.min n rs_COPY_BUF) (nlen data)) in *.
      destruct (k =? 0) eqn:E0; [reflexivity|].
      assert (Hk1 : k <= N.of_nat (length buf')).
      { rewrite Hl. fold (nlen buf). rewrite Hbuf. unfold k. lia. }
      apply N.leb_le in Hk1. rewrite Hk1. cbn [check bind].
      assert (Hlen : length (firstn (N.to_nat k) data) = N.to_nat k).
      { rewrite firstn_length. unfold k, nlen. lia. }
      rewrite Hlen in Hp. rewrite Hp. rewrite m_Hasher_update_of.
      destruct (hasher_update p h (firstn (N.to_nat k) data)) as [h1| |]; cbn [bind res_map]; try reflexivity.
      destruct (mi_add 64 total k) as [t1| |]; cbn [bind res_map]; try reflexivity.
      rewrite IH by (unfold nlen; rewrite Hl; exact Hbuf). rewrite Hv. reflexivity.
    - rewrite kind_eqb_refl. rewrite IH by (unfold nlen; rewrite Hl; exact Hbuf). rewrite Hv. reflexivity.
    - rewrite kind_eqb_ek. reflexivity.
    - reflexivity.
  Qed.

  Lemma nlen_copy_buffer : nlen (repeat 0 (N.to_nat 65536)) = rs_COPY_BUF.
  Proof. unfold nlen. rewrite repeat_length, N2Nat.id. reflexivity. Qed.

  Theorem io_copy_wide_eq p fuel r h :
    io_copy_wide Reader read m_Hasher_update fuel r (lib_of_hasher p h)
    = res_map (fun x => (lib_of_hasher p (fst x), io_of_copy ek (snd x)))
        (copy_wide fuel p h (fst (view r)) (snd (view r)) 0).
  Proof. unfold io_copy_wide. cbv zeta. apply io_copy_wide_loop1_eq. exact nlen_copy_buffer. Qed.

  Theorem io_Hasher_update_reader_fuel_eq p fuel r h :
    io_Hasher_update_reader Reader read m_Hasher_update fuel (lib_of_hasher p h) r
    = res_map (fun x => (lib_of_hasher p (fst x), io_unit_of_copy ek (snd x)))
        (copy_wide fuel p h (fst (view r)) (snd (view r)) 0).
  Proof.
    unfold io_Hasher_update_reader. rewrite io_copy_wide_eq.
    destruct (copy_wide fuel p h (fst (view r)) (snd (view r)) 0) as [[h1 [t|k]]| |]; reflexivity.
  Qed.

End Reader.

(* the script itself as a reader (state = remaining data and script): scripted_reader has an instance *)
Definition m_read (ek : N -> list N) (st : list N * list read_item) (buf : list N)
  : (list N * list read_item) * list N * io_result N :=
  let s := script_step ek (nlen buf) st in
  (fst (fst s), snd (fst s) ++ skipn (length (snd (fst s))) buf, snd s).

Lemma script_piece_le ek buf st : (length (snd (fst (script_step ek (nlen buf) st))) <= length buf)%nat.
Proof.
  unfold script_step. destruct (next_item (snd st)) as [item s']. destruct item; cbn [fst snd length]; try lia.
  rewrite firstn_length. unfold nlen. lia.
Qed.

Lemma piece_over_front (piece buf : list N) : (length piece <= length buf)%nat ->
  length (piece ++ skipn (length piece) buf) = length buf /\
  firstn (length piece) (piece ++ skipn (length piece) buf) = piece.
Proof.
  intros H. split; [rewrite app_length, skipn_length; lia|].
  rewrite firstn_app, Nat.sub_diag, firstn_all. apply app_nil_r.
Qed.

Lemma m_read_scripted ek : scripted_reader (list N * list read_item) (fun st => st) (m_read ek) ek.
Proof.
  intros r buf s. unfold m_read. fold s. eexists. eexists. split; [reflexivity|]. split; [reflexivity|].
  apply piece_over_front, script_piece_le.
Qed.

Theorem io_Hasher_Write_write_eq p h input :
  io_Hasher_Write_write m_Hasher_update (lib_of_hasher p h) input
  = res_map (fun x => (lib_of_hasher p (fst x), IoOk (snd x))) (hasher_write p h input).
Proof.
  unfold io_Hasher_Write_write, hasher_write. rewrite m_Hasher_update_of.
  destruct (hasher_update p h input); reflexivity.
Qed.

Theorem io_Hasher_update_rayon_call ext h input :
  io_Hasher_update_rayon ext h input = ext io_Join_RayonJoin h input.
Proof. unfold io_Hasher_update_rayon. apply bind_ret. Qed.

(* update_with_join::<J>: the serial join is Hasher::update; RayonJoin runs under some schedule (Model/RsHasherSched.v) *)
Definition m_Hasher_update_with_join (sch : nat -> sched) (j : io_Join) (h : lib_Hasher) (input : list N) : res lib_Hasher :=
  match j with
  | io_Join_SerialJoin => m_Hasher_update h input
  | io_Join_RayonJoin =>
      let p := lib_ChunkState_platform (lib_Hasher_chunk_state h) in
      res_map (lib_of_hasher p) (hasher_update_sched p sch (hasher_of_lib h) input)
  end.

Theorem io_Hasher_update_rayon_eq sch p h input :
  io_Hasher_update_rayon (m_Hasher_update_with_join sch) (lib_of_hasher p h) input
  = res_map (lib_of_hasher p) (hasher_update_sched p sch h input).
Proof.
  rewrite io_Hasher_update_rayon_call. unfold m_Hasher_update_with_join. cbv zeta.
  rewrite hasher_of_lib_of_hasher. reflexivity.
Qed.

Record os := { os_bytes : list N;                 (* contents of the file *)
               os_seek_end : option N;            (* seek(End(-16383)): None = error, Some off = new offset *)
               os_mmap_ok : bool;                 (* does MmapOptions::map succeed *)
               os_rewind_err : option (list N);   (* rewind: None = succeeds *)
               os_pos_ok : bool }.                (* does stream_position succeed *)
Record file := { f_pos : N; f_script : list read_item }.

Definition m_seek (o : os) (f : file) (t : lib_SeekFrom) : file * io_result N :=
  match t with
  | lib_SeekFrom_End z =>
      if (z =? - Z.of_N rs_seek_offset)%Z then
        match os_seek_end o with
        | Some off => ({| f_pos := off; f_script := f_script f |}, IoOk off)
        | None => (f, IoErr [])
        end
      else (f, IoErr [])
  | _ => (f, IoErr [])
  end.
Definition m_rewind (o : os) (f : file) : file * io_result unit :=
  match os_rewind_err o with
  | None => ({| f_pos := 0; f_script := f_script f |}, IoOk tt)
  | Some k => (f, IoErr k)
  end.
Definition m_stream_position (o : os) (f : file) : file * io_result N :=
  (f, if os_pos_ok o then IoOk (f_pos f) else IoErr []).
(* MmapOptions: the length set by len(); a Mmap: the mapped bytes.  The file is an argument because the source passes
   it (`mmap_options.map(&*file)`); what is mapped comes from the oracle. *)
Definition m_map (o : os) (opt : option N) (f : file) : io_result (list N) :=
  match opt with
  | Some n => if os_mmap_ok o then IoOk (firstn (N.to_nat n) (os_bytes o)) else IoErr []
  | None => IoErr []
  end.

Definition m_maybe_mmap_file (dbg : bool) (o : os) (f : file) :=
  io_maybe_mmap_file file (option N) (list N) dbg (m_seek o) (m_rewind o) None (fun _ n => Some n) (m_map o)
    (m_stream_position o) f.

Definition mmf_result (o : os) (f : file) : file * io_result (option (list N)) :=
  match os_seek_end o with
  | None => (f, IoOk None)                                            (* seek failed: cursor untouched *)
  | Some off =>
      let f1 := {| f_pos := off; f_script := f_script f |} in
      match mmap_decision (Some off) (os_mmap_ok o) with
      | Some len => (f1, IoOk (Some (firstn (N.to_nat len) (os_bytes o))))   (* mapped: not rewound *)
      | None =>
          if off =? 0 then (f1, IoOk None)                            (* the seek itself left the cursor at 0 *)
          else match os_rewind_err o with
               | None => ({| f_pos := 0; f_script := f_script f |}, IoOk None)   (* rewound *)
               | Some k => (f1, IoErr k)
               end
      end
  end.

Lemma seek_consts :
  mi_sub 64 io_MINIMUM_MMAP_SIZE 1 = Ok rs_seek_offset /\
  zi_sub 64 0%Z (io_u_as_i 64 rs_seek_offset) = Ok (- Z.of_N rs_seek_offset)%Z /\
  zi_as_u 64 (zi_max 64) = isize_max.
Proof. repeat split. Qed.

Theorem io_maybe_mmap_file_eq dbg o f : (dbg = true -> os_pos_ok o = true -> f_pos f = 0) ->
  m_maybe_mmap_file dbg o f = Ok (mmf_result o f).
Proof.
  intros Hdbg. cbv beta delta [m_maybe_mmap_file io_maybe_mmap_file].
  (* k1: what follows the debug assertion, a local function of the translation *)
  lazymatch goal with |- (let k1 := ?k in _) = _ => set (k1 := k) end. cbv zeta.
  assert (Hmain : k1 f = Ok (mmf_result o f)).
  { subst k1. cbv beta zeta. destruct seek_consts as (C1 & C2 & C3). rewrite C1. cbn [bind]. rewrite C2. cbn [bind]. rewrite C3.
    unfold m_seek, mmf_result, mmap_decision. rewrite Z.eqb_refl.
    destruct (os_seek_end o) as [off|]; [|reflexivity].
    destruct (off =? 0) eqn:E0; [reflexivity|].
    change (mi_sub 64 isize_max rs_seek_offset) with (Ok (isize_max - rs_seek_offset)). cbn [bind].
    destruct (off <=? isize_max - rs_seek_offset) eqn:E1.
    - rewrite add_small by (apply N.leb_le in E1; unfold isize_max, rs_seek_offset in *; word_lia).
      cbn [bind]. unfold m_map, m_rewind. destruct (os_mmap_ok o); [reflexivity|].
      destruct (os_rewind_err o); reflexivity.
    - unfold m_rewind. destruct (os_rewind_err o); reflexivity. }
  clearbody k1. destruct dbg; [|exact Hmain].
  unfold m_stream_position. destruct (os_pos_ok o); [|exact Hmain].
  rewrite (Hdbg eq_refl eq_refl). exact Hmain.
Qed.

(* the decision is RsIo.mmap_decision: mapped exactly when it says so, with exactly the length it gives *)
Theorem mmf_result_decision o f :
  snd (mmf_result o f) =
  match mmap_decision (os_seek_end o) (os_mmap_ok o) with
  | Some len => IoOk (Some (firstn (N.to_nat len) (os_bytes o)))
  | None => match os_seek_end o, os_rewind_err o with
            | Some off, Some k => if (off =? 0) || negb (off <=? isize_max - rs_seek_offset) || negb (os_mmap_ok o)
                                  then (if off =? 0 then IoOk None else IoErr k) else IoOk None
            | _, _ => IoOk None
            end
  end.
Proof.
  unfold mmf_result. destruct (os_seek_end o) as [off|]; [|reflexivity].
  destruct (mmap_decision (Some off) (os_mmap_ok o)) eqn:D; [reflexivity|].
  unfold mmap_decision in D. destruct (off =? 0); [destruct (os_rewind_err o); reflexivity|].
  destruct (os_rewind_err o); [|reflexivity]. cbn [orb fst snd].
  destruct (off <=? isize_max - rs_seek_offset); cbn [negb orb]; [|reflexivity].
  destruct (os_mmap_ok o); [discriminate|reflexivity].
Qed.

Theorem mmf_result_rewound o f : f_pos f = 0 -> snd (mmf_result o f) = IoOk None -> f_pos (fst (mmf_result o f)) = 0.
Proof.
  unfold mmf_result. intros H0. destruct (os_seek_end o) as [off|]; [|intros _; exact H0].
  destruct (mmap_decision (Some off) (os_mmap_ok o)); [discriminate|].
  destruct (off =? 0) eqn:E; [intros _; apply N.eqb_eq in E; exact E|].
  destruct (os_rewind_err o); [discriminate|reflexivity].
Qed.

(* a regular file of n bytes (seek End(-16383) succeeds iff n >= 16383 and returns n - 16383), mmap succeeds:
   all n bytes are mapped iff n >= 16 KiB *)
Theorem mmf_result_regular o f : nlen (os_bytes o) < 2 ^ 62 -> os_mmap_ok o = true ->
  os_seek_end o = (if rs_seek_offset <=? nlen (os_bytes o) then Some (nlen (os_bytes o) - rs_seek_offset) else None) ->
  snd (mmf_result o f) = if rs_MIN_MMAP <=? nlen (os_bytes o) then IoOk (Some (os_bytes o)) else IoOk None.
Proof.
  intros Hn Hm Hs. rewrite mmf_result_decision, Hs, Hm, (Proofs.IoP.mmap_decision_regular _ Hn).
  destruct (rs_MIN_MMAP <=? nlen (os_bytes o)) eqn:E.
  - unfold nlen. rewrite Nat2N.id, firstn_all. reflexivity.
  - destruct (rs_seek_offset <=? nlen (os_bytes o)) eqn:E2; [|reflexivity].
    destruct (os_rewind_err o); [|reflexivity].
    replace (nlen (os_bytes o) - rs_seek_offset =? 0) with true; [reflexivity|].
    symmetry. apply N.eqb_eq. apply N.leb_le in E2. apply N.leb_gt in E.
    unfold rs_MIN_MMAP, rs_seek_offset in *. lia.
Qed.

Definition file_view (o : os) (f : file) : list N * list read_item := (skipn (N.to_nat (f_pos f)) (os_bytes o), f_script f).
Definition m_file_read (ek : N -> list N) (o : os) (f : file) (buf : list N) : file * list N * io_result N :=
  let s := script_step ek (nlen buf) (file_view o f) in
  ({| f_pos := f_pos f + nlen (snd (fst s)); f_script := snd (fst (fst s)) |},
   snd (fst s) ++ skipn (length (snd (fst s))) buf, snd s).

Lemma m_file_read_scripted ek o : scripted_reader file (file_view o) (m_file_read ek o) ek.
Proof.
  intros r buf s. unfold m_file_read. fold s. eexists. eexists. split; [reflexivity|].
  pose proof (script_piece_le ek buf (file_view o r)) as Hle. fold s in Hle. split.
  - unfold file_view at 1. cbn [f_pos f_script]. subst s. unfold script_step.
    destruct (next_item (snd (file_view o r))) as [item s']. unfold file_view. cbn [fst snd].
    destruct item as [n| | |]; cbn [fst snd nlen length]; rewrite ?N.add_0_r; try reflexivity.
    set (k := N.min (N.min n (nlen buf)) (nlen (skipn (N.to_nat (f_pos r)) (os_bytes o)))).
    fold k. f_equal. rewrite Proofs.ListP.skipn_skipn. f_equal. unfold nlen. rewrite firstn_length.
    assert (k <= nlen (skipn (N.to_nat (f_pos r)) (os_bytes o))) by (unfold k; lia). unfold nlen in *. lia.
  - apply piece_over_front, Hle.
Qed.

Definition mmap_outcome (ek : N -> list N) (upd : hasher -> list N -> res hasher) (p : platform) (fuel : nat) (o : os) (h : hasher) (f0 : file)
  : res (lib_Hasher * io_result unit) :=
  match mmf_result o f0 with
  | (_, IoOk (Some m)) => res_map (fun h' => (lib_of_hasher p h', IoOk tt)) (upd h m)          (* mapped: update with the mapped bytes *)
  | (f1, IoOk None) =>                                                                           (* not mapped: copy_wide from the cursor *)
      res_map (fun x => (lib_of_hasher p (fst x), io_unit_of_copy ek (snd x)))
        (copy_wide fuel p h (skipn (N.to_nat (f_pos f1)) (os_bytes o)) (f_script f1) 0)
  | (_, IoErr k) => Ok (lib_of_hasher p h, IoErr k)
  end.

Section Mmap.
  Variable Path : Type.
  Variable ek : N -> list N.
  Hypothesis ek_ne : forall k, ek k <> kind_Interrupted.

  (* what update_mmap and update_mmap_rayon do with the answer of maybe_mmap_file; upd' is the update they run on a map *)
  Lemma mmap_outcome_eq (upd : hasher -> list N -> res hasher) (upd' : lib_Hasher -> list N -> res lib_Hasher) p fuel o h f0 :
    (forall m, upd' (lib_of_hasher p h) m = res_map (lib_of_hasher p) (upd h m)) ->
    (let '(f1, t4) := mmf_result o f0 in
     match t4 with
     | IoOk (Some m) => self <- upd' (lib_of_hasher p h) m ;; Ok (self, IoOk tt)
     | IoOk None => io_Hasher_update_reader file (m_file_read ek o) m_Hasher_update fuel (lib_of_hasher p h) f1
     | IoErr k => Ok (lib_of_hasher p h, IoErr k)
     end) = mmap_outcome ek upd p fuel o h f0.
  Proof.
    intros Hupd. unfold mmap_outcome. destruct (mmf_result o f0) as [f1 [[m|]|k]]; [| |reflexivity].
    - apply (bind_sim_ret (lib_of_hasher p)); [apply Hupd|reflexivity].
    - exact (io_Hasher_update_reader_fuel_eq file (file_view o) (m_file_read ek o) ek ek_ne (m_file_read_scripted ek o) p fuel f1 h).
  Qed.

  Theorem io_Hasher_update_mmap_eq dbg o (open : Path -> io_result file) p fuel h path :
    (forall f, open path = IoOk f -> dbg = true -> os_pos_ok o = true -> f_pos f = 0) ->
    io_Hasher_update_mmap Path file (option N) (list N) open dbg (m_seek o) (m_rewind o) None (fun _ n => Some n) (m_map o)
      (m_stream_position o) (fun m => m) m_Hasher_update (m_file_read ek o) fuel (lib_of_hasher p h) path
    = match open path with
      | IoOk f0 => mmap_outcome ek (hasher_update p) p fuel o h f0
      | IoErr k => Ok (lib_of_hasher p h, IoErr k)
      end.
  Proof.
    intros Hopen. unfold io_Hasher_update_mmap. cbv zeta. destruct (open path) as [f0|k]; [|reflexivity].
    fold (m_maybe_mmap_file dbg o f0). rewrite (io_maybe_mmap_file_eq dbg o f0 (Hopen f0 eq_refl)).
    exact (mmap_outcome_eq (hasher_update p) m_Hasher_update p fuel o h f0 (m_Hasher_update_of p h)).
  Qed.

  Theorem io_Hasher_update_mmap_rayon_eq sch dbg o (open : Path -> io_result file) p fuel h path :
    (forall f, open path = IoOk f -> dbg = true -> os_pos_ok o = true -> f_pos f = 0) ->
    io_Hasher_update_mmap_rayon Path file (option N) (list N) open dbg (m_seek o) (m_rewind o) None (fun _ n => Some n) (m_map o)
      (m_stream_position o) (fun m => m) (m_Hasher_update_with_join sch) (m_file_read ek o) m_Hasher_update fuel
      (lib_of_hasher p h) path
    = match open path with
      | IoOk f0 => mmap_outcome ek (fun h m => hasher_update_sched p sch h m) p fuel o h f0
      | IoErr k => Ok (lib_of_hasher p h, IoErr k)
      end.
  Proof.
    intros Hopen. unfold io_Hasher_update_mmap_rayon. cbv zeta. destruct (open path) as [f0|k]; [|reflexivity].
    fold (m_maybe_mmap_file dbg o f0). rewrite (io_maybe_mmap_file_eq dbg o f0 (Hopen f0 eq_refl)).
    exact (mmap_outcome_eq _ (io_Hasher_update_rayon (m_Hasher_update_with_join sch)) p fuel o h f0 (io_Hasher_update_rayon_eq sch p h)).
  Qed.
End Mmap.
